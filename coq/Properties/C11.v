(* C11 — hostile datagrams cannot stop the server loop, hurt established clients or be amplified.
   Model: Model/Server.v, which follows UdpServerThread.send as repaired by commit 482f311 (defect
   D19): every raising call of the loop sits under a modelled try/except; the model's only "the loop
   does not serve any more" outcome is SDied 1 = ServerContext.get_token drawing for ever.
   A datagram is (source address, bytes, symbolic body, handshake oracle answers): ALL of them
   arbitrary; the header is decoded from the bytes by the model's gate exactly as
   PacketHeader.from_bytes does. *)
From RecordUpdate Require Import RecordUpdate.
From Model Require Import Base SeqNum Wire Conn Server.
From Proofs Require Import ServerP C11P.
From Proofs Require C11QuietP.
Import RecordSetNotations.
Open Scope Z_scope.

(* 1. step_survives / the loop survives anything: the one way an iteration can leave the server not
      serving (s_dead) is the explicit SDied 1 output — no batch of datagrams, handler behaviour,
      clock value or stop flag produces any other *)
Theorem C11_step_survives : forall h e s i,
  s_dead s = false -> s_dead (fst (srv_step h e s i)) = true -> In (SDied 1) (snd (srv_step h e s i)).
Proof. intros h e s i. destruct (srv_step h e s i) eqn:E. exact (srv_step_survives _ _ _ _ _ _ E). Qed.
Print Assumptions C11_step_survives.

Theorem C11_run_survives : forall h e is s,
  s_dead s = false -> ~ In (SDied 1) (snd (srv_run h e s is)) -> s_dead (fst (srv_run h e s is)) = false.
Proof.
  intros h e is s D N. destruct (srv_run h e s is) as [s' o] eqn:R. simpl in *.
  destruct (s_dead s') eqn:D'; auto. destruct N. exact (srv_run_survives _ _ _ _ _ _ R D D').
Qed.
Print Assumptions C11_run_survives.

(* ... and SDied 1 needs a urandom stream in which every value collides: one acceptable value
   anywhere in the stream makes get_token return *)
Theorem C11_get_token_total : forall used rand,
  (exists r, In r rand /\ mask_token r <> 0 /\ ~ In (mask_token r) used) -> get_token used rand <> None.
Proof. exact get_token_some. Qed.
Print Assumptions C11_get_token_total.

(* 2. blocklist_first: datagrams from block-listed IPs are discarded before any processing or
      reply — the iteration (new state AND every output) is the one obtained without them *)
Theorem C11_blocklist_first : forall h e s i,
  srv_step h e s i
  = srv_step h e s (with_batch i (filter (fun it => negb (blocked (s_block s) it)) (i_batch i))).
Proof. exact srv_step_blocked. Qed.
Print Assumptions C11_blocklist_first.

(* 3. service to established clients: a datagram that is not sealed under the connection's session
      key for exactly its own header only increments that connection's drop counter: no handler
      event, no reply, no other connection touched, whatever the bytes are *)
Theorem C11_unauthentic_dropped : forall h e s cid now d xs cl k,
  sfind cid s = Some cl -> c_key (cl_conn cl) = Some k ->
  (forall p, d_body d <> Sealed k (d_hdr d) p) ->
  srv_recv h e s cid now d xs = (supd cid (fun c => c <| c_dropped := c_dropped c + 1 |>) s, [], false).
Proof.
  intros h e s cid now d xs cl k F K N. apply (srv_recv_unauthentic h e s cid now d xs cl k F K).
  intros [p E]. exact (N p E).
Qed.
Print Assumptions C11_unauthentic_dropped.

(* the same at the level of the connection object: Conn.recv only counts the drop *)
Theorem C11_recv_unauthentic_drop : forall c now d orcs k,
  c_key c = Some k -> (forall p, d_body d <> Sealed k (d_hdr d) p) ->
  recv c now d orcs = (c <| c_dropped := c_dropped c + 1 |>, [ORet false]).
Proof.
  intros c now d orcs k K N. apply (RecvP.recv_drop_key c now d orcs k K). intros [p E]. exact (N p E).
Qed.
Print Assumptions C11_recv_unauthentic_drop.

(* 4. strangers elicit nothing but a hello for a hello: a datagram (its header parsed by the gate) from an address
      in neither pool that is not typed CLIENT_HELLO, or from a half-open address that is not typed CHALLENGE_RESP,
      leaves the whole server state untouched and produces NO output — no reply datagram, no handler event —
      whatever the body and the handshake oracle answers are ... *)
Theorem C11_stranger_elicits_nothing : forall h e s now a d xs,
  pget a (s_conns s) = None ->
  match pget a (s_temp s) with
  | None => h_type (d_hdr d) <> CLIENT_HELLO
  | Some _ => h_type (d_hdr d) <> CHALLENGE_RESP
  end ->
  disp_item h e s now a d xs = (s, []).
Proof. exact C11QuietP.disp_item_ignores. Qed.
Print Assumptions C11_stranger_elicits_nothing.

(*    ... and so does any BATCH of such datagrams and of items the gate refuses (header that does not parse,
      block-listed source), of any length, in one loop iteration (the dispatch phase returns the state it started
      from and an empty output list): the part of no-amplification that is structural *)
Theorem C11_quiet_batch : forall h e s now q,
  Forall (C11QuietP.quiet_item s) q -> disp_all h e s now q = (s, []).
Proof. exact C11QuietP.quiet_batch. Qed.
Print Assumptions C11_quiet_batch.

(* No amplification (for every address, while it is not in `connections`: bytes_out <= bytes_in,
   given |server hello| <= |minimal accepted client hello|) is NOT proved in full here — the two theorems of 4 show that only a
   well-formed CLIENT_HELLO (resp. CHALLENGE_RESP) gets any reaction; the byte count of that reaction is checked by the
   implementation-level oracle of harness/props/C11.py (per-address byte counters at the mock socket)
   together with the measured premise. *)

(* non-vacuity: a well-formed client hello from source port 0 (the datagram that ended the thread at
   the pinned commit, D19): accepted, a token drawn, the reply refused by the socket and logged, the
   loop alive; the same hello from a block-listed address changes nothing; from an ordinary address it
   is answered by exactly one datagram *)
Definition e1500 : env := {| e_max_payload := 1434; e_max_frag := 1024; e_max_frags := 8192 |}.
Definition quiet : horacle := fun _ _ => {| r_acts := []; r_raises := false |}.
Definition hello_hdr : header :=
  {| h_to_server := true; h_ctime := 100; h_seq := 1; h_ack := 0; h_type := CLIENT_HELLO; h_len := 3;
     h_count := 1; h_ackbits := 0 |}.
Definition hello_item (a : addr) : witem :=
  {| w_addr := a; w_raw := match encode_header hello_hdr with Ok b => b | Err _ => [] end;
     w_body := Clear (be 2 1 ++ [x00]);
     w_hs := [{| x_parse := 0; x_version_ok := true; x_token := 0; x_key := 77; x_reply := [x01; x02]; x_ecdh := 0 |}] |}.
Definition step1 (a : addr) : sin :=
  {| i_td := 100 * TICKS; i_ts := 100 * TICKS; i_batch := [hello_item a]; i_rand := [5]; i_stop := false |}.

Example C11_port0_hello_survived :
  let r := srv_step quiet e1500 (srv0 cfg0 []) (step1 (7, 0)) in
  s_dead (fst r) = false /\ In (SSendErr (7, 0)) (snd r) /\ map cl_id (s_temp (fst r)) = [0].
Proof. vm_compute. repeat split; auto. Qed.

Example C11_blocked_hello_ignored :
  srv_step quiet e1500 (srv0 cfg0 [7]) (step1 (7, 5000)) = (srv0 cfg0 [7] <| s_rand := [5] |> <| s_calls := 1 |>, [SEv HUpdate]).
Proof. vm_compute. reflexivity. Qed.

Example C11_hello_answered_once :
  exists hd p, snd (srv_step quiet e1500 (srv0 cfg0 []) (step1 (7, 5000)))
               = [SHello 0 (7, 5000) 1073741829 77; SEv HUpdate; SSend (7, 5000) hd None p].
Proof. vm_compute. eauto. Qed.

(* non-vacuity of theorem 4: keep-alive / application / disconnect / challenge typed datagrams and unparsable bytes
   from five strangers in one batch *)
Definition junk_item (a : addr) (t : ptype) : witem :=
  {| w_addr := a;
     w_raw := match encode_header {| h_to_server := true; h_ctime := 100; h_seq := 9; h_ack := 0; h_type := t; h_len := 3;
                                     h_count := 1; h_ackbits := 0 |} with Ok b => b | Err _ => [] end;
     w_body := Clear [x00; x01; x02]; w_hs := [] |}.
Example C11_quiet_batch_example :
  let s0 := srv0 cfg0 [] in
  let q := [junk_item (9, 1) KEEP_ALIVE; junk_item (9, 2) APP; junk_item (9, 3) DISCONNECT; junk_item (9, 4) CHALLENGE_RESP;
            {| w_addr := (9, 5); w_raw := [x00; x01]; w_body := Bad; w_hs := [] |}] in
  Forall (C11QuietP.quiet_item s0) q /\ disp_all quiet e1500 s0 (100 * TICKS) q = (s0, []).
Proof.
  split; [|vm_compute; reflexivity].
  repeat (apply Forall_cons; [vm_compute; first [exact I | split; [reflexivity|discriminate]]|]). apply Forall_nil.
Qed.
