(* C20 — the dispatcher routes by message class; register / unregister are inverses.
   The model (Model/Dispatch.v) follows mpgameserver/dispatch.py as repaired for
   defect D15.  A table is reachable through ANY sequence of register / unregister /
   register_function / unregister_function / dispatch operations (table_of k ops), for both
   dispatcher kinds k, class and string annotations (ev_name takes the class name of either; the kind
   plays no part after that), any argument type A; no bound anywhere. *)
From Model Require Import Base Dispatch.
From Proofs Require Import DispatchP.
Open Scope Z_scope.

(* 1. after any history: if class name n has handler h, then h is the ONLY handler of n, and
      dispatch invokes h exactly once with the arguments as given (TypeError, nothing run, if the
      callable does not take that many arguments); the table is not changed by dispatch *)
Theorem C20_dispatch_exact : forall A k (ops : list (op A)) n h (client seqnum msg : A),
  let t := table_of k ops in
  In (n, h) t ->
  (forall h', In (n, h') t -> h' = h) /\
  (h_arity h = nargs k ->
     dispatch_msg k t client seqnum n msg
     = Ok [(h_id h, match k with KServer => [client; seqnum; msg] | KClient => [seqnum; msg] end)]) /\
  (h_arity h <> nargs k -> dispatch_msg k t client seqnum n msg = Err EType) /\
  fst (step k t (ODispatch client seqnum n msg)) = t.
Proof.
  intros A k ops n h client seqnum msg t H.
  pose proof (fun h' => In_lookup t n h' (wf_table_of A k ops)) as L.
  repeat apply conj; try reflexivity.
  - intros h' H'. apply L in H, H'. congruence.
  - intro Ar. rewrite dispatch_msg_spec. unfold a_dispatch.
    rewrite (L h H), (proj2 (Z.eqb_eq _ _) Ar). destruct k; reflexivity.
  - intro Ar. rewrite dispatch_msg_spec. unfold a_dispatch.
    rewrite (L h H), (proj2 (Z.eqb_neq _ _) Ar). reflexivity.
Qed.
Print Assumptions C20_dispatch_exact.

(* 2. no handler registered for the class: DispatchError, nothing is called, nothing changes *)
Theorem C20_dispatch_unknown : forall A k (t : table) n (client seqnum msg : A),
  (forall h, ~ In (n, h) t) ->
  dispatch_msg k t client seqnum n msg = Err EDispatch /\
  step k t (ODispatch client seqnum n msg) = (t, OCalls (Err EDispatch)).
Proof.
  intros A k t n c s m H.
  assert (E : dispatch_msg k t c s n m = Err EDispatch).
  { rewrite dispatch_msg_spec. unfold a_dispatch.
    destruct (lookup t n) eqn:L; [destruct (H _ (lookup_In _ _ _ L)) | reflexivity]. }
  split; [exact E|]. cbn [step]. rewrite E. reflexivity.
Qed.
Print Assumptions C20_dispatch_unknown.

(* 3. a second handler for a class that has one is refused (register_function, and register of
      a resource naming such a class); every earlier binding still resolves to its handler *)
Theorem C20_duplicate_refused : forall A k (ops : list (op A)),
  let t := table_of k ops in
  (forall a h h0, In (ev_name a, h0) t -> register_function t a h = (t, Err EOther)) /\
  (forall r, (exists m h0, In m r /\ In (ev_name (m_ann m), h0) t) ->
     exists t', register t r = (t', Err EOther) /\ forall n h, In (n, h) t -> lookup t' n = Some h).
Proof.
  intros A k ops t. split.
  - intros a h h0 H. unfold register_function.
    rewrite (proj2 (has_In _ _) (In_keys _ _ _ H)). reflexivity.
  - intros r (m & h0 & Hm & Hb). exact (register_dup r t m h0 (wf_table_of A k ops) Hm Hb).
Qed.
Print Assumptions C20_duplicate_refused.

(* 4. unregister is the exact inverse of a successful register (same table, same order) and the
      resource registers again afterwards — from every table, class or string annotations *)
Theorem C20_unregister_inverse : forall t r t',
  register t r = (t', Ok tt) ->
  unregister t' r = (t, Ok tt) /\ register (fst (unregister t' r)) r = (t', Ok tt).
Proof.
  intros t r t' H. rewrite (unregister_register _ _ _ H). split; [reflexivity | exact H].
Qed.
Print Assumptions C20_unregister_inverse.

(* 5. unregister(resource) from ANY table never raises; afterwards none of the resource's classes
      has a handler (dispatch raises DispatchError, so its handlers are no longer invoked), other
      classes keep theirs, and the resource can be registered provided its own methods name
      pairwise distinct classes *)
Theorem C20_unregister_effect : forall t r,
  exists t', unregister t r = (t', Ok tt) /\
    (forall m, In m r -> forall A k (c s msg : A),
        dispatch_msg k t' c s (ev_name (m_ann m)) msg = Err EDispatch) /\
    (forall n, ~ In n (map (fun m => ev_name (m_ann m)) r) -> lookup t' n = lookup t n) /\
    (NoDup (map (fun m => ev_name (m_ann m)) r) -> exists t'', register t' r = (t'', Ok tt)).
Proof.
  intros t r. exists (without t (enames r)). split; [apply unregister_spec|].
  assert (Hin : forall n, In n (enames r) -> lookup (without t (enames r)) n = None).
  { intros n H. rewrite lookup_without, (proj2 (name_mem_In _ _) H). reflexivity. }
  repeat apply conj.
  - intros m H A k c s msg. rewrite dispatch_msg_spec. unfold a_dispatch.
    rewrite (Hin (ev_name (m_ann m)) (in_map ename _ _ H)). reflexivity.
  - intros n H. rewrite lookup_without. destruct (name_mem n (enames r)) eqn:M; [|reflexivity].
    apply name_mem_In in M. contradiction.
  - intro ND. eexists. apply (register_fresh r _ ND). intros n H. apply lookup_None, Hin, H.
Qed.
Print Assumptions C20_unregister_effect.

(* 6. refinement over arbitrary histories: the insertion-ordered table behaves exactly as the
      mathematical finite map class name -> handler (a_run): same outcome of every operation,
      same binding of every class; keys never repeat *)
Theorem C20_refines_map : forall A k (ops : list (op A)),
  snd (run k [] ops) = snd (a_run k a_empty ops) /\
  (forall n, lookup (fst (run k [] ops)) n = fst (a_run k a_empty ops) n) /\
  NoDup (map fst (fst (run k [] ops))).
Proof.
  intros A k ops. destruct (refines_run A k ops [] a_empty refines_empty) as [[W S] E].
  exact (conj E (conj S W)).
Qed.
Print Assumptions C20_refines_map.

(* non-vacuity: one history exercising every clause — r0 handles Ev0 (class annotation) and Ev1
   (string annotation), r1 handles Ev1: register r0; dispatch Ev0; register r1 (refused);
   dispatch Ev1 (still r0's handler); unregister r0; dispatch Ev0 (DispatchError); register r0 *)
Definition ev0 : name := ["E"; "v"; "0"]%byte.
Definition ev1 : name := ["E"; "v"; "1"]%byte.
Definition hd (i : Z) : handler := {| h_id := i; h_arity := 3 |}.
Definition r0 : resource :=
  [ {| m_ann := {| a_kind := AClass; a_name := ev0 |}; m_h := hd 1 |};
    {| m_ann := {| a_kind := AStr; a_name := ev1 |}; m_h := hd 2 |} ].
Definition r1 : resource := [ {| m_ann := {| a_kind := AClass; a_name := ev1 |}; m_h := hd 3 |} ].

Example C20_history :
  run KServer []
    [ORegister r0; ODispatch 10 11 ev0 12; ORegister r1; ODispatch 20 21 ev1 22;
     OUnregister r0; ODispatch 30 31 ev0 32; ORegister r0; ODispatch 40 41 ev1 42]
  = ([(ev0, hd 1); (ev1, hd 2)],
     [OUnit (Ok tt); OCalls (Ok [(1, [10; 11; 12])]); OUnit (Err EOther); OCalls (Ok [(2, [20; 21; 22])]);
      OUnit (Ok tt); OCalls (Err EDispatch); OUnit (Ok tt); OCalls (Ok [(2, [40; 41; 42])])]).
Proof. vm_compute. reflexivity. Qed.

Example C20_inverse_premise_satisfiable :
  register [(ev1, hd 3)] [ {| m_ann := {| a_kind := AClass; a_name := ev0 |}; m_h := hd 1 |} ]
  = ([(ev1, hd 3); (ev0, hd 1)], Ok tt).
Proof. vm_compute. reflexivity. Qed.
