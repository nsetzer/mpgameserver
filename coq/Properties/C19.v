(* C19 — password hashing: the right password verifies, every other one does not, a fresh salt
   gives a different string, a malformed or truncated hash string raises ValueError / TypeError and
   never verifies.
   Model: Model/Auth.v follows mpgameserver/auth.py as repaired for defect D14 (the repair checks the
   field count, length >= 1 and salt_length + length = len(data)).  The string format, bytes.split(b':'), struct ">HBBBB" and
   base64.b64encode (Model/Base64.v) are modelled exactly.  sha256 ([sha]), base64.b64decode ([b64d])
   and scrypt ([kdf]) are ARBITRARY functions: every theorem is quantified over them and what it needs
   of them is an explicit premise (predicates at the end of Model/Auth.v):
     b64_roundtrip       b64decode (b64encode x) = x
     b64_prefix_shorter  a proper prefix of an encoding is refused or decodes to fewer bytes
     b64_err_value       b64decode fails with binascii.Error (a ValueError) only
     kdf_length          scrypt returns exactly [length] bytes
     kdf_err_value       scrypt fails with ValueError only
     kdf_err_params      whether scrypt fails does not depend on the key material
   A Python argument is [PBytes b], [PStr enc] (enc = result of .encode('utf-8')) or [POther];
   os.urandom(16) is the [salt] argument of hash_password.
   [std_digest sha kdf salt p] = scrypt(salt, 24, N=16384, r=16, p=1).derive(sha256(p)).
   Three words of the statements are defined beside the proofs: [hash_string f2 f3] = "scrypt:1:" f2 ":" f3
   and [params_in_range k] = k fits struct ">HBBBB" (Proofs/AuthP.v); [cfg_digest sha kdf c salt p] = the
   scrypt call under the settings c (Proofs/AuthCfgP.v). *)
From Model Require Import Base Base64 Auth AuthCfg.
From Proofs Require Import Base64P AuthP C19P AuthCfgP.
Open Scope Z_scope.

(* 1. verify_password(p, hash_password(p)) is True: every byte string p, every 16-byte salt *)
Theorem C19_verify_own : forall sha b64d kdf, b64_roundtrip b64d -> kdf_length kdf ->
  forall pw salt h, len salt = SALT_LENGTH -> hash_password sha kdf (PBytes pw) salt = Ok h ->
  verify_password sha b64d kdf (PBytes pw) (PStr (Ok h)) = Ok true.
Proof.
  intros sha b64d kdf HB HK pw salt h Hs H.
  apply (hashc_verify_own sha b64d kdf HB HK default_cfg pw salt h Hs); [discriminate|exact H].
Qed.
Print Assumptions C19_verify_own.

(* 2. hash_password is total on bytes up to scrypt: it returns "scrypt:1:" b64(params) ":" b64(salt+digest)
      whenever scrypt succeeds, passes scrypt's exception on otherwise, TypeError on a non-bytes password *)
Theorem C19_hash_total : forall sha kdf pw salt,
  match pw with
  | PBytes p =>
      match std_digest sha kdf salt p with
      | Ok out => hash_password sha kdf pw salt = Ok (header ++ b64e (salt ++ out))
      | Err e => hash_password sha kdf pw salt = Err e
      end
  | _ => hash_password sha kdf pw salt = Err EType
  end.
Proof.
  intros sha kdf [p|enc|] salt; try reflexivity.
  unfold hash_password, std_digest. destruct (kdf _ _ _ _ _ _); reflexivity.
Qed.
Print Assumptions C19_hash_total.

(* 3. another password q verifies against hash_password(p) EXACTLY when scrypt(sha256(.)) collides
      for the pair under that salt — so the injectivity premise of the next theorem is necessary *)
Theorem C19_verify_other_iff : forall sha b64d kdf, b64_roundtrip b64d -> kdf_length kdf ->
  forall p q salt h, len salt = SALT_LENGTH -> hash_password sha kdf (PBytes p) salt = Ok h ->
  (verify_password sha b64d kdf (PBytes q) (PStr (Ok h)) = Ok true
   <-> std_digest sha kdf salt q = std_digest sha kdf salt p).
Proof.
  intros sha b64d kdf HB HK p q salt h Hs H.
  apply (hashc_verify_other_iff sha b64d kdf HB HK default_cfg p q salt h Hs); [discriminate|exact H].
Qed.
Print Assumptions C19_verify_other_iff.

(* 4. verify_password(q, hash_password(p)) is False for q <> p, provided scrypt(sha256(.)) does not
      collide on (p, q) (kdf-injectivity, stated for the pair: no function with a 24-byte result is
      injective on all byte strings, so a global injectivity premise would be unsatisfiable) *)
Theorem C19_verify_other_false : forall sha b64d kdf,
  b64_roundtrip b64d -> kdf_length kdf -> kdf_err_params kdf ->
  forall p q salt h, len salt = SALT_LENGTH -> hash_password sha kdf (PBytes p) salt = Ok h ->
  q <> p -> std_digest sha kdf salt q <> std_digest sha kdf salt p ->
  verify_password sha b64d kdf (PBytes q) (PStr (Ok h)) = Ok false.
Proof.
  intros sha b64d kdf HB HK HE p q salt h Hs H _ Hc.
  apply (hashc_verify_other_false sha b64d kdf HB HK HE default_cfg p q salt h Hs); [discriminate|exact H|exact Hc].
Qed.
Print Assumptions C19_verify_other_false.

(* 5. two hashes made with different salts differ (same or different passwords) *)
Theorem C19_fresh_salt_differs : forall sha b64d kdf, b64_roundtrip b64d ->
  forall p1 p2 s1 s2 h1 h2, len s1 = SALT_LENGTH -> len s2 = SALT_LENGTH -> s1 <> s2 ->
  hash_password sha kdf p1 s1 = Ok h1 -> hash_password sha kdf p2 s2 = Ok h2 -> h1 <> h2.
Proof.
  intros sha b64d kdf _ p1 p2 s1 s2 h1 h2 L1 L2 Hne H1 H2 E. subst h2.
  rewrite <- default_is_hash_password in H1, H2.
  exact (Hne (proj2 (hashc_inj sha kdf default_cfg default_cfg p1 p2 s1 s2 h1 L1 L2 H1 H2))).
Qed.
Print Assumptions C19_fresh_salt_differs.

(* 6. what True means — for ANY behaviour of sha256 / b64decode / scrypt (no premise): both arguments
      have the right type, the string is exactly "scrypt:1:" f2 ":" f3 with colon-free f2, f3 that
      decode to a 6-byte parameter block and to data = salt ++ digest with length >= 1,
      len(data) = salt_length + length, and the digest IS scrypt(sha256(password)) under the
      embedded salt and parameters.  Whatever is not of that form never verifies. *)
Theorem C19_true_means_match : forall sha b64d kdf pw hs,
  verify_password sha b64d kdf pw hs = Ok true ->
  exists p h f2 f3 params data k,
    pw = PBytes p /\ hs = PStr (Ok h) /\
    h = hash_string f2 f3 /\ ~ In colon f2 /\ ~ In colon f3 /\
    split_on colon h = [lit_scrypt; lit_1; f2; f3] /\
    b64d f2 = Ok params /\ b64d f3 = Ok data /\ unpack_params params = Ok k /\
    1 <= k_len k /\ len data = k_sl k + k_len k /\
    len (skipn (Z.to_nat (k_sl k)) data) = k_len k /\
    kdf (firstn (Z.to_nat (k_sl k)) data) (k_len k) (k_N k) (k_r k) (k_p k) (sha p)
      = Ok (skipn (Z.to_nat (k_sl k)) data).
Proof. exact verify_true_inv. Qed.
Print Assumptions C19_true_means_match.

(* 7. malformed input, ALL arguments: verify_password returns a bool or raises ValueError
      (UnicodeEncodeError is one) or TypeError — never IndexError or any other kind *)
Theorem C19_malformed_raises : forall sha b64d kdf, b64_err_value b64d -> kdf_err_value kdf ->
  forall pw hs, (forall e, hs = PStr (Err e) -> e = EUnicode) ->
  match verify_password sha b64d kdf pw hs with
  | Ok _ => True
  | Err e => value_or_type e
  end.
Proof. exact verify_error_kinds. Qed.
Print Assumptions C19_malformed_raises.

(* 8. wrong argument types raise TypeError *)
Theorem C19_type_errors : forall sha b64d kdf pw hs,
  (forall p, pw <> PBytes p) \/ (forall enc, hs <> PStr enc) ->
  verify_password sha b64d kdf pw hs = Err EType.
Proof.
  intros sha b64d kdf pw hs H. destruct pw as [p|?|]; [|reflexivity ..].
  destruct hs as [?|enc|]; [reflexivity| |reflexivity].
  destruct H as [H|H]; exfalso; eapply H; reflexivity.
Qed.
Print Assumptions C19_type_errors.

(* 9. field removal / addition: a string that does not have exactly four fields raises ValueError *)
Theorem C19_field_count : forall sha b64d kdf p h,
  length (split_on colon h) <> 4%nat ->
  verify_password sha b64d kdf (PBytes p) (PStr (Ok h)) = Err EValue.
Proof.
  intros sha b64d kdf p h H. unfold verify_password. cbn [bind].
  rewrite prepare_not_four by exact H. reflexivity.
Qed.
Print Assumptions C19_field_count.

(* 10. parameter edits (what the repair of D14 checks): embedded length 0, or salt_length + length different
       from the number of decoded data bytes, raises ValueError whatever the password *)
Theorem C19_bad_lengths : forall sha b64d kdf p h f0 f1 f2 f3 params data k,
  split_on colon h = [f0; f1; f2; f3] ->
  b64d f2 = Ok params -> b64d f3 = Ok data -> unpack_params params = Ok k ->
  k_len k < 1 \/ k_sl k + k_len k <> len data ->
  verify_password sha b64d kdf (PBytes p) (PStr (Ok h)) = Err EValue.
Proof. exact verify_bad_lengths. Qed.
Print Assumptions C19_bad_lengths.

(* 11. method / version edits raise ValueError *)
Theorem C19_method_version : forall sha b64d kdf p h f0 f1 f2 f3,
  split_on colon h = [f0; f1; f2; f3] -> f0 <> lit_scrypt \/ f1 <> lit_1 ->
  b64_err_value b64d ->
  verify_password sha b64d kdf (PBytes p) (PStr (Ok h)) = Err EValue.
Proof. exact verify_method_version. Qed.
Print Assumptions C19_method_version.

(* 12. truncation at EVERY position of a string hash_password produced raises ValueError, for
       the right password and for any other *)
Theorem C19_truncated : forall sha b64d kdf,
  b64_roundtrip b64d -> b64_prefix_shorter b64d -> b64_err_value b64d -> kdf_length kdf ->
  forall p q salt h n, len salt = SALT_LENGTH -> hash_password sha kdf (PBytes p) salt = Ok h ->
  (n < length h)%nat ->
  verify_password sha b64d kdf (PBytes q) (PStr (Ok (firstn n h))) = Err EValue.
Proof.
  intros sha b64d kdf HB HP HE HK p q salt h n Hs H.
  exact (hashc_truncated sha b64d kdf HB HP HE HK default_cfg p q salt h n Hs H).
Qed.
Print Assumptions C19_truncated.

(* 13. exact behaviour on EVERY well-formed string, whatever parameters it embeds (a hash written by
       a past or future hash_password with other N, r, p, salt / digest lengths): the answer is
       scrypt(salt, length, N, r, p)(sha256(q)) == digest, exceptions of scrypt passed on *)
Theorem C19_verify_wellformed : forall sha b64d kdf, b64_roundtrip b64d ->
  forall q k salt dg, params_in_range k -> k_sl k = len salt -> k_len k = len dg -> 1 <= len dg ->
  verify_password sha b64d kdf (PBytes q) (PStr (Ok (hash_string (b64e (pack_params k)) (b64e (salt ++ dg))))) =
  (do d <- kdf salt (k_len k) (k_N k) (k_r k) (k_p k) (sha q); Ok (bytes_eqb d dg)).
Proof. exact verify_wellformed. Qed.
Print Assumptions C19_verify_wellformed.

(* 14. the hash string is ASCII and its base64 fields contain no ':' (the encoder never emits the
       separator), so .decode("utf-8") / .encode("utf-8") is the identity on it *)
Theorem C19_hash_ascii : forall sha kdf pw salt h, hash_password sha kdf pw salt = Ok h ->
  Forall (fun c => (Byte.to_N c < 128)%N) h.
Proof.
  intros sha kdf pw salt h H. rewrite <- default_is_hash_password in H.
  exact (hashc_ascii sha kdf default_cfg pw salt h H).
Qed.
Print Assumptions C19_hash_ascii.

Theorem C19_b64encode_no_colon : forall x, ~ In colon (b64e x).
Proof. exact b64e_no_colon. Qed.
Print Assumptions C19_b64encode_no_colon.

(* 15-19. the documented class attributes Auth.SALT_LENGTH / Auth.DIGEST_LENGTH changed between calls, and
   whole histories of calls in one process (Model/AuthCfg.v: hash_password_cfg c = hash_password with the
   attributes at the values c; trace = every hash call of a history with the configuration then current).
   verify_password has no configuration: it reads the parameters from the string. *)
Theorem C19_default_config : forall sha kdf pw salt,
  hash_password_cfg sha kdf default_cfg pw salt = hash_password sha kdf pw salt.
Proof. exact default_is_hash_password. Qed.
Print Assumptions C19_default_config.

(* the right password verifies whatever the settings were when its hash was made (any salt length 0..255,
   any digest length 1..255) and whatever they are when it is verified *)
Theorem C19_cfg_verify_own : forall sha b64d kdf, b64_roundtrip b64d -> kdf_length kdf ->
  forall c pw salt h, len salt = c_sl c -> 1 <= c_dl c -> hash_password_cfg sha kdf c (PBytes pw) salt = Ok h ->
  verify_password sha b64d kdf (PBytes pw) (PStr (Ok h)) = Ok true.
Proof. exact hashc_verify_own. Qed.
Print Assumptions C19_cfg_verify_own.

Theorem C19_cfg_verify_other_false : forall sha b64d kdf,
  b64_roundtrip b64d -> kdf_length kdf -> kdf_err_params kdf ->
  forall c p q salt h, len salt = c_sl c -> 1 <= c_dl c -> hash_password_cfg sha kdf c (PBytes p) salt = Ok h ->
  cfg_digest sha kdf c salt q <> cfg_digest sha kdf c salt p ->
  verify_password sha b64d kdf (PBytes q) (PStr (Ok h)) = Ok false.
Proof. exact hashc_verify_other_false. Qed.
Print Assumptions C19_cfg_verify_other_false.

(* histories: every hash call of a process - whatever was set and hashed before it - verifies its own
   password, and two calls with different salts or different settings never return the same string *)
Theorem C19_history_verify_own : forall sha b64d kdf, b64_roundtrip b64d -> kdf_length kdf ->
  forall c0 ops c pw salt h, In (c, PBytes pw, salt, Ok h) (trace sha kdf c0 ops) ->
  len salt = c_sl c -> 1 <= c_dl c ->
  verify_password sha b64d kdf (PBytes pw) (PStr (Ok h)) = Ok true.
Proof. exact history_verify_own. Qed.
Print Assumptions C19_history_verify_own.

Theorem C19_history_distinct : forall sha b64d kdf, b64_roundtrip b64d ->
  forall c0 ops c1 c2 p1 p2 s1 s2 h1 h2,
  In (c1, p1, s1, Ok h1) (trace sha kdf c0 ops) -> In (c2, p2, s2, Ok h2) (trace sha kdf c0 ops) ->
  len s1 = c_sl c1 -> len s2 = c_sl c2 -> (c1 <> c2 \/ s1 <> s2) -> h1 <> h2.
Proof. intros sha b64d kdf _. exact (history_distinct sha kdf). Qed.
Print Assumptions C19_history_distinct.

(* non-vacuity: the premises are jointly satisfiable, and the theorems fire on concrete data.
   Instance: sha = identity, b64d = the strict reference decoder of Model/Base64.v, scrypt = the
   first [length] bytes of key material ++ salt ++ zeros (ValueError for length < 0 or N < 2). *)
Definition toy_sha (x : list byte) : list byte := x.
Definition toy_kdf (salt : list byte) (ln N r p : Z) (km : list byte) : res (list byte) :=
  if (ln <? 0) || (N <? 2) then Err EValue
  else Ok (firstn (Z.to_nat ln) (km ++ salt ++ repeat x00 (Z.to_nat ln))).

Example C19_premises_consistent :
  b64_roundtrip b64d_strict /\ b64_prefix_shorter b64d_strict /\ b64_err_value b64d_strict /\
  kdf_length toy_kdf /\ kdf_err_value toy_kdf /\ kdf_err_params toy_kdf.
Proof.
  split; [exact b64d_strict_roundtrip|]. split; [exact b64d_strict_prefix|].
  split; [exact b64d_strict_err|]. unfold kdf_length, kdf_err_value, kdf_err_params, toy_kdf. repeat split.
  - intros salt ln N r p km d H. destruct ((ln <? 0) || (N <? 2)) eqn:C; [discriminate|].
    apply Bool.orb_false_iff in C. destruct C as [C _]. apply Z.ltb_ge in C.
    inversion H; subst d. unfold len. rewrite firstn_length_le; [apply Z2Nat.id; exact C|].
    rewrite !app_length, repeat_length. apply Nat.le_trans with (length salt + Z.to_nat ln)%nat;
      [apply Nat.le_add_l | apply Nat.le_add_l].
  - intros salt ln N r p km e H. destruct ((ln <? 0) || (N <? 2)); congruence.
  - intros salt ln N r p km km' e H. destruct ((ln <? 0) || (N <? 2)); congruence.
Qed.

Definition ex_salt : list byte := map byte_of_Z [1;2;3;4;5;6;7;8;9;10;11;12;13;14;15;16].
Definition ex_pw : list byte := ["p"; "w"; x00]%byte.
Definition ex_other : list byte := ["p"; "w"]%byte.
Definition ex_hash : list byte :=
  match hash_password toy_sha toy_kdf (PBytes ex_pw) ex_salt with Ok h => h | Err _ => [] end.

(* "scrypt:1:QAAQARAY:AQIDBAUGBwgJCgsMDQ4PEHB3AAECAwQFBgcICQoLDA0ODxAAAAAA" *)
Example C19_example_hash :
  hash_password toy_sha toy_kdf (PBytes ex_pw) ex_salt = Ok ex_hash /\ length ex_hash = 74%nat /\
  firstn 18 ex_hash = ["s";"c";"r";"y";"p";"t";":";"1";":";"Q";"A";"A";"Q";"A";"R";"A";"Y";":"]%byte.
Proof. vm_compute. repeat split. Qed.

Example C19_example_own_other :
  verify_password toy_sha b64d_strict toy_kdf (PBytes ex_pw) (PStr (Ok ex_hash)) = Ok true /\
  verify_password toy_sha b64d_strict toy_kdf (PBytes ex_other) (PStr (Ok ex_hash)) = Ok false /\
  std_digest toy_sha toy_kdf ex_salt ex_other <> std_digest toy_sha toy_kdf ex_salt ex_pw.
Proof. vm_compute. repeat split. discriminate. Qed.

(* the two witnesses of defect D14 are refused by the code as repaired: a string without its fourth
   field (the pinned commit raised IndexError) and salt_length = 40 >= len(data), length = 0 (the pinned
   commit answered True for every password) *)
Example C19_D14_witnesses_refused :
  verify_password toy_sha b64d_strict toy_kdf (PBytes ex_pw)
    (PStr (Ok (lit_scrypt ++ colon :: lit_1 ++ colon :: b64e (pack_params std_params)))) = Err EValue /\
  forall pw, verify_password toy_sha b64d_strict toy_kdf (PBytes pw)
    (PStr (Ok (hash_string (b64e (pack_params {| k_N := 16384; k_r := 16; k_p := 1; k_sl := 40; k_len := 0 |}))
                           (b64e ["d"; "a"; "t"; "a"]%byte)))) = Err EValue.
Proof. split; [vm_compute; reflexivity|]. intro pw. reflexivity. Qed.

(* every truncation of the example string is refused (theorem 12 at the example oracles) *)
Example C19_example_truncations :
  forallb (fun n => match verify_password toy_sha b64d_strict toy_kdf (PBytes ex_pw) (PStr (Ok (firstn n ex_hash))) with
                    | Err EValue => true | _ => false end) (seq 0 74) = true.
Proof.
  destruct C19_premises_consistent as [HB [HP [HE [HK _]]]]. destruct C19_example_hash as [H [L _]].
  apply forallb_forall. intros n Hn. apply in_seq in Hn.
  rewrite (C19_truncated _ _ _ HB HP HE HK ex_pw ex_pw ex_salt ex_hash n eq_refl H); [reflexivity|].
  rewrite L. apply Hn.
Qed.

(* the modelled encoder on the RFC 4648 test vectors ("", f, fo, foo, foob, fooba, foobar), inside Coq *)
Example C19_b64encode_rfc4648 :
  b64e [] = [] /\
  b64e ["f"]%byte = ["Z";"g";"=";"="]%byte /\
  b64e ["f";"o"]%byte = ["Z";"m";"8";"="]%byte /\
  b64e ["f";"o";"o"]%byte = ["Z";"m";"9";"v"]%byte /\
  b64e ["f";"o";"o";"b"]%byte = ["Z";"m";"9";"v";"Y";"g";"=";"="]%byte /\
  b64e ["f";"o";"o";"b";"a"]%byte = ["Z";"m";"9";"v";"Y";"m";"E";"="]%byte /\
  b64e ["f";"o";"o";"b";"a";"r"]%byte = ["Z";"m";"9";"v";"Y";"m";"F";"y"]%byte.
Proof. vm_compute. repeat split. Qed.

(* a history: hash under 16/24, raise DIGEST_LENGTH to 32 and SALT_LENGTH to 3, hash again: the second string
   embeds 3 / 32 ("QAAQAQMg") and both verify *)
Example C19_history_example :
  let tr := trace toy_sha toy_kdf default_cfg
              [AHash (PBytes ex_pw) ex_salt; ASet {| c_sl := 3; c_dl := 32 |}; AHash (PBytes ex_pw) (firstn 3 ex_salt)] in
  match map snd tr with
  | [Ok h1; Ok h2] =>
      h1 = ex_hash /\ firstn 18 h2 = ["s";"c";"r";"y";"p";"t";":";"1";":";"Q";"A";"A";"Q";"A";"Q";"M";"g";":"]%byte /\
      verify_password toy_sha b64d_strict toy_kdf (PBytes ex_pw) (PStr (Ok h1)) = Ok true /\
      verify_password toy_sha b64d_strict toy_kdf (PBytes ex_pw) (PStr (Ok h2)) = Ok true /\
      verify_password toy_sha b64d_strict toy_kdf (PBytes ex_other) (PStr (Ok h2)) = Ok false
  | _ => False
  end.
Proof. vm_compute. repeat split. Qed.
