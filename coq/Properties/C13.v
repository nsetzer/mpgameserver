(* C13 — binary serializer (mpgameserver/serializable.py): decode (encode v) = norm v with exact
   consumption, concatenated encodings decode one after another, values outside the domain are
   refused.

   Vocabulary (Model/Ser.v): value = None | bool | int | float (binary64 bits) | str (code points) |
   bytes | list | tuple | dict | set | Serializable object | SerializableEnum member | unsupported;
   reg = SerializableType.registry as data; enc = serialize_value; decode fuel bs = deserialize_value
   on a stream holding bs with `fuel` Python frames available, returning the value and the bytes
   left; norm v = the value expected back (tuple -> list, float -> float32 -> float, dict / set
   rebuilt by insertion under Python equality, an error if a key is unhashable after the trip);
   wf = the supported grammar within the documented limits, classes registered; need v = frames
   deserialize_value needs for v (linear in the nesting depth).
   fc = the two float32 conversions (struct '>f'); the general theorems hold for every fc whose
   pack result is a 32-bit pattern, and are instantiated with the Flocq model flocq_fc.
   Outside Model/Ser.v: accepts and decode_seq are defined in Proofs/C13P.v, keys_ok and exact in
   Proofs/SerNormP.v, Runs in Proofs/SerP.v, reader_of_kind, guard_spec and guard_M in
   Proofs/SerKernelsP.v. *)
From Coq Require Import Lia.
From Model Require Import Base Utf8 Ser Float32.
From Model Require Registry.
From Proofs Require Import BytesP Utf8P SerP SerNormP C13P Float32P.
From Proofs Require RegistryP.
Open Scope Z_scope.

(* The statement without the premise [norm fc v = SOk nv],
     forall v, wf fc reg v -> exists bs nv, enc fc reg v = SOk bs /\ decode ... bs = SOk (nv, []),
   is FALSE of the code (D18): see C13_refuted.  The premise says that every dict key / set element
   of v is still hashable (and comparable) after the trip. *)

(* 1. round trip with exact consumption, for every registry, every value of the grammar, every
      trailing byte string and every sufficient number of frames *)
Theorem C13_roundtrip : forall (fc : fconv) (pk : value -> option serr) (reg : registry),
  (forall b w, to32 fc b = SOk w -> 0 <= w < 2 ^ 32) ->
  forall v nv, wf fc reg v -> norm fc v = SOk nv ->
  exists bs, enc fc reg v = SOk bs /\
    forall fuel rest, (need v <= fuel)%nat -> decode fc pk reg fuel (bs ++ rest) = SOk (nv, rest).
Proof. exact roundtrip_decode. Qed.
Print Assumptions C13_roundtrip.

(* 1a. the same for the Flocq model of struct.pack('>f') / unpack (no premise left) *)
Theorem C13_roundtrip_flocq : forall pk reg v nv,
  wf flocq_fc reg v -> norm flocq_fc v = SOk nv ->
  exists bs, enc flocq_fc reg v = SOk bs /\
    forall fuel rest, (need v <= fuel)%nat -> decode flocq_fc pk reg fuel (bs ++ rest) = SOk (nv, rest).
Proof. exact (fun pk reg => roundtrip_decode flocq_fc pk reg flocq_fc_range). Qed.
Print Assumptions C13_roundtrip_flocq.

(* 1b. the premise on norm discharged syntactically: every dict key / set element is a scalar
       (None, bool, int, float, str, bytes) or an enum member of a scalar, all keys of one container at
       the same enum depth [keys_ok] — then norm succeeds and the trip returns it *)
Theorem C13_roundtrip_total : forall (fc : fconv) pk reg,
  (forall b w, to32 fc b = SOk w -> 0 <= w < 2 ^ 32) ->
  forall v, wf fc reg v -> keys_ok v ->
  exists bs nv, enc fc reg v = SOk bs /\ norm fc v = SOk nv /\
    forall fuel rest, (need v <= fuel)%nat -> decode fc pk reg fuel (bs ++ rest) = SOk (nv, rest).
Proof.
  intros fc pk reg Hr v Hwf Hk. destruct (norm_total fc reg v Hwf Hk) as [nv Hn].
  destruct (roundtrip_decode fc pk reg Hr v nv Hwf Hn) as [bs [E R]]. exists bs, nv. auto.
Qed.
Print Assumptions C13_roundtrip_total.

(* 1c. equality on the nose: a value without tuples whose floats are float32 values and whose dict
       keys / set elements are hashable and pairwise different [exact] decodes to itself *)
Theorem C13_roundtrip_exact : forall (fc : fconv) pk reg,
  (forall b w, to32 fc b = SOk w -> 0 <= w < 2 ^ 32) ->
  forall v, wf fc reg v -> exact fc v ->
  exists bs, enc fc reg v = SOk bs /\
    forall fuel rest, (need v <= fuel)%nat -> decode fc pk reg fuel (bs ++ rest) = SOk (v, rest).
Proof.
  intros fc pk reg Hr v Hwf He. apply roundtrip_decode; [exact Hr | exact Hwf | apply norm_exact, He].
Qed.
Print Assumptions C13_roundtrip_exact.

(* 2. concatenated encodings decode one after another (any number of values) *)
Theorem C13_concat : forall (fc : fconv) pk reg,
  (forall b w, to32 fc b = SOk w -> 0 <= w < 2 ^ 32) ->
  forall vs nvs, Forall2 (fun v nv => wf fc reg v /\ norm fc v = SOk nv) vs nvs ->
  exists bss, mapM (enc fc reg) vs = SOk bss /\
    forall fuel rest, (forall v, In v vs -> (need v <= fuel)%nat) ->
      decode_seq fc pk reg fuel (length vs) (concat bss ++ rest) = SOk (nvs, rest).
Proof. exact C13_concat_proof. Qed.
Print Assumptions C13_concat.

(* 2b. self-delimiting: if one encoding followed by r1 is byte-for-byte another encoding followed by
       r2, both read as the same value and leave the same rest (no encoding is a proper prefix of
       another one that means something else) *)
Theorem C13_self_delimiting : forall (fc : fconv) (pk : value -> option serr) reg,
  (forall b w, to32 fc b = SOk w -> 0 <= w < 2 ^ 32) ->
  forall v1 v2 n1 n2 b1 b2 r1 r2,
  wf fc reg v1 -> wf fc reg v2 -> norm fc v1 = SOk n1 -> norm fc v2 = SOk n2 ->
  enc fc reg v1 = SOk b1 -> enc fc reg v2 = SOk b2 ->
  b1 ++ r1 = b2 ++ r2 -> n1 = n2 /\ r1 = r2.
Proof. exact C13_self_delimiting_proof. Qed.
Print Assumptions C13_self_delimiting.

(* 3. the encoder produces bytes exactly on its domain [accepts] (64-bit ints, floats that fit
      float32, surrogate-free strings and byte strings up to 2^20 bytes, containers up to 2^14
      elements, packable class ids, legal enum members, nested arbitrarily); everything else —
      at any depth — is an error and no bytes *)
Theorem C13_domain : forall fc reg v, (exists bs, enc fc reg v = SOk bs) <-> accepts fc reg v.
Proof. exact enc_iff_accepts. Qed.
Print Assumptions C13_domain.

Theorem C13_refuses : forall fc reg v, ~ accepts fc reg v -> exists e, enc fc reg v = SErr e.
Proof.
  intros fc reg v Hn. destruct (enc fc reg v) as [bs|e] eqn:E; [|eauto].
  exfalso. apply Hn, enc_iff_accepts. eauto.
Qed.
Print Assumptions C13_refuses.

(* 3'. the refusals the property names, with the exception raised *)
Theorem C13_refuses_kinds : forall fc reg,
  (forall z, ~ (- 2 ^ 63 <= z < 2 ^ 63) -> enc fc reg (VInt z) = SErr (SE EValue)) /\
  (forall b e, to32 fc b = SErr e -> enc fc reg (VFloat b) = SErr e) /\
  (forall s c, In c s -> is_surrogate c = true -> enc fc reg (VStr s) = SErr (SE EUnicode)) /\
  (forall s bs, utf8_encode s = Some bs -> MAXB < len bs -> enc fc reg (VStr s) = SErr SName) /\
  (forall b, MAXB < len b -> enc fc reg (VBytes b) = SErr (SE EValue)) /\
  (forall l, MAXA < len l -> enc fc reg (VList l) = SErr (SE EValue) /\ enc fc reg (VTuple l) = SErr (SE EValue)
                             /\ enc fc reg (VSet l) = SErr (SE EValue)) /\
  (forall kv, MAXA < len kv -> enc fc reg (VDict kv) = SErr (SE EValue)) /\
  enc fc reg VUnsup = SErr (SE EType) /\
  (forall t ms x, reg_find reg t = Some (CEnum ms) -> tid_packable t = true -> hashable x = true ->
                  mem_py x ms = SOk false -> enc fc reg (VEnum t x) = SErr (SE EValue)).
Proof.
  intros fc reg. repeat split.
  - intros z Hz. cbn [enc]. pose proof (enc_int_cases z) as H.
    replace ((- 2 ^ 63 <=? z) && (z <? 2 ^ 63)) with false in H by lia. exact H.
  - intros b e H. cbn [enc]. rewrite H. reflexivity.
  - intros s c Hin Hs. cbn [enc]. rewrite (utf8_encode_surrogate s c Hin Hs). reflexivity.
  - intros s bs Hu Hl. cbn [enc]. rewrite Hu. replace (MAXB <? len bs) with true by lia. reflexivity.
  - intros b Hl. cbn [enc]. replace (MAXB <? len b) with true by lia. reflexivity.
  - rewrite enc_seq_eq. replace (MAXA <? len l) with true by lia. reflexivity.
  - rewrite enc_tuple_eq, enc_seq_eq. replace (MAXA <? len l) with true by lia. reflexivity.
  - rewrite enc_set_eq. replace (MAXA <? len l) with true by lia. reflexivity.
  - intros kv Hl. rewrite enc_dict_eq. replace (MAXA <? len kv) with true by lia. reflexivity.
  - intros t ms x Hr Hp Hh Hm. rewrite enc_enum_eq, Hp, Hr, Hh, Hm. reflexivity.
Qed.
Print Assumptions C13_refuses_kinds.

(* 4. D18 — the unrestricted statement is refuted: {(1, 2): 3} is in the grammar, is encoded, and the
      decoder raises TypeError on the result (a tuple comes back as a list, which is unhashable) *)
Theorem C13_refuted : forall fc pk reg,
  exists v, wf fc reg v /\
    exists bs, enc fc reg v = SOk bs /\
      decode fc pk reg 10 bs = SErr (SE EType) /\ norm fc v = SErr (SE EType).
Proof. exact C13_refuted_proof. Qed.
Print Assumptions C13_refuted.

(* 5. kernels: big-endian signed integers of the four widths chosen by |z|, and UTF-8 *)
Theorem C13_int_roundtrip : forall fc pk reg z, - 2 ^ 63 <= z < 2 ^ 63 ->
  exists bs, enc_int z = SOk bs /\
    forall f rest, Runs (dec_value fc pk reg (S (S (S f)))) (bs ++ rest) (VInt z) rest.
Proof.
  intros fc pk reg z Hz. apply enc_int_SOk in Hz as [bs E]. exists bs. split; [exact E|].
  intros f rest. apply Runs_int; [exact E | lia].
Qed.
Print Assumptions C13_int_roundtrip.

Theorem C13_utf8_roundtrip : forall s bs, utf8_encode s = Some bs -> utf8_decode bs = Some s.
Proof. exact utf8_roundtrip. Qed.
Print Assumptions C13_utf8_roundtrip.

Theorem C13_utf8_domain : forall s,
  (Forall (fun c => cp_ok c = true /\ is_surrogate c = false) s -> exists bs, utf8_encode s = Some bs) /\
  (forall c, In c s -> is_surrogate c = true -> utf8_encode s = None).
Proof. exact (fun s => conj (utf8_encode_total s) (utf8_encode_surrogate s)). Qed.
Print Assumptions C13_utf8_domain.

(* The class registry (Model/Registry.v: SerializableType.__new__, SerializableEnumType.__new__,
   setRootId).  The round-trip theorems above take the decode table as a function of type ids; these say the real
   table IS one, for every sequence of class statements and setRootId calls.  (Registry.r_reg maps an id to
   the number of a class statement, the [registry] of Model/Ser.v an id to a class description; that the
   second is read off the first is part of the modelling, no theorem relates them.) *)
(* ... the table is a bijection between the ids in use and the registered classes *)
Theorem C13_registry_bijection : forall ops, RegistryP.WF (fst (Registry.rrun Registry.reg0 ops)).
Proof. intros ops. apply RegistryP.rrun_WF. exact RegistryP.WF_reg0. Qed.
Print Assumptions C13_registry_bijection.

(* ... so a type id decodes to the one class that was given this id, and no class has two ids *)
Theorem C13_registry_lookup : forall s t c, RegistryP.WF s -> In (t, c) (Registry.r_reg s) ->
  Registry.rget t (Registry.r_reg s) = Some c /\ forall t', In (t', c) (Registry.r_reg s) -> t' = t.
Proof. exact RegistryP.WF_lookup. Qed.
Print Assumptions C13_registry_lookup.

(* ... a class statement that succeeds makes its class the one its id decodes to, and it stays so
   whatever is defined later (Serializable or enum, any module, any setRootId) *)
Theorem C13_defined_is_registered : forall s o s' t, Registry.rstep s o = (s', (t, 0)) ->
  match o with Registry.RSetRoot _ _ => True | _ => Registry.rget t (Registry.r_reg s') = Some (Registry.r_defs s) end.
Proof. exact RegistryP.defined_is_registered. Qed.
Print Assumptions C13_defined_is_registered.

Theorem C13_registered_stays : forall ops s t c, In (t, c) (Registry.r_reg s) ->
  In (t, c) (Registry.r_reg (fst (Registry.rrun s ops))).
Proof. exact RegistryP.registered_stays. Qed.
Print Assumptions C13_registered_stays.

(* ... and a class statement that is refused (id or name in use) leaves both tables unchanged *)
Theorem C13_refused_leaves_tables : forall s o s' t code, Registry.rstep s o = (s', (t, code)) -> code <> 0 ->
  Registry.r_reg s' = Registry.r_reg s /\ Registry.r_names s' = Registry.r_names s.
Proof. exact RegistryP.refused_leaves_tables. Qed.
Print Assumptions C13_refused_leaves_tables.

(* non-vacuity: the premises hold for concrete registries and values, and the
   statements compute to what the implementation does *)
Definition ex_reg : registry :=
  [(128, CEnum [VInt 1; VInt 2; VInt 3]); (200, CObj [VInt 5]); (65535, CObj [VNone; VStr [120]])].
Definition ex_val : value :=
  VList [VObj 65535 [VFloat 0x3FB999999999999A; VStr [233; 0x1F600]];
         VEnum 128 (VInt 2);
         VDict [(VStr [], VTuple [VInt (-129); VInt 32768; VInt (- 2 ^ 63)]); (VInt 1, VSet [VBool true; VFloat 0x3FF0000000000000])];
         VBytes [x00; xff]; VNone].

Example ex_wf : wf flocq_fc ex_reg ex_val.
Proof.
  cbn [wf ex_val fold_right fst snd]. unfold MAXA, MAXB.
  repeat match goal with
         | |- _ /\ _ => split
         | |- True => exact I
         | |- exists defs, reg_find _ _ = Some (CObj defs) /\ _ => eexists; split; reflexivity
         | |- exists ms, reg_find _ _ = Some (CEnum ms) /\ _ => eexists; split; reflexivity
         | |- exists w, to32 _ _ = SOk w => eexists; vm_compute; reflexivity
         | |- exists bs, utf8_encode _ = Some bs /\ _ => eexists; split; [vm_compute; reflexivity | vm_compute; discriminate]
         | |- _ = true => reflexivity
         | |- _ <= _ => vm_compute; discriminate
         | |- _ < _ => vm_compute; reflexivity
         end.
Qed.

Example ex_keys_ok : keys_ok ex_val.
Proof.
  cbn [keys_ok ex_val fold_right fst snd].
  repeat match goal with
         | |- _ /\ _ => split
         | |- True => exact I
         | |- exists d, _ => exists 0; reflexivity
         end.
Qed.

Example ex_exact : exact flocq_fc (VDict [(VEnum 128 (VInt 1), VFloat 0x3FF8000000000000); (VEnum 128 (VInt 2), VSet [VInt 7; VStr [55]])]).
Proof.
  cbn [exact map fst snd distinct forallb fold_right hashable andb].
  repeat match goal with
         | |- _ /\ _ => split
         | |- True => exact I
         | |- Forall _ [] => constructor
         | |- Forall _ (_ :: _) => constructor
         | |- exists w, to32 _ _ = SOk w /\ _ => eexists; split; [vm_compute; reflexivity | vm_compute; reflexivity]
         | |- _ = _ => reflexivity
         end.
Qed.

Example ex_norm : exists nv, norm flocq_fc ex_val = SOk nv.
Proof. eexists. vm_compute. reflexivity. Qed.

(* 0.1 comes back as float32(0.1) = 0x3FB99999A0000000, the tuple as a list, 1 and 1.0/True collapse in the set *)
Example ex_trip :
  match enc flocq_fc ex_reg ex_val with
  | SOk bs => decode flocq_fc (fun _ => None) ex_reg 9 (bs ++ [x07; x07]) = SOk
      (VList [VObj 65535 [VFloat 0x3FB99999A0000000; VStr [233; 0x1F600]];
              VEnum 128 (VInt 2);
              VDict [(VStr [], VList [VInt (-129); VInt 32768; VInt (- 2 ^ 63)]); (VInt 1, VSet [VBool true])];
              VBytes [x00; xff]; VNone], [x07; x07])
  | SErr _ => False
  end.
Proof. vm_compute. reflexivity. Qed.

(* float32 overflow is refused (FLT_MAX + half an ulp), the largest value that still rounds to FLT_MAX is not *)
Example ex_overflow : flocq_to32 0x47EFFFFFF0000000 = SErr (SE EOverflow)
                      /\ flocq_to32 0x47EFFFFFEFFFFFFF = SOk 0x7F7FFFFF.
Proof. split; vm_compute; reflexivity. Qed.

Example ex_refused : ~ accepts flocq_fc ex_reg (VList [VInt 1; VDict [(VInt 2, VInt (2 ^ 63))]]).
Proof. intro H. cbn [accepts fold_right fst snd] in H. decompose [and] H. lia. Qed.

(* overlapping setRootId ranges: the second class is refused whether it is a Serializable or an enum (D21) *)
Example ex_registry_id_in_use :
  snd (Registry.rrun Registry.reg0 [Registry.RSetRoot 1 128; Registry.RDefSer 0 10; Registry.RDefEnum 1 11; Registry.RDefSer 1 12; Registry.RDefEnum 1 10]) =
  [(0, 0); (128, 0); (128, 1); (129, 0); (130, 0)].
Proof. exact RegistryP.id_in_use_refused. Qed.

(* kernels REGENERATED from mpgameserver/serializable.py on every run (tools/py2v_bytes.py,
   Gen/SerKernels.v): the translated source text is the hand-written model the theorems above are about *)
From Model Require StructPack.
From Gen Require SerKernels.
From Proofs Require SerKernelsP.

(* 6. serialize_int as written in the source (width selection by abs(value), the four struct.pack
      formats, struct.error beyond 64 bits) is Ser.enc_int, byte for byte, for every integer.  Beyond 64
      bits the kernel fails with struct.error and enc_int with ValueError: enc_int is serialize_int as
      serialize_value calls it, inside the try/except that converts the one into the other
      (StructPack.wrap_struct).  The two size limits are in 7; that every base type id is the model's is
      SerKernelsP.gen_type_ids. *)
Theorem C13_kernel_int : forall z,
  match SerKernels.gen_serialize_int z with
  | Ok b => enc_int z = SOk b
  | Err e => e = EStruct /\ enc_int z = SErr (SE EValue)
  end.
Proof. exact SerKernelsP.gen_serialize_int_spec. Qed.
Print Assumptions C13_kernel_int.

(* 7. the two size limits, and the other translated stream writers: bool, None and bytes (length limit,
      tag, length, data) *)
Theorem C13_kernel_writers : forall (fc : fconv) (reg : registry),
  (SerKernels.gen_ser_MAX_BYTES_LENGTH = MAXB /\ SerKernels.gen_ser_MAX_ARRAY_LENGTH = MAXA) /\
  (forall b : bool, SerKernels.gen_serialize_bool (if b then 1 else 0) = Ok (tag 1 ++ [if b then x01 else x00])) /\
  (forall z, SerKernels.gen_serialize_null z = Ok (tag 15)) /\
  (forall bs, match SerKernels.gen_serialize_bytes bs with
              | Ok r => enc fc reg (VBytes bs) = SOk r
              | Err e => e = EValue /\ enc fc reg (VBytes bs) = SErr (SE EValue)
              end).
Proof.
  intros fc reg. split; [exact SerKernelsP.gen_limits|]. split; [exact SerKernelsP.gen_serialize_bool_spec|].
  split; [exact SerKernelsP.gen_serialize_null_spec|]. exact (SerKernelsP.gen_serialize_bytes_spec fc reg).
Qed.
Print Assumptions C13_kernel_writers.

(* 8. the deserialize_types table of the source (dict literal, the later subscript assignments, the
      duplicate id 11 where float32 replaces uint64) is the model's base_kind for EVERY type id; each scalar
      reader hands struct.unpack exactly the bytes its format needs, and the model's decoding of those
      bytes is struct.unpack's answer *)
Theorem C13_kernel_readers :
  (forall t, StructPack.dict_get SerKernels.gen_deserialize_types t
             = option_map SerKernelsP.reader_of_kind (base_kind t)) /\
  (forall t c n, StructPack.dict_get SerKernels.gen_deserialize_types t = Some (StructPack.RUnpack c n) ->
                 n = StructPack.fsizeZ c) /\
  (forall c l, StructPack.sp_signed c = true -> len l = StructPack.fsizeZ c ->
               StructPack.unpack1 c l = Ok (be_dec_signed l)) /\
  (forall c l, StructPack.sp_signed c = false -> c <> StructPack.Fbool -> c <> StructPack.Ff -> c <> StructPack.Fd ->
               len l = StructPack.fsizeZ c -> StructPack.unpack1 c l = Ok (be_dec l)).
Proof.
  split; [exact SerKernelsP.gen_table_is_base_kind|]. split; [exact SerKernelsP.gen_table_sizes|].
  split; [exact SerKernelsP.unpack1_signed|exact SerKernelsP.unpack1_unsigned].
Qed.
Print Assumptions C13_kernel_readers.

(* 9. the container writers as written in the source, up to their element loop (the length limit, the type tag, the
      length written through serialize_value -> serialize_int), as functions of len(value): what they write is
      exactly the header the model's encoder puts in front of the encoded elements, and they refuse exactly the
      lengths the model refuses — list, tuple, set and dict *)
Theorem C13_kernel_containers : forall (fc : fconv) (reg : registry),
  (forall l, match SerKernels.gen_serialize_seq_header (len l) with
             | Ok hd => enc fc reg (VList l) = (dos body <- mapM (enc fc reg) l; SOk (hd ++ concat body))
                        /\ enc fc reg (VTuple l) = (dos body <- mapM (enc fc reg) l; SOk (hd ++ concat body))
             | Err e => e = EValue /\ enc fc reg (VList l) = SErr (SE EValue) /\ enc fc reg (VTuple l) = SErr (SE EValue)
             end) /\
  (forall l, match SerKernels.gen_serialize_set_header (len l) with
             | Ok hd => enc fc reg (VSet l) = (dos body <- mapM (enc fc reg) l; SOk (hd ++ concat body))
             | Err e => e = EValue /\ enc fc reg (VSet l) = SErr (SE EValue)
             end) /\
  (forall kv, match SerKernels.gen_serialize_map_header (len kv) with
              | Ok hd => enc fc reg (VDict kv) =
                         (dos body <- mapM (fun p => let '(k, x) := p in dos a <- enc fc reg k; dos b <- enc fc reg x; SOk (a ++ b)) kv;
                          SOk (hd ++ concat body))
              | Err e => e = EValue /\ enc fc reg (VDict kv) = SErr (SE EValue)
              end).
Proof.
  intros fc reg. split; [exact (SerKernelsP.gen_seq_header_enc fc reg)|].
  split; [exact (SerKernelsP.gen_set_header_enc fc reg)|exact (SerKernelsP.gen_map_header_enc fc reg)].
Qed.
Print Assumptions C13_kernel_containers.

(* 10. the length guards of the five length-prefixed decoders as written in the source (the statements between
       `length = deserialize_value(...)` and the first use of length: not an int -> TypeError, above the limit ->
       ValueError, INCLUSIVE upper bound, no lower bound) are the guard of the model's dec_len, which is "decode a
       value, then that guard" *)
Theorem C13_kernel_length_guards :
  ((forall b n, SerKernels.gen_deserialize_string_guard b n = SerKernelsP.guard_spec MAXB b n) /\
   (forall b n, SerKernels.gen_deserialize_bytes_guard b n = SerKernelsP.guard_spec MAXB b n) /\
   (forall b n, SerKernels.gen_deserialize_map_guard b n = SerKernelsP.guard_spec MAXA b n) /\
   (forall b n, SerKernels.gen_deserialize_seq_guard b n = SerKernelsP.guard_spec MAXA b n) /\
   (forall b n, SerKernels.gen_deserialize_set_guard b n = SerKernelsP.guard_spec MAXA b n)) /\
  (forall (sub : M value) cap s, dec_len sub cap s = mbind sub (SerKernelsP.guard_M (SerKernelsP.guard_spec cap)) s).
Proof. split; [exact SerKernelsP.gen_guards|exact SerKernelsP.dec_len_is_guard]. Qed.
Print Assumptions C13_kernel_length_guards.

(* the translated source on the width boundaries: -129 takes two bytes, 2^63 is refused, id 11 reads a float32 *)
Example ex_kernel_int :
  SerKernels.gen_serialize_int (-129) = Ok [x00; x04; xff; x7f] /\
  SerKernels.gen_serialize_int (2 ^ 63) = Err EStruct /\
  StructPack.dict_get SerKernels.gen_deserialize_types 11 = Some (StructPack.RUnpack StructPack.Ff 4) /\
  SerKernels.gen_serialize_seq_header 16384 = Ok [x00; x10; x00; x04; x40; x00] /\
  SerKernels.gen_serialize_seq_header 16385 = Err EValue /\
  SerKernels.gen_deserialize_seq_guard true 16384 = Ok 16384 /\
  SerKernels.gen_deserialize_seq_guard true 16385 = Err EValue /\
  SerKernels.gen_deserialize_bytes_guard true (-1) = Ok (-1).
Proof. repeat split; vm_compute; reflexivity. Qed.
