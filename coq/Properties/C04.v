(* C04 — at-most-once delivery: duplicates, replays and retransmissions are dropped.
   Receiver side of Conn.v (`recv` = ConnectionBase._recv_datagram with
   BitField.insert on bitfield_pkt (32) / bitfield_msg (256), _recv_message, _recvAppFragment).

   Vocabulary.  True indices: the n-th datagram / j-th message a sender emits travels with the
   16-bit sequence number `wire n` = (n-1) mod 65535 + 1.
   R f m acc (SeqNumP, from C08): window f holds exactly "indices acc accepted, newest m".
   w_hist nb None h : duplicate flags the abstract window gives a history h of true indices
   (flagged = accepted before AND within nb of the newest); w_half = the half-range hypothesis
   (every arrival within 32767 of the newest so far); w_inwin = the in-window hypothesis (every
   repeated index arrives while at most nb behind the newest).
   An `arrival` is one _recv_datagram call annotated with the true index of the datagram and
   of each message it carries; `good k` = authentic for key k, decodable, data messages
   (APP / APP_FRAGMENT / KEEP_ALIVE / DISCONNECT / UNKNOWN: every type but the three handshake
   ones) — the traffic of an established connection.
   run_recv = the plain model run; run_g = the same run also reporting accepted datagram
   indices and processed message indices; `presented` = the message indices of the datagrams
   the datagram window let through (what the message window gets to see). *)
From Coq Require Import Lia.
From RecordUpdate Require Import RecordUpdate.
From Model Require Import Base SeqNum Wire Conn RecvSpec RecvHist.
From Proofs Require Import ConnFrameP DictP SeqNumP RecvHistP C04P.
Import RecordSetNotations.
Open Scope Z_scope.

(* 1. A duplicate datagram is dropped whole: for EVERY connection state whose datagram window
      holds the history (acc, m): a datagram (authentic or not, any content) whose index was
      accepted before and is within 32 of the newest has exactly one effect, stats.dropped + 1
      (equality of the whole state record), and returns False. *)
Theorem C04_dup_datagram_dropped : forall c now d orcs m acc n,
  R (c_bf_pkt c) m acc -> bf_nbits (c_bf_pkt c) = 32 ->
  h_seq (d_hdr d) = wire n -> 1 <= n -> Z.abs (n - m) <= HALF ->
  In n acc -> m - n <= 32 ->
  recv c now d orcs = (c <| c_dropped := c_dropped c + 1 |>, [ORet false]).
Proof.
  intros c now d orcs m acc n HR Hnb Hseq Hn Hh Hin Hw. unfold recv.
  destruct (keyless_refuses c (d_hdr d)); [reflexivity|]. destruct (open_dgram (c_key c) d); [|reflexivity].
  rewrite Hseq, (R_dup _ m acc n HR Hh Hin) by (rewrite Hnb; exact Hw). reflexivity.
Qed.
Print Assumptions C04_dup_datagram_dropped.

(* 2. A message whose index was processed before and is within 256 of the newest message index
      is skipped without any effect, in whatever datagram it arrives (a retransmission travels
      in a fresh datagram under its old message sequence number). *)
Theorem C04_msg_at_most_once_in_window : forall c now m r orcs mm accm j,
  R (c_bf_msg c) mm accm -> bf_nbits (c_bf_msg c) = 256 ->
  w_seq m = wire j -> 1 <= j -> Z.abs (j - mm) <= HALF ->
  In j accm -> mm - j <= 256 ->
  recv_msgs c now (m :: r) orcs = recv_msgs c now r (if is_hs (w_type m) then tl orcs else orcs).
Proof.
  intros c now m r orcs mm accm j HR Hnb Hseq Hj Hh Hin Hw.
  rewrite recv_msgs_cons, Hseq, (R_dup _ mm accm j HR Hh Hin) by (rewrite Hnb; exact Hw). reflexivity.
Qed.
Print Assumptions C04_msg_at_most_once_in_window.

(* 3. "processed" is "delivered": an APP message is appended to incoming_messages exactly when
      it gets past the message window ... *)
Theorem C04_app_delivered_iff_processed : forall c now m orcs, w_type m = APP ->
  match bf_insert (c_bf_msg c) (w_seq m) with
  | Ok _ => c_incoming (fst (recv_msgs c now [m] orcs)) = c_incoming c ++ [(w_seq m, w_payload m)]
  | Err _ => recv_msgs c now [m] orcs = (c, [])
  end.
Proof.
  intros c now m orcs Ht. rewrite recv_msgs_cons. unfold dispatch. rewrite Ht.
  destruct (bf_insert (c_bf_msg c) (w_seq m)); reflexivity.
Qed.
Print Assumptions C04_app_delivered_iff_processed.

(* ... and a processed fragment delivers at most one reassembled message, after which the
   context of that fragment id is closed (one reassembly per fragment id per context) *)
Theorem C04_fragment_once : forall c now mseq frag,
  let c' := fst (recv_fragment c now mseq frag) in
  c_incoming c' = c_incoming c
  \/ (exists s p, c_incoming c' = c_incoming c ++ [(s, p)])
     /\ dget (unbe (sub frag 0 2)) (c_rfrags c') = None.
Proof.
  intros c now mseq frag. unfold recv_fragment. destruct (_ <? _)%nat; [left; reflexivity|]. cbv zeta.
  destruct (fr_complete _); cbn [fst]; [|left; reflexivity].
  right. split; [eexists; eexists; reflexivity|].
  cbn. apply dget_filter_none. apply dget_ddel_same.
Qed.
Print Assumptions C04_fragment_once.

(* 4. Arbitrary receive histories (any order, gaps, duplicates, replays, retransmitted message
      indices in fresh datagrams, any position relative to the ring wrap, unbounded length):
      under the half-range hypothesis the connection drops exactly the datagrams the abstract
      32-window flags, accepts the others, and processes exactly the messages the abstract
      256-window does not flag. *)
Theorem C04_exact : forall k c l,
  c_key c = Some k -> c_bf_pkt c = bf_new 32 -> c_bf_msg c = bf_new 256 ->
  Forall (good k) l ->
  let ns := map a_n l in
  let pf := w_hist 32 None ns in
  let js := presented pf l in
  w_half 32 None ns -> w_half 256 None js ->
  map dropped_out (snd (run_recv c l)) = pf
  /\ fst (run_recv c l) = fst (fst (run_g c l))
  /\ snd (fst (run_g c l)) = fresh_of pf ns
  /\ snd (run_g c l) = fresh_of (w_hist 256 None js) js.
Proof.
  intros k c l Hk Hp Hm Hg ns pf js Hhp Hhm.
  pose proof (run_g_spec 32 256 k ltac:(lia) ltac:(lia) l c None None Hk) as H. rewrite Hp, Hm in H.
  specialize (H eq_refl eq_refl Hg Hhp Hhm). cbv zeta in H.
  destruct (run_g c l) as [[c' acc] p]. cbn [fst snd]. destruct H as (A & B & C & D). auto.
Qed.
Print Assumptions C04_exact.

(* 5. FULL STATEMENT (false, see C04_refuted):
        forall histories under the half-range hypothesis,
        NoDup (accepted datagram indices) /\ NoDup (processed message indices).
      PROVED: the same under the in-window hypothesis — every copy of a datagram arrives while
      the receiver's newest datagram is at most 32 ahead of it, every copy of a message while
      the newest message is at most 256 ahead. *)
Theorem C04_partial : forall k c l,
  c_key c = Some k -> c_bf_pkt c = bf_new 32 -> c_bf_msg c = bf_new 256 ->
  Forall (good k) l ->
  let ns := map a_n l in
  let pf := w_hist 32 None ns in
  let js := presented pf l in
  w_half 32 None ns -> w_half 256 None js ->
  w_inwin 32 None ns -> w_inwin 256 None js ->
  NoDup (snd (fst (run_g c l))) /\ NoDup (snd (run_g c l)).
Proof.
  intros k c l Hk Hp Hm Hg ns pf js Hhp Hhm Hip Him.
  destruct (C04_exact k c l Hk Hp Hm Hg Hhp Hhm) as (_ & _ & -> & ->).
  exact (conj (proj1 (w_nodup 32 ns None I Hip)) (proj1 (w_nodup 256 js None I Him))).
Qed.
Print Assumptions C04_partial.

(* 6. D16: without the in-window hypothesis the property is false.  Datagram 1 (message 1),
      then 33 newer datagrams carrying 264 newer messages, then datagram 1 again: it is accepted
      again (returns True) and message 1 reaches the application a second time. *)
Theorem C04_refuted :
  let c := wit_conn in
  let l := wit_history 33 8 in
  let ns := map a_n l in
  let js := presented (w_hist 32 None ns) l in
  c_key c = Some 7 /\ c_bf_pkt c = bf_new 32 /\ c_bf_msg c = bf_new 256
  /\ Forall (good 7) l /\ w_half 32 None ns /\ w_half 256 None js
  /\ count_occ Z.eq_dec (snd (fst (run_g c l))) 1 = 2%nat
  /\ count_occ Z.eq_dec (snd (run_g c l)) 1 = 2%nat
  /\ count_delivered 1 (fst (run_recv c l)) = 2
  /\ last (snd (run_recv c l)) [] = [ORet true].
Proof.
  cbv zeta. split; [reflexivity|]. split; [reflexivity|]. split; [reflexivity|].
  split; [apply goodb_all; vm_compute; reflexivity|].
  split; [apply w_halfb_sound; vm_compute; reflexivity|].
  split; [apply w_halfb_sound; vm_compute; reflexivity|].
  (* abstracted first, so that each run, and the history with its 34 encoded datagrams, is
     evaluated once *)
  pattern (run_g wit_conn (wit_history 33 8)), (run_recv wit_conn (wit_history 33 8)).
  pattern (wit_history 33 8). vm_compute. repeat split.
Qed.
Print Assumptions C04_refuted.

(* the boundary is exactly 32 datagrams / 256 messages *)
Theorem C04_boundary :
  (let l := wit_history 32 8 in
   count_occ Z.eq_dec (snd (fst (run_g wit_conn l))) 1 = 1%nat
   /\ count_delivered 1 (fst (run_recv wit_conn l)) = 1
   /\ last (snd (run_recv wit_conn l)) [] = [ORet false])
  /\ (let l := wit_history 33 7 in
   count_occ Z.eq_dec (snd (fst (run_g wit_conn l))) 1 = 2%nat
   /\ count_occ Z.eq_dec (snd (run_g wit_conn l)) 1 = 1%nat
   /\ count_delivered 1 (fst (run_recv wit_conn l)) = 1).
Proof.
  cbv zeta.
  pattern (run_g wit_conn (wit_history 32 8)), (run_recv wit_conn (wit_history 32 8)),
          (run_g wit_conn (wit_history 33 7)), (run_recv wit_conn (wit_history 33 7)).
  pattern (wit_history 32 8), (wit_history 33 7). vm_compute. repeat split.
Qed.
Print Assumptions C04_boundary.

(* a history across the ring wrap with a gap, a reordering, a duplicate datagram inside the
   window and a retransmission (message 131071 again in the fresh datagram 65540) satisfies
   every hypothesis of C04_exact / C04_partial; the connection accepts each datagram once and
   delivers each message once *)
Definition ex_history : list arrival :=
  [ wit_arrival 65533 [131069; 131070];
    wit_arrival 65535 [131071];
    wit_arrival 65534 [];
    wit_arrival 65535 [131071];
    wit_arrival 65537 [131072; 131073];
    wit_arrival 65533 [131069; 131070];
    wit_arrival 65540 [131071; 131074] ].

Example C04_hypotheses_satisfiable :
  let l := ex_history in
  let ns := map a_n l in
  let js := presented (w_hist 32 None ns) l in
  Forall (good 7) l /\ w_half 32 None ns /\ w_half 256 None js
  /\ w_inwin 32 None ns /\ w_inwin 256 None js
  /\ w_hist 32 None ns = [false; false; false; true; false; true; false]
  /\ snd (fst (run_g wit_conn l)) = [65533; 65535; 65534; 65537; 65540]
  /\ snd (run_g wit_conn l) = [131069; 131070; 131071; 131072; 131073; 131074]
  /\ map (fun j => count_delivered j (fst (run_recv wit_conn l))) [131069; 131070; 131071; 131072; 131073; 131074]
     = [1; 1; 1; 1; 1; 1].
Proof.
  cbv zeta. split; [apply goodb_all; vm_compute; reflexivity|].
  split; [apply w_halfb_sound; vm_compute; reflexivity|].
  split; [apply w_halfb_sound; vm_compute; reflexivity|].
  split; [apply w_inwinb_sound; vm_compute; reflexivity|].
  split; [apply w_inwinb_sound; vm_compute; reflexivity|].
  pattern (run_g wit_conn ex_history), (run_recv wit_conn ex_history). pattern ex_history. vm_compute. repeat split.
Qed.

(* the abstract window is the specification C08 proved BitField against *)
Example C04_window_is_C08_spec : forall nb n0 h,
  w_hist nb None (n0 :: h) = false :: spec_hist nb n0 [n0] h.
Proof. intros. cbn. rewrite w_hist_spec. reflexivity. Qed.
