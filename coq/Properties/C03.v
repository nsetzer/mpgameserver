(* C03 — AES-GCM nonces never repeat; nothing but the hellos travels in clear.
   Theorems only.  Model: Model/Conn.v (the ConnectionBase state machine: every way the code
   builds a datagram goes through build_packet -> emit) and Model/Wire.v (bytes).  `run e c xs`
   is the connection after ANY event list xs (sends of any size / retry mode, ticks at any times,
   received datagrams of any kind, configuration changes, disconnects); `emits` are the headers
   of the datagrams handed to the socket, in order. *)
From Model Require Import Base SeqNum Wire Conn.
From Proofs Require Import ConnFrameP NonceP ClearP.
From Gen Require HdrKernels.
From Proofs Require HdrKernelsP.
Open Scope Z_scope.

(* 1. No two datagrams built by one connection share (send-time seconds, seq) — hence never the
      12-byte nonce magic|ctime|seq|ack — for every history, including keep-alives, resends and
      any number of wrap-arounds of the 16-bit counter, provided the configured send interval
      never drops below S with 65535*S >= 1 s (default 1/60 s).  No assumption on the clock is
      needed: _build_packet refuses to build less than send_interval after the previous build,
      so 65535 builds take at least one second and change the ctime field. *)
Theorem C03_nonces_fresh : forall e S c xs c' oss,
  0 <= S -> TICKS <= RING * S -> S <= c_send_interval c -> 0 <= c_seq_send c <= RING -> all_ok S xs ->
  run e c xs = (c', oss) ->
  NoDup (map nonce2 (emits (concat oss))).
Proof. exact nonces_fresh. Qed.
Print Assumptions C03_nonces_fresh.

(* 2. The two directions never share a nonce: every header a side emits carries that side's
      direction magic (TO_SERVER from the client, TO_CLIENT from the server), for ever. *)
Theorem C03_directions : forall e S xs c c' oss,
  S <= c_send_interval c -> all_ok S xs -> run e c xs = (c', oss) ->
  c_server c' = c_server c /\ Forall (fun h => h_to_server h = negb (c_server c)) (emits (concat oss)).
Proof. exact server_flag_run. Qed.
Print Assumptions C03_directions.

(* 3. Byte level: the first 12 bytes of an encoded header (the AES-GCM nonce) determine
      (direction, ctime, seq, ack); equal nonces mean equal fields. *)
Theorem C03_nonce_bytes : forall h1 h2 b1 b2,
  encode_header h1 = Ok b1 -> encode_header h2 = Ok b2 -> firstn 12 b1 = firstn 12 b2 ->
  h_to_server h1 = h_to_server h2 /\ h_ctime h1 = h_ctime h2 /\ h_seq h1 = h_seq h2 /\ h_ack h1 = h_ack h2.
Proof. exact nonce_bytes_inj. Qed.
Print Assumptions C03_nonce_bytes.

(* 4. Whatever a connection emits while it holds a key is sealed under that key, except a packet
      typed SERVER_HELLO ... *)
Theorem C03_sealed : forall e c x c' o h kk p,
  step e c x = (c', o) -> In (OEmit h kk p) o ->
  kk = (if ptype_eqb (h_type h) SERVER_HELLO then None else c_key c').
Proof. exact step_emit_key. Qed.
Print Assumptions C03_sealed.

(*    ... and "sealed" means: Packet.to_bytes yields header || seal key (header[0:12]) (header[0:20])
      payload — the whole 20-byte header is the associated data (any crc, any seal function). *)
Theorem C03_sealed_bytes : forall crc seal c h0 ms h kk p,
  h_count h0 = len ms -> In (OEmit h kk p) (emit c (h0, ms)) ->
  to_bytes crc seal (c_key c) h0 (map wmsg_of ms) = denote crc seal h kk p.
Proof. exact emit_denotes. Qed.
Print Assumptions C03_sealed_bytes.

(* 5. Application bytes never leave in clear: for every history of a fresh connection (client or
      server side), every datagram emitted WITHOUT encryption is typed SERVER_HELLO or encodes only
      messages that are neither APP nor APP_FRAGMENT.  (Invariant behind it: while a connection has
      no key it is not CONNECTED, queues no application message and holds no retry; a key, once
      held, is never dropped.) *)
Theorem C03_no_app_in_clear : forall e b xs c' oss,
  run e (conn0 b) xs = (c', oss) ->
  Forall (fun o => forall h p, In (OEmit h None p) o ->
            h_type h = SERVER_HELLO \/
            exists ms, encode_msgs (map wmsg_of ms) = Ok p /\
                       Forall (fun m => m_type m <> APP /\ m_type m <> APP_FRAGMENT) ms) oss.
Proof. intros e b xs c' oss E. exact (proj2 (run_J e xs _ _ _ (Jinv_conn0 b) E)). Qed.
Print Assumptions C03_no_app_in_clear.

(* Not proved here (stated so that it is visible): that the clear SERVER_HELLO packet itself
   never carries an application message behind the hello.  On the single-endpoint model this
   needs two facts about the PEER (a peer holding the key never sends a second CLIENT_HELLO, and
   cannot answer the challenge before the server hello has left the queue — the second is a
   consequence of the key derivation, see C02); the correspondence run observes it on every
   history (harness/props/C03.py: no application bytes in any clear datagram). *)

(* non-vacuity: the default send interval satisfies the premise; a CONNECTED key holder emits
   a sealed APP datagram and later a sealed keep-alive with different nonces *)
Example C03_default_interval_ok : TICKS <= RING * c_send_interval (conn0 false) /\ 0 <= c_seq_send (conn0 false) <= RING.
Proof. vm_compute. repeat split; discriminate. Qed.

Definition c_ex : conn :=
  let c := conn0 false in
  mkConn false (Some 7) CONNECTED [] [] [] [] [] [] [] [] 0 0 0 (c_bf_pkt c) (c_bf_msg c)
         (c_out_timeout c) (c_temp_timeout c) (c_send_interval c) (c_ka_interval c)
         1536000 (c_last_send c) (c_last_ka c) 0 0 0 0 0 0 [] 0 0 false 0.
Definition env_ex : env := {| e_max_payload := 1434; e_max_frag := 1024; e_max_frags := 8192 |}.

Example C03_two_emissions :
  let '(_, oss) := run env_ex c_ex [ESend [x01] RNone INone; EClientTick 1536300 RxNone;
                                     EClientTick 1536600 RxNone; EClientTick 1539000 RxNone] in
  map (fun o => match o with OEmit h k _ => (h_ctime h, h_seq h, ptype_code (h_type h), k) | _ => (0, 0, 0, None) end)
      (filter is_emit (concat oss))
  = [(100, 1, 6, Some 7); (100, 2, 4, Some 7)].
Proof. vm_compute. reflexivity. Qed.

(* 3'. clause 3 stated on PacketHeader.to_bytes as regenerated from mpgameserver/connection.py on every run
       (tools/py2v_bytes.py, Gen/HdrKernels.v; proved equal to Wire.encode_header in Proofs/HdrKernelsP.v):
       the first 12 bytes it produces — the AES-GCM nonce — determine (direction, ctime, seq, ack) *)
Theorem C03_kernel_nonce_bytes : forall h1 h2 b1 b2,
  HdrKernels.gen_PacketHeader_to_bytes (if h_to_server h1 then 0 else 1) (h_ctime h1) (h_seq h1) (h_ack h1)
    (ptype_code (h_type h1)) (h_len h1) (h_count h1) (h_ackbits h1) = Ok b1 ->
  HdrKernels.gen_PacketHeader_to_bytes (if h_to_server h2 then 0 else 1) (h_ctime h2) (h_seq h2) (h_ack h2)
    (ptype_code (h_type h2)) (h_len h2) (h_count h2) (h_ackbits h2) = Ok b2 ->
  firstn 12 b1 = firstn 12 b2 ->
  h_to_server h1 = h_to_server h2 /\ h_ctime h1 = h_ctime h2 /\ h_seq h1 = h_seq h2 /\ h_ack h1 = h_ack h2.
Proof. intros h1 h2 b1 b2. rewrite !HdrKernelsP.gen_to_bytes_spec. exact (nonce_bytes_inj h1 h2 b1 b2). Qed.
Print Assumptions C03_kernel_nonce_bytes.
