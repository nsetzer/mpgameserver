(* C17 — path_join_safe never returns a path outside the root.
   Strings are lists of code points; cwd is what os.getcwd() returns. *)
From Model Require Import Base PathJoin.
From Proofs Require Import PathJoinP.
Open Scope Z_scope.

(* 1. for every cwd (absolute), every root and every name: the call raises ValueError, or it
      returns an absolute path without "."/".." components whose component list extends the
      component list of abspath(root) — the root directory itself or something beneath it *)
Theorem C17_contained : forall cwd root name,
  starts_sl cwd = true ->
  match path_join_safe cwd root name with
  | Err e => e = EValue
  | Ok result => contained (abspath cwd (replace_bs root)) result
  end.
Proof.
  intros cwd root name Hcwd. unfold path_join_safe. cbv zeta.
  destruct (_ || _); [reflexivity|].
  destruct (_ && _) eqn:E; [reflexivity | exact (abspath_contained _ _ _ Hcwd E)].
Qed.
Print Assumptions C17_contained.

(* 2. a name with a "." or ".." component (either separator) is always refused *)
Theorem C17_rejects_dots : forall cwd root name,
  In [DOT; DOT] (split_sl (replace_bs name)) \/ In [DOT] (split_sl (replace_bs name)) ->
  path_join_safe cwd root name = Err EValue.
Proof.
  intros cwd root name H. unfold path_join_safe. cbv zeta.
  replace (existsb is_dotdot _ || existsb is_dot _) with true; [reflexivity|].
  symmetry. apply orb_true_iff.
  destruct H as [H|H]; [left|right]; apply existsb_exists; eexists; (split; [exact H|reflexivity]).
Qed.
Print Assumptions C17_rejects_dots.

(* non-vacuity: a plain relative name is accepted below the root; the absolute names that the pinned
   commit let out of the root (defect D12) are refused by the code as repaired, and so is a sibling
   directory whose name extends the root's; a relative root is taken below cwd *)
Definition s_srv_www := [47;115;114;118;47;119;119;119].                 (* "/srv/www" *)
Definition s_etc_passwd := [47;101;116;99;47;112;97;115;115;119;100].    (* "/etc/passwd" *)
Example C17_accepts_plain_name :
  path_join_safe [47;116;109;112] s_srv_www [97;47;98] = Ok (s_srv_www ++ [47;97;47;98]).   (* "a/b" *)
Proof. vm_compute. reflexivity. Qed.
Example C17_refuses_absolute :
  path_join_safe [47;116;109;112] s_srv_www s_etc_passwd = Err EValue /\
  path_join_safe [47;116;109;112] s_srv_www (47 :: s_etc_passwd) = Err EValue /\
  path_join_safe [47;116;109;112] s_srv_www (map (fun c => if c =? 47 then 92 else c) s_etc_passwd) = Err EValue /\
  path_join_safe [47;116;109;112] s_srv_www (s_srv_www ++ [120;47;97]) = Err EValue.      (* "/srv/wwwx/a" *)
Proof. vm_compute. repeat split. Qed.
Example C17_relative_root_uses_cwd :
  path_join_safe [47;116;109;112] [119] [97] = Ok [47;116;109;112;47;119;47;97].          (* cwd /tmp, root "w", "a" *)
Proof. vm_compute. reflexivity. Qed.
