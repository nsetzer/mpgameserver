(* C12 — keep-alives and time-outs: idle links stay up, dead peers are detected, settings take
   effect.  Time is an integer number of ticks (Conn.TICKS per second).
   Model: Model/Conn.v (connection state machine: _build_packet, ClientServerConnection.update,
   timedout) and Model/Client.v (UdpClient setters/connect, ServerContext settings, the server
   sweep's drop test). *)
From RecordUpdate Require Import RecordUpdate.
From Model Require Import Base SeqNum Wire Conn Client Net Server TimedNet.
Import RecordSetNotations.
From Proofs Require Import PackP TimingP IdleP IdleSrvP C12P.
Open Scope Z_scope.

(* 1. Keep-alive: an idle CONNECTED endpoint whose last packet is older than the keep-alive
      interval (and than the send interval) emits a KEEP_ALIVE under its key at its next tick —
      server side (ServerClientConnection.update) ... *)
Theorem C12_server_keepalive : forall e c now c' o,
  c_status c = CONNECTED -> c_outgoing c = [] -> c_pretry_msg c = [] ->
  c_send_interval c < now - c_last_send c -> c_ka_interval c < now - c_last_ka c ->
  server_tick e c now = (c', o) ->
  (exists h, In (OEmit h (c_key c) []) o /\ h_type h = KEEP_ALIVE) /\ c_last_ka c' = now /\ c_last_send c' = now.
Proof. exact server_tick_keepalive. Qed.
Print Assumptions C12_server_keepalive.

(*    ... and client side (UdpClient.update with nothing to read), as long as the client has heard
      from the server within 5 s *)
Theorem C12_client_keepalive : forall e c now c' o,
  c_status c = CONNECTED -> c_outgoing c = [] -> c_pretry_msg c = [] -> c_hello_sent c = 0 ->
  (c_last_recv c <= 0 \/ now <= c_last_recv c + 5 * TICKS) ->
  c_send_interval c < now - c_last_send c -> c_ka_interval c < now - c_last_ka c ->
  client_tick e c now RxNone = (c', o) ->
  (exists h, In (OEmit h (c_key c) []) o /\ h_type h = KEEP_ALIVE) /\ c_last_ka c' = now /\ c_last_send c' = now.
Proof. exact client_tick_keepalive. Qed.
Print Assumptions C12_client_keepalive.

(* 2. Cadence, whatever is queued: after every tick of a CONNECTED endpoint either a packet was
      assembled at this tick, or the last one is at most max(keep-alive interval, send interval) old.
      With ticks at most tau apart, consecutive packets are therefore at most
      max(keep-alive, send interval) + tau apart. *)
Theorem C12_cadence : forall e c now c' o,
  c_status c = CONNECTED -> no_unknown c -> c_last_send c = c_last_ka c ->
  server_tick e c now = (c', o) ->
  c_last_send c' = c_last_ka c' /\
  (c_last_ka c' = now \/
   (c_last_ka c' = c_last_ka c /\ now - c_last_ka c <= Z.max (c_ka_interval c) (c_send_interval c))).
Proof. exact server_tick_cadence. Qed.
Print Assumptions C12_cadence.

(* 3. The liveness clock: an accepted datagram sets last_recv to now, a refused one leaves it;
      the server's sweep drops a client exactly when it is DISCONNECTED or has been silent for
      the configured time (connection_timeout / temp_connection_timeout) — so a peer heard within
      the time-out is never dropped and a silent one is dropped at the first sweep after it. *)
Theorem C12_liveness_clock : forall c now d orcs c' o,
  recv c now d orcs = (c', o) ->
  (accepted o -> c_last_recv c' = now) /\ (~ accepted o -> ~ raised o = true -> c_last_recv c' = c_last_recv c).
Proof. exact recv_clock. Qed.
Print Assumptions C12_liveness_clock.

Theorem C12_server_drop : forall timeout c now,
  sweep_drops timeout c now = true <-> (c_status c = DISCONNECTED \/ timeout <= now - c_last_recv c).
Proof. exact sweep_drops_spec. Qed.
Print Assumptions C12_server_drop.

(* 4. The client: DROPPED exactly when the server has been silent for more than 5 s; an
      unanswered connect ends DISCONNECTED at the first update later than the configured
      time-out, the callback (if one was given) is called with False and the timer is cleared ... *)
Theorem C12_client_update : forall c now c' o,
  client_update c now = (c', o) ->
  let silent := (c_last_recv c >? 0) && (now >? c_last_recv c + 5 * TICKS) in
  let expired := negb (c_hello_sent c =? 0) && (now - c_hello_sent c >? c_temp_timeout c) in
  c_status c' = (if expired then DISCONNECTED else if silent then DROPPED else c_status c) /\
  c_hello_sent c' = (if expired then 0 else c_hello_sent c) /\
  o = (if expired && c_conn_cb c then [OConnCb false] else []) /\
  c_conn_cb c' = c_conn_cb c /\ c_key c' = c_key c /\ c_last_recv c' = c_last_recv c.
Proof. exact client_update_spec. Qed.
Print Assumptions C12_client_update.

(*    ... and once the timer is clear no later event of any kind (other than a new connect) makes
      the callback report failure again: at most one False per connect attempt. *)
Theorem C12_connect_failure_once : forall e xs c c' oss,
  c_hello_sent c = 0 -> forallb (fun x => negb (is_hello_ev x)) xs = true -> run e c xs = (c', oss) ->
  c_hello_sent c' = 0 /\ Forall (fun o => ~ In (OConnCb false) o) oss.
Proof. exact connect_failure_once. Qed.
Print Assumptions C12_connect_failure_once.

(* 5. Settings: for every sequence of UdpClient setter calls, connects and connection events, in
      any order, the connection's keep-alive interval / connect time-out / message time-out equal
      the values set last (or the defaults); nothing but a setter changes them. *)
Theorem C12_client_settings : forall e ops u u' os,
  ucfg_inv u -> Forall uop_ok ops -> urun e u ops = (u', os) ->
  ucfg_inv u' /\ u_ka u' = last_ka ops (u_ka u) /\ u_tt u' = last_tt ops (u_tt u) /\ u_ot u' = last_ot ops (u_ot u).
Proof. exact setters_effective. Qed.
Print Assumptions C12_client_settings.

(*    ServerContext: the four settings hold the last values set, and a connection created for a
      new client takes keep-alive interval and message time-out from them. *)
Theorem C12_server_settings : forall ops s,
  let s' := fold_left sstep ops s in
  s_ka s' = slast (fun op => match op with SSetKeepAlive v => Some v | _ => None end) ops (s_ka s) /\
  s_conn_timeout s' = slast (fun op => match op with SSetConnTimeout v => Some v | _ => None end) ops (s_conn_timeout s) /\
  s_temp_timeout s' = slast (fun op => match op with SSetTempTimeout v => Some v | _ => None end) ops (s_temp_timeout s) /\
  s_ot s' = slast (fun op => match op with SSetMsgTimeout v => Some v | _ => None end) ops (s_ot s) /\
  c_ka_interval (new_server_conn s') = s_ka s' /\ c_out_timeout (new_server_conn s') = s_ot s'.
Proof. exact server_settings_effective. Qed.
Print Assumptions C12_server_settings.

(* 6. The two endpoints together (Model/TimedNet.v): a client endpoint and the server-side connection
      of that client under one clock, the server loop's time-out rule (server_sweep) with
      connection_timeout T, the client's 5 s rule (inside client_tick), and a network that shows every
      datagram to the peer at most d after its emission (reordering, further copies up to `life` after
      the emission, and junk the receiver cannot open, allowed) while both sides call update() at least
      every tau (tvalid).
      For an established idle pair (established: both CONNECTED under the same key, nothing queued,
      each side has the other's newest datagram, liveness clocks no older than one keep-alive
      period), EVERY keep-alive interval / send interval of either side, EVERY T, tau, d with
          max(K_client, si_client) + tau + d <  T        (the server removes at now - last_recv >= T)
          max(K_server, si_server) + tau + d <= 5 s      (the client reports DROPPED at now > last_recv + 5 s)
          d <= life <= (HALF - 1) * (max(K, si) + 1) for both sides   (fewer than half the 16-bit ring alive)
      (params_ok) and EVERY admissible history of ANY length:
      (1) both sides are still CONNECTED under the key and the server has not removed the client; *)
Theorem C12_idle_pair_stays_up : forall e P k cli srv t0 hs,
  established k t0 cli srv -> params_ok P cli srv -> tvalid e P (tnet0 cli srv t0) hs ->
  pair_up k (trun e P (tnet0 cli srv t0) hs).
Proof. exact idle_pair_stays_up. Qed.
Print Assumptions C12_idle_pair_stays_up.

(*    (1') quantitatively: neither liveness clock is ever older than the peer's keep-alive period + one
      tick + the network delay (which is why neither time-out rule fires); *)
Theorem C12_idle_pair_clocks_fresh : forall e P k cli srv t0 hs,
  established k t0 cli srv -> params_ok P cli srv -> tvalid e P (tnet0 cli srv t0) hs ->
  let n := trun e P (tnet0 cli srv t0) hs in
  t_clk n - c_last_recv (t_srv n) <= kmax cli + tp_tau P + tp_d P /\
  t_clk n - c_last_recv (t_cli n) <= kmax srv + tp_tau P + tp_d P.
Proof. exact idle_pair_clocks_fresh. Qed.
Print Assumptions C12_idle_pair_clocks_fresh.

(*    (2) each side has emitted sealed KEEP_ALIVEs only, the first at most max(K, si) + tau after
      base_time (its last packet before the start, or one keep-alive period before the start if that
      is later), consecutive ones at most max(K, si) + tau apart, the newest at most that old. *)
Theorem C12_idle_pair_cadence : forall e P k cli srv t0 hs,
  established k t0 cli srv -> params_ok P cli srv -> tvalid e P (tnet0 cli srv t0) hs ->
  let n := trun e P (tnet0 cli srv t0) hs in
  (cadence_ok (kmax cli + tp_tau P) (base_time cli t0) (t_clk n) (t_cs n)
   /\ Forall (fun x => ka_dgram k (snd x)) (wd_log (t_cs n))) /\
  (cadence_ok (kmax srv + tp_tau P) (base_time srv t0) (t_clk n) (t_sc n)
   /\ Forall (fun x => ka_dgram k (snd x)) (wd_log (t_sc n))).
Proof. exact idle_pair_cadence. Qed.
Print Assumptions C12_idle_pair_cadence.

(*    Admissibility is checked event by event, so (1) and (2) hold at every moment of a history: *)
Theorem C12_idle_pair_prefix : forall e P vs1 n vs2, tvalid e P n (vs1 ++ vs2) -> tvalid e P n vs1.
Proof. exact tvalid_app. Qed.
Print Assumptions C12_idle_pair_prefix.

(*    server_sweep, the server-side step of the pair, is what the sweep of the full server-loop model
      (Model/Server.v, tied to server.py) does to a CONNECTED client it does not remove: *)
Theorem C12_server_sweep_is_the_server_loop : forall h e s now cid cl c' o,
  pfind cid (s_conns s) = Some cl -> c_status (cl_conn cl) = CONNECTED ->
  server_sweep e (g_conn_timeout (s_cfg s)) (cl_conn cl) now = (c', o, false) ->
  exists s' so pp, sweep_conn h e s now cid = (s', so, pp) /\ pfind cid (s_conns s') = Some (with_conn cl c').
Proof. exact sweep_conn_is_server_sweep. Qed.
Print Assumptions C12_server_sweep_is_the_server_loop.

(*    The quantifier "keep-alive < timeout" of the property text is not enough, even over a perfect
      network (d = 0): with the client's keep-alive interval 75000 ticks (4.88 s) < T = 76800 (5 s)
      and update() every 1800 ticks, so that max(K, si) + tau + d = T, an admissible history of an
      established idle pair ends with the server removing the client.  The strict inequality of
      params_ok is exact. *)
Theorem C12_idle_keepalive_lt_timeout_refuted :
  exists e P k cli srv t0 hs,
    established k t0 cli srv /\ c_ka_interval cli < tp_T P /\ tp_d P = 0
    /\ kmax cli + tp_tau P + tp_d P = tp_T P /\ kmax srv + tp_tau P + tp_d P <= 5 * TICKS
    /\ tvalid e P (tnet0 cli srv t0) hs
    /\ t_swept (trun e P (tnet0 cli srv t0) hs) = true.
Proof. exact idle_keepalive_lt_timeout_refuted_proof. Qed.
Print Assumptions C12_idle_keepalive_lt_timeout_refuted.

(*    ... and likewise the client's bound: server keep-alive interval 75001, tau 1800, d = 0, so that
      max(K, si) + tau + d = 5 s + 1 tick: the client reports DROPPED. *)
Theorem C12_idle_pair_client_bound_tight :
  exists e P k cli srv t0 hs,
    established k t0 cli srv /\ tp_d P = 0
    /\ kmax cli + tp_tau P + tp_d P < tp_T P /\ kmax srv + tp_tau P + tp_d P = 5 * TICKS + 1
    /\ tvalid e P (tnet0 cli srv t0) hs
    /\ c_status (t_cli (trun e P (tnet0 cli srv t0) hs)) = DROPPED.
Proof. exact idle_pair_client_bound_tight_proof. Qed.
Print Assumptions C12_idle_pair_client_bound_tight.

(* Modelled, not verified: real clocks and the threads that call update(); socket buffering (the
   history says when each datagram is shown to the receiver: the client reads one per update());
   replays of datagrams older than `life`, in particular of the handshake's CHALLENGE_RESP (sealed under
   the session key before the pair was established), are outside tvalid; bytes whose header does
   not parse make UdpClient.update raise and are outside tvalid. *)

(* non-vacuity *)
Example C12_settings_history :
  let '(u, _) := urun {| e_max_payload := 1434; e_max_frag := 1024; e_max_frags := 8192 |} uclient0
      [USetKeepAlive 3000; UConnect 1536000 [] true; USetMsgTimeout 7680; UConn (EClientTick 1536300 RxNone);
       USetKeepAlive 4500] in
  match u_conn u with Some c => (c_ka_interval c, c_temp_timeout c, c_out_timeout c, status_code (c_status c)) | None => (0,0,0,0) end
  = (4500, 2 * TICKS, 7680, 1).
Proof. vm_compute. reflexivity. Qed.

Example C12_connect_timeout_fires :
  let c := client_hello ((conn0 false) <| c_conn_cb := true |>) 1536000 [] in
  let '(c1, o1) := client_update c (1536000 + 2 * TICKS) in
  let '(c2, o2) := client_update c1 (1536000 + 2 * TICKS + 15) in
  let '(c3, o3) := client_update c2 (1536000 + 3 * TICKS) in
  (o1, status_code (c_status c1), o2, status_code (c_status c2), o3) = ([], 1, [OConnCb false], 4, []).
Proof. vm_compute. reflexivity. Qed.

(* the two-endpoint theorems are not vacuous: the state the MODEL's own handshake produces is an
   established pair, and a history with delays of 600 and 900 ticks, duplicates (also 1800 ticks late),
   junk and a simultaneous delivery satisfies tvalid for tau = 300, d = 900, life = 2700, T = 5 s
   (defaults K = 0.1 s) *)
Example C12_idle_pair_hypotheses_hold :
  established 7 (ex_t0 + 900) (nA ex_hs4) (nB ex_hs4) /\ params_ok ex_P (nA ex_hs4) (nB ex_hs4)
  /\ tvalid env1500 ex_P (tnet0 (nA ex_hs4) (nB ex_hs4) (ex_t0 + 900)) ex_hist.
Proof.
  split; [apply establishedb_ok; vm_compute; reflexivity|].
  split; [apply params_okb_ok; vm_compute; reflexivity|apply tvalidb_ok; vm_compute; reflexivity].
Qed.

(* ... and what the theorems say about it, computed: three keep-alives each way, 1800 ticks apart,
   all of them received (the liveness clocks stand at the latest deliveries), nothing in flight *)
Example C12_idle_pair_history_computed :
  let n := trun env1500 ex_P (tnet0 (nA ex_hs4) (nB ex_hs4) (ex_t0 + 900)) ex_hist in
  (status_code (c_status (t_cli n)), status_code (c_status (t_srv n)), t_swept n,
   map (fun t => t - ex_t0) (em_times (t_cs n)), map (fun t => t - ex_t0) (em_times (t_sc n)),
   c_last_recv (t_cli n) - ex_t0, c_last_recv (t_srv n) - ex_t0, wd_pend (t_cs n), wd_pend (t_sc n))
  = (2, 2, false, [2400; 4200; 6000], [2400; 4200; 6000], 6300, 6000, [], []).
Proof. vm_compute. reflexivity. Qed.
