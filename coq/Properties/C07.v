(* C07 — send callbacks are truthful and fire exactly once.
   Model: Model/Conn.v.  Callbacks are the outputs `OCallback id ok` of a step; `run e c xs` is the
   connection after ANY event list (sends of any size / retry mode, ticks at any times, received
   datagrams of any kind incl. forged or stale ack fields, reconfiguration). *)
From Model Require Import Base SeqNum Wire Conn.
From Proofs Require Import ConnFrameP NonceP AckP CallbackP AckNamesP.
From Proofs Require Import OnceP OnceLiveP.
Open Scope Z_scope.

(* 1. Success is only ever reported while processing a received datagram that passes the
      authenticity gate of the connection (it opens under the key the connection holds and its
      sequence number is new) and whose header names, in its (ack, ack_bits) fields, a datagram
      that is pending.  No tick, time-out sweep, send or configuration call reports success, and a
      datagram that is not authentic for the key — whatever ack fields it carries — reports nothing. *)
Theorem C07_success_only_on_ack : forall e c x c' o,
  Inc c -> step e c x = (c', o) -> (exists id, In (OCallback id true) o) ->
  exists now d orcs c0, (x = ERecv now d orcs /\ c0 = c \/
                         x = EClientTick now (RxDgram d orcs) /\ c0 = fst (client_update c now)) /\
    passes_gate c0 d /\
    exists s t, In (s, t) (c_packs c0) /\ hdr_acks (h_ack (d_hdr d)) (h_ackbits (d_hdr d)) s = true.
Proof. exact step_true. Qed.
Print Assumptions C07_success_only_on_ack.

(* 2. Failure is only reported when a datagram is declared timed out in that very step, or — for
      a fragmented message — when one of its fragments had been declared timed out before ... *)
Theorem C07_failure_only_on_timeout : forall e c x c' o id,
  step e c x = (c', o) -> In (OCallback id false) o ->
  c_timeouts c < c_timeouts c' \/
  exists fid fs0, dget fid (c_pfrags c) = Some fs0 /\ fs_ucb fs0 = IUser id /\ In (Some false) (fs_acks fs0).
Proof. intros e c x c' o id E Hin. exact (step_false e c x c' o E id Hin). Qed.
Print Assumptions C07_failure_only_on_timeout.

(*    ... and a datagram is declared timed out only if it is still pending (never acknowledged)
      and at least message-time-out old. *)
Theorem C07_timeout_only_when_due : forall e c x c' o,
  step e c x = (c', o) -> c_timeouts c < c_timeouts c' ->
  exists s t, (In (s, t) (c_packs c) \/ t = ev_now x) /\ c_out_timeout c <= ev_now x - t.
Proof. exact step_timeout_due. Qed.
Print Assumptions C07_timeout_only_when_due.

(* 3. Every datagram sent is resolved exactly once.  Over every history that keeps the connection
      open (no disconnect, message time-out and send interval not reconfigured), with message
      time-out < 65534 send intervals: pending sequence numbers are pairwise distinct, and
      #acked + #timed-out + #pending - #assembled is constant — each assembled datagram enters
      pending_acks once and leaves it once, as acked or as timed out ... *)
Theorem C07_resolved_once : forall e S K xs c n c' oss,
  all_open xs -> AInv S K c n -> run e c xs = (c', oss) ->
  exists n', AInv S K c' n'.
Proof. exact run_AInv. Qed.
Print Assumptions C07_resolved_once.

Theorem C07_resolved_once_fresh : forall S b, 0 < S -> S <= 256 -> TICKS < (RING - 1) * S -> AInv S 0 (conn0 b) 0.
Proof. exact AInv_conn0. Qed.
Print Assumptions C07_resolved_once_fresh.

(*    ... within the deadline: after any tick that passes the send-rate gate, nothing older than
      the message time-out is left pending. *)
Theorem C07_resolution_deadline : forall e S K c n now c' o,
  AInv S K c n -> c_send_interval c < now - c_last_send c -> server_tick e c now = (c', o) ->
  forall s t, In (s, t) (c_packs c') -> now - t <= c_out_timeout c.
Proof. exact server_tick_deadline. Qed.
Print Assumptions C07_resolution_deadline.

(* 4. The peer's half of "success means accepted": the (ack, ack_bits) fields a connection puts
      into EVERY header it emits name only datagrams it has accepted.  Received datagrams are
      labelled with the sender's true datagram index n (wire sequence number wire n; arrivals within
      HALF of the newest accepted index: the half-range hypothesis of C08); the ghost g records the
      newest accepted index and the set of accepted indices and GI ties it to the connection's
      window.  For every event of every history: the ghost is preserved (unchanged, or extended by
      the index just accepted) and each emitted header h satisfies
         hdr_acks (h_ack h) (h_ackbits h) (wire i) = true  ->  i was accepted and is within 32 of the newest.
      Together with 1 (the sender reports success only for a pending datagram named by an authentic
      header of the peer) this is "a send callback reports success only after the peer endpoint has
      accepted the datagram(s) carrying the message". *)
Theorem C07_acks_name_accepted : forall e c x n g c' o,
  GI c g ->
  (forall d, dgram_of x = Some d -> h_seq (d_hdr d) = wire n /\ 1 <= n /\ near g n) ->
  step e c x = (c', o) ->
  exists g', GI c' g' /\ (g' = g \/ g' = ghost_add g n) /\ Forall (names_accepted g') (emits o).
Proof. exact step_ghost. Qed.
Print Assumptions C07_acks_name_accepted.

Theorem C07_ghost_fresh : forall b, GI (conn0 b) None.
Proof. intros b. reflexivity. Qed.
Print Assumptions C07_ghost_fresh.

From Coq Require Import Lia.
From RecordUpdate Require Import RecordUpdate.
From Model Require Import Net Net2.
From Proofs Require Import AckNetP.
Import RecordSetNotations.

(* 5. "Success means accepted" as ONE theorem over joint histories of the two endpoints A (the
      sender whose callbacks are observed) and B (its peer).  1 and 4 above are its two halves;
      here they are composed.  A joint history is a list of labelled endpoint events (Net2.lev):
      events of A and of B in any interleaving; the network and the attacker are the choice of the
      datagram each receive event carries (loss, duplication, reordering, delay, replay, injection
      of anything the endpoint cannot open).  The ghost state G (Net2.gnet, a function of the
      history) numbers the datagrams: g_nA = how many sequence numbers A has consumed, g_AB = the
      datagrams A put on the wire with their indices (map snd = Net.wAB), g_B / g_accB = the
      indices / the datagrams B has accepted, g_BA = the datagrams B put on the wire, each with the
      value g_B had when it was built (map snd = Net.wBA).
      Schedule hypotheses, per event (Net2.wf2_ev):
       (auth)  whatever an endpoint opens (Net2.opens: under the session key it holds; while it holds
               none, a clear hello — the handshake is not interfered with) was put on the wire by the
               other endpoint; for B, as the index l the event is labelled with;
       (near)  that index is within HALF of the newest index B has accepted (C08's half-range
               hypothesis);
       (fresh) a B-datagram A opens was built when B's newest accepted index m satisfied
               g_nA - m <= FRESH = RING - 33 = 65502 (no ack header staler than that is replayed to
               A; 65502 is exact for this arithmetic: the header names indices m-32..m and pending
               indices are within RING - 2 of g_nA.  A header built before B accepted anything carries
               ack = 0, which _handle_ack_bits reads as sequence number 65535: then g_nA < RING);
       A's application keeps the connection open and does not reconfigure message time-out / send
       interval (ev_open2, as in 3).
      The joint invariant J S K G (Proofs/AckNetP.v; S = lower bound of A's send interval, message
      time-out < (RING-1) * S as in 3) holds of the initial pair — through the handshake — and is
      preserved by every event of every such history. *)
Theorem C07_joint_invariant_fresh : forall S, 0 < S -> S <= 256 -> TICKS < (RING - 1) * S -> J S 0 gnet0.
Proof. exact J_gnet0. Qed.
Print Assumptions C07_joint_invariant_fresh.

Theorem C07_joint_invariant : forall e S K vs G, J S K G -> wf2_run e G vs -> J S K (grun e G vs).
Proof. exact J_run. Qed.
Print Assumptions C07_joint_invariant.

(*    Every pending datagram that a step of A resolves as acknowledged (it is pending when the
      datagram d reaches _recv_datagram in state a0, A opens d, and d's (ack, ack_bits) name its
      sequence number s) is a datagram index i of A that B HAS ACCEPTED before that moment, and the
      datagram dA that A put on the wire as index i (h_seq = wire i = s) is one B has accepted. *)
Theorem C07_acked_means_accepted : forall e S K G vs x l a0 d,
  J S K G -> wf2_run e G (vs ++ [(NA x, l)]) ->
  let G' := grun e G vs in
  pre_recv (nA (g_net G')) x = Some (a0, d) -> opens a0 d = true ->
  forall s t, In (s, t) (c_packs a0) ->
    hdr_acks (h_ack (d_hdr d)) (h_ackbits (d_hdr d)) s = true ->
    exists i dA, s = wire i /\ 1 <= i <= g_nA G' /\ In i (idx_acc (g_B G')) /\
                 In (i, dA) (g_AB G') /\ h_seq (d_hdr dA) = s /\ In dA (g_accB G').
Proof. exact acked_means_accepted. Qed.
Print Assumptions C07_acked_means_accepted.

(*    Whenever a step of A reports success for callback id (OCallback id true among its outputs), it
      is processing a datagram d it opens; the callback object k that reports to id (cb_for: the
      user callback itself, plain or wrapped by a RetrySender, or the collector of a fragmented
      message) is registered in pending_callbacks for a pending datagram (s, t) that d's ack fields
      name; that datagram is index i of A, was put on the wire as dA (an element of Net.wAB), and B
      HAS ACCEPTED dA before this moment. *)
Theorem C07_success_means_accepted : forall e S K G vs x l a' o id,
  0 <= e_max_payload e -> J S K G -> Inc (nA (g_net G)) -> wf2_run e G (vs ++ [(NA x, l)]) ->
  let G' := grun e G vs in
  step e (nA (g_net G')) x = (a', o) -> In (OCallback id true) o ->
  exists a0 d s t ks k i dA,
    pre_recv (nA (g_net G')) x = Some (a0, d) /\ opens a0 d = true /\
    In (s, t) (c_packs a0) /\ hdr_acks (h_ack (d_hdr d)) (h_ackbits (d_hdr d)) s = true /\
    dget s (c_pcbs a0) = Some ks /\ In k ks /\ cb_for k id /\
    s = wire i /\ 1 <= i <= g_nA G' /\ In i (idx_acc (g_B G')) /\
    In (i, dA) (g_AB G') /\ In dA (wAB (g_net G')) /\ h_seq (d_hdr dA) = s /\ In dA (g_accB G').
Proof. exact success_registered_accepted. Qed.
Print Assumptions C07_success_means_accepted.

(*    The resolution counter: whenever a step of A counts a datagram as acknowledged (stats.acked
      goes up), A is processing a datagram it opens, every pending datagram that d names has been
      accepted by B (acked_accepted, the statement of C07_acked_means_accepted), and there is one. *)
Theorem C07_ack_counted_means_accepted : forall e S K G vs x l a' o,
  J S K G -> wf2_run e G (vs ++ [(NA x, l)]) ->
  let G' := grun e G vs in
  step e (nA (g_net G')) x = (a', o) -> c_acked (nA (g_net G')) < c_acked a' ->
  exists a0 d s t i dA,
    pre_recv (nA (g_net G')) x = Some (a0, d) /\ opens a0 d = true /\ acked_accepted G' a0 d /\
    In (s, t) (c_packs a0) /\ hdr_acks (h_ack (d_hdr d)) (h_ackbits (d_hdr d)) s = true /\
    s = wire i /\ In i (idx_acc (g_B G')) /\ In (i, dA) (g_AB G') /\ h_seq (d_hdr dA) = s /\ In dA (g_accB G').
Proof. exact ack_counted_means_accepted. Qed.
Print Assumptions C07_ack_counted_means_accepted.

(*    Short sessions: while A has consumed at most HALF + 1 = 32768 sequence numbers, (near) and
      (fresh) hold by themselves — (auth) alone (Net2.auth_ev) is enough. *)
Theorem C07_short_sessions : forall e S K vs G, J S K G -> auth_run e G vs -> wf2_run e G vs.
Proof. exact auth_run_wf2. Qed.
Print Assumptions C07_short_sessions.

(* non-vacuity, through the handshake from the initial pair: A says hello, B answers, A sends the
   challenge response and is connected, B is connected; A sends "AB" with callback 5 (datagram
   index 3); B accepts it and hands "AB" to its application; B's next keep-alive (ack = 3, both
   older bits set) reaches A -> callback 5 fires with True.  Every hypothesis of the theorems holds
   of this history. *)
Definition env_n : env := {| e_max_payload := 1434; e_max_frag := 1024; e_max_frags := 8192 |}.
Definition orc_n : hs_oracle :=
  {| o_parse := 0; o_version_ok := true; o_token := 99; o_key := 7; o_reply := [x0a; x0b]; o_temp_token := Some 99 |}.
Definition dg_none : dgram := {| d_hdr := Build_header true 0 0 0 APP 0 0 0; d_body := Bad |}.
Definition lastAB (G : gnet) : dgram := last (wAB (g_net G)) dg_none.
Definition lastBA (G : gnet) : dgram := last (wBA (g_net G)) dg_none.
Definition lastgB (G : gnet) : idxset := fst (last (g_BA G) (None, dg_none)).
Definition hn1 : list lev := [(NA (EClientHello 1000 [x01; x02]), 0); (NA (EClientTick 2000 RxNone), 0)].
Definition Gn1 := grun env_n gnet0 hn1.
Definition hn2 : list lev := [(NB (ERecv 3000 (lastAB Gn1) [orc_n]), 1); (NB (EServerTick 4000), 0)].
Definition Gn2 := grun env_n Gn1 hn2.
Definition hn3 : list lev := [(NA (EClientTick 5000 (RxDgram (lastBA Gn2) [orc_n])), 0)].
Definition Gn3 := grun env_n Gn2 hn3.
Definition hn4 : list lev :=
  [(NB (ERecv 6000 (lastAB Gn3) [orc_n]), 2); (NA (ESend [x41; x42] RNone (IUser 5)), 0); (NA (EClientTick 7000 RxNone), 0)].
Definition Gn4 := grun env_n Gn3 hn4.
Definition hn5 : list lev := [(NB (ERecv 8000 (lastAB Gn4) []), 3); (NB (EServerTick 9000), 0)].
Definition Gn5 := grun env_n Gn4 hn5.
Definition xn6 : ev := EClientTick 10000 (RxDgram (lastBA Gn5) []).
Definition hn : list lev := hn1 ++ hn2 ++ hn3 ++ hn4 ++ hn5.

Ltac ev_goal := let d := fresh "d" in let Hd := fresh "Hd" in intros d Hd;
  match type of Hd with
  | dgram_in (ERecv _ ?D _) = _ => intros _; cbn [dgram_in] in Hd; assert (d = D) as -> by congruence; clear Hd
  | dgram_in (EClientTick _ (RxDgram ?D _)) = _ => intros _; cbn [dgram_in] in Hd; assert (d = D) as -> by congruence; clear Hd
  | _ => cbn [dgram_in] in Hd; discriminate Hd
  end.
Ltac fin_goal := match goal with
  | |- exists g, In (g, _) (g_BA ?G) => exists (lastgB G); vm_compute; auto 10
  | |- In _ _ => vm_compute; auto 10
  end.

Example C07_success_means_accepted_example :
  J 256 0 gnet0 /\ Inc (nA (g_net gnet0)) /\
  auth_run env_n gnet0 (hn ++ [(NA xn6, 0)]) /\ wf2_run env_n gnet0 (hn ++ [(NA xn6, 0)]) /\
  grun env_n gnet0 hn = Gn5 /\
  c_status (nA (g_net Gn5)) = CONNECTED /\ c_status (nB (g_net Gn5)) = CONNECTED /\
  c_key (nA (g_net Gn5)) = Some 7 /\ c_key (nB (g_net Gn5)) = Some 7 /\
  c_packs (nA (g_net Gn5)) = [(2, 5000); (3, 7000)] /\
  filter (fun o => match o with OCallback _ _ => true | _ => false end) (snd (step env_n (nA (g_net Gn5)) xn6))
    = [OCallback 5 true] /\
  g_nA Gn5 = 3 /\ g_B Gn5 = Some (3, [3; 2; 1]) /\ In (3, lastAB Gn4) (g_AB Gn5) /\ In (lastAB Gn4) (g_accB Gn5) /\
  dlvB (g_net Gn5) = [[x41; x42]].
Proof.
  assert (HJ : J 256 0 gnet0) by (apply J_gnet0; [reflexivity|intro H; discriminate H|reflexivity]).
  assert (HA : auth_run env_n gnet0 (hn ++ [(NA xn6, 0)])).
  { unfold hn, hn1, hn2, hn3, hn4, hn5, xn6. cbn [app auth_run auth_ev ev_open2].
    repeat match goal with |- _ /\ _ => split end; try exact I;
      try (match goal with |- _ <= _ => vm_compute; discriminate end).
    all: ev_goal. all: fin_goal. }
  split; [exact HJ|]. split; [constructor|]. split; [exact HA|]. split; [exact (auth_run_wf2 _ _ _ _ _ HJ HA)|].
  split; [vm_compute; reflexivity|]. vm_compute. repeat split; auto 10.
Qed.

(* The (fresh) hypothesis cannot be dropped: with (auth) and (near) only — every datagram opened
   was genuinely emitted by the peer, so this is a STALE, not a forged, ack field — the clause is
   false in the faithful model.  Sequence numbers are 16 bit: an ack header built when B's newest
   accepted index was m names the wire numbers of m-32..m, which are also the wire numbers of
   m+65535-32..m+65535.  Witness: the joint state reached by the handshake example above, with A
   later in its session (65537 sequence numbers consumed, nothing pending — J holds of it: J_with_A);
   B has accepted A's indices 1,2,3 and nothing since (A -> B traffic lost).  A sends "C" with
   callback 9: datagram index 65538, wire number 3.  B's next keep-alive honestly says ack = 3;
   A opens it and reports callback 9 = True, although B never received index 65538 and "C" was
   never handed to B's application.  (The state is given directly rather than reached by a
   65 534-step history; on the real endpoints the situation needs A to emit 65 535 datagrams —
   18 minutes at the default 60 Hz — while its own datagrams are lost and it keeps hearing acks
   with the old ack field: from a peer whose liveness time-out does not fire, or from an attacker
   replaying one recorded datagram of B that is more than 32 behind A's receive window, which
   BitField.insert accepts every time, cf. known finding D16.) *)
Definition Gn6 := gstep env_n Gn5 (NA xn6, 0).
Definition a_late : conn := (nA (g_net Gn6)) <| c_seq_send := 2 |> <| c_packs := [] |> <| c_pcbs := [] |>.
Definition G_late : gnet := with_A Gn6 a_late 65537.
Definition hl1 : list lev :=
  [(NA (ESend [x43] RNone (IUser 9)), 0); (NA (EClientTick 11000 RxNone), 0); (NB (EServerTick 12000), 0)].
Definition Gl1 := grun env_n G_late hl1.
Definition xl2 : ev := EClientTick 13000 (RxDgram (lastBA Gl1) []).

Theorem C07_stale_ack_refuted : exists G vs x,
  J 256 (-1) G /\ Inc (nA (g_net G)) /\ nofresh_run env_n G (vs ++ [(NA x, 0)]) /\
  In (OCallback 9 true) (snd (step env_n (nA (g_net (grun env_n G vs))) x)) /\
  g_nA (grun env_n G vs) = 65538 /\ c_packs (nA (g_net (grun env_n G vs))) = [(3, 11000)] /\ wire 65538 = 3 /\
  idx_acc (g_B (grun env_n G vs)) = [3; 2; 1] /\
  sentA (g_net (grun env_n G vs)) = [[x43]; [x41; x42]] /\ dlvB (g_net (grun env_n G vs)) = [[x41; x42]].
Proof.
  exists G_late, hl1, xl2.
  destruct C07_success_means_accepted_example as (HJ0 & _ & _ & Hwf & _).
  assert (HJ6 : J 256 0 Gn6).
  { replace Gn6 with (grun env_n gnet0 (hn ++ [(NA xn6, 0)])) by (vm_compute; reflexivity). exact (J_run _ _ _ _ _ HJ0 Hwf). }
  assert (HAl : AInv 256 (-1) a_late 65537).
  { (assert (E1 : c_packs a_late = []) by (vm_compute; reflexivity)).
    split; [constructor|unfold purged; rewrite E1; constructor].
    - lia.
    - (vm_compute; reflexivity).
    - (replace (c_send_interval a_late) with 256 by (vm_compute; reflexivity)). clear; lia.
    - clear; lia.
    - (replace (c_out_timeout a_late) with 15360 by (vm_compute; reflexivity)). clear; unfold RING; lia.
    - rewrite E1. constructor.
    - rewrite E1. constructor.
    - (vm_compute; reflexivity). }
  split; [apply (J_with_A 256 0 (-1) Gn6 a_late 65537 HJ6 HAl); vm_compute; discriminate|].
  split; [(vm_compute; constructor)|].
  split.
  { unfold hl1, xl2. cbn [app nofresh_run nofresh_ev ev_open2].
    repeat match goal with |- _ /\ _ => split end; try exact I.
    all: ev_goal. all: fin_goal. }
  (vm_compute; repeat split; auto 10).
Qed.
Print Assumptions C07_stale_ack_refuted.

From Model Require Import RecvHist Net3.
From Proofs Require Import RecvHistP MsgRecvP MsgNetP.

(* 5m. "Success means the WHOLE MESSAGE was handed to the peer application", for unfragmented
      messages, as ONE theorem over joint histories of the two endpoints.  Net3 adds to Net2's ghost:
        m_sent  every (payload, id) the application of A passed to send() with a user callback id;
        m_st    B's message window over true message indices (C04's RecvHist.wstate, the specification
                of the 256-bit window c_bf_msg) and, for every index that got past it, the (type,
                payload) of the message processed under that index;
      and labels each event with a list js of message indices: when B accepts a datagram, js are the
      sender's true (unbounded) message indices of the messages dg_msgs d of that datagram.
      Schedule hypotheses per event (Net3.wf3_ev): Net2's (auth), (near), (fresh), and
       for A: the application passes a user callback or none to send() (payloads of ANY size and
              retry mode: fragmented sends may be interleaved);
       for B, when it accepts a datagram, message by message (Net3.mwf):
         (label)    the wire number of the message is wire j, j >= 1;
         (msg-near) j is within HALF of the newest message index B has processed (C08's half-range
                    hypothesis for the message window);
         (truthful) a message labelled j carries the (type, payload) processed under j before (labels
                    are the sender's message indices: a RetrySender copy is byte-identical — part of
                    the sender invariant below — and different messages have different indices);
         (no-raise) if the datagram carries a handshake-typed message (has_hs): processing it raises
                    no exception (recv_msgs stops at the first exception: a handshake message whose
                    verification fails hides the messages behind it in the same datagram — 5m.5 shows
                    this hypothesis cannot be dropped).  Datagrams of A without handshake messages never
                    raise: part of the invariant is that every fragment A emits carries its 6-byte header.
      The joint invariant J3 S K M = Net2's J + Inc +
        sender   every message A keeps (queue, re-send store) and every RetrySender it has registered
                 satisfies QmS: a user callback IUser id sits on an APP message whose payload p was
                 passed to send() with id ((p, id) in m_sent), plain or wrapped (the wrapper carries
                 the same message sequence number, type and payload: what it re-queues on time-out is
                 that message); every key of pending_callbacks is a pending datagram; and (CInv) for
                 every datagram (i, dA) on the wire with a recent index, the callbacks registered for
                 wire i belong to messages dA carries (5m.1);
        receiver the window ghost refines c_bf_msg (RecvHistP.W), every index let through has a record,
                 every APP payload recorded — and every APP message of every datagram B has accepted
                 (g_accB) — is in dlvB (handed to B's application).
      It holds initially — through the handshake — and is preserved by every event. *)
Theorem C07_msg_invariant_fresh : forall S, 0 < S -> S <= 256 -> TICKS < (RING - 1) * S -> J3 S 0 mnet0.
Proof. exact J3_mnet0. Qed.
Print Assumptions C07_msg_invariant_fresh.

Theorem C07_msg_invariant : forall e S K vs M, 0 <= e_max_payload e -> J3 S K M -> wf3_run e M vs -> J3 S K (mrun e M vs).
Proof. exact J3_run. Qed.
Print Assumptions C07_msg_invariant.

(* 5m.1 The sender's custody link: a user callback (plain, or wrapped by a RetrySender) registered
      in pending_callbacks for the sequence number of a recent datagram dA on the wire travels with an
      APP message INSIDE dA whose payload is the one the application passed to send() with that id *)
Theorem C07_sender_custody : forall M i dA ks k id,
  SInv M -> In (i, dA) (g_AB (m_g M)) -> g_nA (m_g M) - i < RING - 1 ->
  dget (wire i) (c_pcbs (nA (g_net (m_g M)))) = Some ks -> In k ks -> cb_user k id ->
  exists w, In w (dg_msgs dA) /\ w_type w = APP /\ In (w_payload w, id) (m_sent M).
Proof. exact custody_meaning. Qed.
Print Assumptions C07_sender_custody.

(* 5m.2 The receiver at message level (also C04/C05's receiver half): processing the messages ws
      of an accepted datagram, labelled js as above, without exception: the window ghost is
      maintained, and every APP message of the datagram is appended to incoming_messages in this very
      call — or its index had been let through before, recorded with this very (type, payload) *)
Theorem C07_receiver_delivers : forall ws js c now orcs st c' o,
  length js = length ws -> W 256 (c_bf_msg c) (fst st) -> recorded st -> mwf st (combine ws js) ->
  recv_msgs c now ws orcs = (c', o) -> raised o = false ->
  let st' := fold_left mrec (combine ws js) st in
  W 256 (c_bf_msg c') (fst st') /\ recorded st' /\
  exists extra, c_incoming c' = c_incoming c ++ extra /\
    (forall j c0, In (j, c0) (snd st') ->
       In (j, c0) (snd st) \/
       exists w, In w ws /\ content w = c0 /\ (w_type w = APP -> In (w_payload w) (map snd extra))) /\
    (forall w, In w ws -> w_type w = APP ->
       In (w_payload w) (map snd extra) \/ exists j, In (j, content w) (snd st)).
Proof. exact recv_msgs_deliver. Qed.
Print Assumptions C07_receiver_delivers.

(*      ... and a datagram without handshake-typed messages whose fragments carry their 6-byte header
      is processed without exception (so (no-raise) speaks about handshake-carrying datagrams only) *)
Theorem C07_no_handshake_no_exception : forall ws c now orcs c' o,
  has_hs ws = false -> Forall frag_ok ws -> recv_msgs c now ws orcs = (c', o) -> raised o = false.
Proof. exact recv_msgs_noraise. Qed.
Print Assumptions C07_no_handshake_no_exception.

(*      Fragmented sends: a fragment-sender context in pending_fragments holding user callback id only
      ever comes from a send() of an oversized payload with that id (PFInv: holds initially, preserved
      by EVERY event, no hypothesis). *)
Theorem C07_frag_contexts_from_big_sends : forall e vs M,
  PFInv e mnet0 /\ (PFInv e M -> PFInv e (mrun e M vs)).
Proof. intros e vs M. split; [apply PFInv_mnet0|apply PFInv_run]. Qed.
Print Assumptions C07_frag_contexts_from_big_sends.

(* 5m.3 THE theorem: whenever a step of A reports success for callback id, then EITHER id was passed
      to send() with a payload that needs fragmenting (big_id: the report comes from the collector of a
      fragmented send — not covered here), OR (delivered_as) a payload p that A's application passed to
      send() together with id HAS BEEN HANDED to B's application before this moment (p in dlvB): it
      travelled as an APP message w of a datagram dA that A put on the wire as index i and that B has
      accepted. *)
Theorem C07_success_means_delivered : forall e S K M vs x l js a' o id,
  0 <= e_max_payload e -> J3 S K M -> PFInv e M -> wf3_run e M (vs ++ [((NA x, l), js)]) ->
  let M' := mrun e M vs in
  step e (nA (g_net (m_g M'))) x = (a', o) -> In (OCallback id true) o ->
  (exists p, In (p, id) (m_sent M') /\ len p > e_max_payload e) \/
  exists p i dA w,
    In (p, id) (m_sent M') /\ In p (dlvB (g_net (m_g M'))) /\
    In (i, dA) (g_AB (m_g M')) /\ In dA (wAB (g_net (m_g M'))) /\ In dA (g_accB (m_g M')) /\
    In w (dg_msgs dA) /\ w_type w = APP /\ w_payload w = p.
Proof. exact success_means_delivered. Qed.
Print Assumptions C07_success_means_delivered.

(* 5m.4 ... and if the application does not reuse callback ids: THE payload p passed with id in an
      UNFRAGMENTED send (len p <= e_max_payload) has been handed to B's application *)
Theorem C07_success_means_delivered_unique : forall e S K M vs x l js a' o id p,
  0 <= e_max_payload e -> J3 S K M -> PFInv e M -> wf3_run e M (vs ++ [((NA x, l), js)]) ->
  let M' := mrun e M vs in
  NoDup (map snd (m_sent M')) -> In (p, id) (m_sent M') -> len p <= e_max_payload e ->
  step e (nA (g_net (m_g M'))) x = (a', o) -> In (OCallback id true) o ->
  In p (dlvB (g_net (m_g M'))).
Proof. exact success_means_delivered_unique. Qed.
Print Assumptions C07_success_means_delivered_unique.

(* non-vacuity, from the initial pair through the handshake (the history of
   C07_success_means_accepted_example with message labels: B's accepted datagrams carry message 1
   (CLIENT_HELLO), 2 (CHALLENGE_RESP), 3 (APP "AB")): every hypothesis holds, callback 5 fires with
   True, and "AB" is in dlvB *)
Definition lab (js : list (list Z)) (vs : list lev) : list lev3 := combine vs js.
Definition hm1 := lab [[]; []] hn1.
Definition hm2 := lab [[1]; []] hn2.
Definition hm3 := lab [[]] hn3.
Definition hm4 := lab [[2]; []; []] hn4.
Definition hm5 := lab [[3]; []] hn5.
Definition hm := hm1 ++ hm2 ++ hm3 ++ hm4 ++ hm5.
Definition Mn5 := mrun env_n mnet0 hm.

Ltac mwf_goal :=
  repeat match goal with
  | |- _ /\ _ => split
  | |- True => exact I
  | |- _ = _ => reflexivity
  | |- _ <= _ => (vm_compute; discriminate)
  | |- _ = Gt -> False => let H := fresh in intro H; discriminate H
  | |- forall c, _ -> _ => let c := fresh "c" in let H := fresh "H" in intros c H; vm_compute in H;
        repeat (destruct H as [H|H]; [try discriminate H; try congruence|]); try destruct H
  end.

Ltac msg_goal :=
  match goal with
  | |- user_x _ => exact I
  | |- forall d, accepts ?C ?X = Some d -> _ =>
      let d := fresh "d" in let Hd := fresh "Hd" in intros d Hd;
      let r := eval vm_compute in (accepts C X) in
      match r with
      | None => exfalso; assert (Hn : accepts C X = None) by (vm_compute; reflexivity); congruence
      | Some ?D => assert (Hs : accepts C X = Some D) by (vm_compute; reflexivity);
                   assert (d = D) as -> by congruence; clear Hd Hs
      end
  end.

Example C07_success_means_delivered_example :
  J3 256 0 mnet0 /\ wf3_run env_n mnet0 (hm ++ [((NA xn6, 0), [])]) /\
  m_g Mn5 = Gn5 /\ m_sent Mn5 = [([x41; x42], 5)] /\
  m_st Mn5 = (Some (3, [3; 2; 1]), [(3, (APP, [x41; x42])); (2, (CHALLENGE_RESP, [x0a; x0b])); (1, (CLIENT_HELLO, [x01; x02]))]) /\
  dg_msgs (lastAB Gn4) = [{| w_seq := 3; w_type := APP; w_payload := [x41; x42] |}] /\
  In (OCallback 5 true) (snd (step env_n (nA (g_net (m_g Mn5))) xn6)) /\
  dlvB (g_net (m_g Mn5)) = [[x41; x42]].
Proof.
  split; [apply J3_mnet0; [reflexivity|intro H; discriminate H|reflexivity]|].
  split.
  { apply wf3x_run_split. split.
    - replace (map fst (hm ++ [(NA xn6, 0, [])])) with (hn ++ [(NA xn6, 0)]) by (vm_compute; reflexivity).
      destruct C07_success_means_accepted_example as (_ & _ & _ & Hwf & _); exact Hwf.
    - unfold hm, hm1, hm2, hm3, hm4, hm5, lab, hn1, hn2, hn3, hn4, hn5. cbn [combine app msg_run].
      repeat match goal with |- _ /\ _ => split | |- True => exact I end.
      all: unfold msg_ev; cbn [fst snd].
      all: msg_goal.
      all: try (split; [vm_compute; reflexivity|split; [|intros _ _; vm_compute; reflexivity]]).
      all: vm_compute; mwf_goal. }
  vm_compute. repeat split; auto 10.
Qed.

(* 5m.5 The (no-raise) hypothesis cannot be dropped from a state satisfying the invariant.  Witness: the
      state after B's SERVER_HELLO in the history above, with B's status CONNECTED (J3 does not look at
      it: J3_with_B_status).  The SERVER_HELLO reaches A less than a send interval after its hello, so the
      CHALLENGE_RESP stays queued; the application sends "AB" with callback 5; A's next datagram
      (index 2) carries [CHALLENGE_RESP; APP "AB"].  B accepts it, the challenge response does not
      verify (oracle answer: ValueError), _recv_datagram raises and "AB" is never looked at; B's
      keep-alive acknowledges datagram 2 and callback 5 reports True with dlvB = [].  (From the
      INITIAL pair such a B never becomes CONNECTED — only a verified challenge response makes it so —
      and then emits nothing that could acknowledge; not reachable on the real endpoints.) *)
Definition orc_bad : hs_oracle :=
  {| o_parse := 1; o_version_ok := true; o_token := 99; o_key := 7; o_reply := [x0a; x0b]; o_temp_token := Some 99 |}.
Definition Mn2 := mrun env_n mnet0 (hm1 ++ hm2).
Definition M_w : mnet := with_B Mn2 ((nB (g_net (m_g Mn2))) <| c_status := CONNECTED |>).
Definition lastABm (M : mnet) : dgram := lastAB (m_g M).
Definition lastBAm (M : mnet) : dgram := lastBA (m_g M).
Definition hw1 : list lev3 :=
  [((NA (EClientTick 2100 (RxDgram (lastBAm M_w) [orc_n])), 0), []);
   ((NA (ESend [x41; x42] RNone (IUser 5)), 0), []);
   ((NA (EClientTick 3000 RxNone), 0), [])].
Definition Mw1 := mrun env_n M_w hw1.
Definition hw2 : list lev3 := [((NB (ERecv 6000 (lastABm Mw1) [orc_bad]), 2), [2; 3]); ((NB (EServerTick 7000), 0), [])].
Definition Mw2 := mrun env_n Mw1 hw2.
Definition xw3 : ev := EClientTick 8000 (RxDgram (lastBAm Mw2) []).

Theorem C07_delivered_needs_noraise_refuted : exists M vs x,
  J3 256 0 M /\ noraise_free_run env_n M (vs ++ [((NA x, 0), [])]) /\
  In (OCallback 5 true) (snd (step env_n (nA (g_net (m_g (mrun env_n M vs)))) x)) /\
  m_sent (mrun env_n M vs) = [([x41; x42], 5)] /\ dlvB (g_net (m_g (mrun env_n M vs))) = [] /\
  snd (step env_n (nB (g_net (m_g Mw1))) (ERecv 6000 (lastABm Mw1) [orc_bad])) = [ORaise EValue].
Proof.
  exists M_w, (hw1 ++ hw2), xw3.
  destruct C07_success_means_delivered_example as (HJ0 & Hwf & _).
  assert (HJw : J3 256 0 M_w).
  { apply (J3_with_B_status 256 0 Mn2 CONNECTED).
    assert (W2 : wf3_run env_n mnet0 (hm1 ++ hm2)).
    { unfold hm in Hwf. rewrite <- !app_assoc in Hwf. rewrite (app_assoc hm1 hm2) in Hwf. apply wf3_run_app in Hwf as [W _]. exact W. }
    (apply (J3_run env_n 256 0 (hm1 ++ hm2) mnet0); [vm_compute; discriminate|exact HJ0|exact W2]). }
  split; [exact HJw|]. split.
  { apply wf3x_run_split. split.
    - (apply (auth_run_wf2 _ 256 0); [apply HJw|]).
      unfold hw1, hw2, xw3. cbn [map fst app auth_run auth_ev ev_open2].
      (repeat match goal with |- _ /\ _ => split end; try exact I;
        try (match goal with |- _ <= _ => vm_compute; discriminate end)).
      all: ev_goal. all: fin_goal.
    - unfold hw1, hw2. cbn [app msg_run].
      repeat match goal with |- _ /\ _ => split | |- True => exact I end.
      all: unfold msg_ev; cbn [fst snd].
      all: msg_goal.
      all: try (split; [vm_compute; reflexivity|split; [|intros H; discriminate H]]).
      all: vm_compute; mwf_goal. }
  vm_compute. repeat split; auto 10.
Qed.
Print Assumptions C07_delivered_needs_noraise_refuted.

(* 5m.6 Short sessions: the hypotheses on B's message labels hold by themselves.  The sender's half:
      A gives its j-th message the sequence number wire j and every copy of it — in the queue, in the
      re-send store, inside a RetrySender, in any datagram on the wire — carries the (type, payload)
      of the j-th message (ghost table T, MsgSeqP.TInv: it holds initially and is preserved together
      with J3).  So while A has created at most HALF messages (stats.sent <= HALF) and consumed at
      most HALF + 1 datagram numbers, with every message B processes labelled by its OWN wire number
      (js = map w_seq (dg_msgs d)), (label), (msg-near), (truthful) and — as in C07_short_sessions —
      (near), (fresh) are automatic: (auth), (no-raise) and user callbacks (short3_ev) suffice. *)
From Proofs Require Import MsgSeqP.

Theorem C07_msg_table_fresh : TInv mnet0.
Proof. exact TInv_mnet0. Qed.
Print Assumptions C07_msg_table_fresh.

Theorem C07_short_sessions_msg : forall e S K vs M,
  0 <= e_max_payload e -> J3 S K M -> TInv M -> short3_run e M vs ->
  wf3_run e M vs /\ J3 S K (mrun e M vs) /\ TInv (mrun e M vs).
Proof. exact short3_run_all. Qed.
Print Assumptions C07_short_sessions_msg.

Theorem C07_short_success_means_delivered : forall e S K M vs x l js a' o id,
  0 <= e_max_payload e -> J3 S K M -> PFInv e M -> TInv M -> short3_run e M (vs ++ [((NA x, l), js)]) ->
  let M' := mrun e M vs in
  step e (nA (g_net (m_g M'))) x = (a', o) -> In (OCallback id true) o ->
  (exists p, In (p, id) (m_sent M') /\ len p > e_max_payload e) \/
  exists p i dA w,
    In (p, id) (m_sent M') /\ In p (dlvB (g_net (m_g M'))) /\
    In (i, dA) (g_AB (m_g M')) /\ In dA (wAB (g_net (m_g M'))) /\ In dA (g_accB (m_g M')) /\
    In w (dg_msgs dA) /\ w_type w = APP /\ w_payload w = p.
Proof. exact short_success_means_delivered. Qed.
Print Assumptions C07_short_success_means_delivered.

(*    ... the sender half spelled out on the wire: two messages with the same message sequence number
      in datagrams A has emitted are the same message (a retransmitted copy carries the SAME number
      and the SAME payload; different messages carry different numbers) *)
Theorem C07_retransmission_same : forall M i d w i' d' w',
  TInv M -> c_sent (nA (g_net (m_g M))) <= HALF ->
  In (i, d) (g_AB (m_g M)) -> In w (dg_msgs d) -> In (i', d') (g_AB (m_g M)) -> In w' (dg_msgs d') ->
  w_seq w = w_seq w' -> w_type w = w_type w' /\ w_payload w = w_payload w'.
Proof. exact retransmission_same. Qed.
Print Assumptions C07_retransmission_same.

(* non-vacuity: the handshake history above, labelled with the wire numbers, is a short session *)
Example C07_short_sessions_msg_example :
  TInv mnet0 /\ short3_run env_n mnet0 (hm ++ [((NA xn6, 0), [])]).
Proof.
  split; [exact TInv_mnet0|].
  unfold hm, hm1, hm2, hm3, hm4, hm5, lab, hn1, hn2, hn3, hn4, hn5, xn6. cbn [combine app short3_run].
  unfold short3_ev. cbn [fst snd auth_ev ev_open2].
  repeat match goal with |- _ /\ _ => split | |- True => exact I end;
    try (match goal with |- _ <= _ => vm_compute; discriminate end).
  all: try (msg_goal; try (split; [vm_compute; reflexivity|intros _; vm_compute; reflexivity])).
  all: ev_goal. all: fin_goal.
Qed.

(* non-vacuity of the duplicate branch: a guaranteed send ("AB", callback 5, message number 3) goes out
   in datagram 3, which B accepts and delivers; B's acknowledgement is lost; a keep-alive interval
   later the re-send store puts a copy — SAME message number 3, same payload — into datagram 4; B
   accepts datagram 4, its message window flags number 3 and nothing is delivered twice (the ghost
   does not change); B's keep-alive acknowledges 4 and 3, both registered for the same RetrySender:
   callback 5 reports True exactly once, and "AB" is in dlvB exactly once.  A short session. *)
Definition Mr3 := mrun env_n mnet0 (hm1 ++ hm2 ++ hm3).
Definition hr4 : list lev3 :=
  [((NB (ERecv 6000 (lastABm Mr3) [orc_n]), 2), [2]); ((NA (ESend [x41; x42] RTimeout (IUser 5)), 0), []);
   ((NA (EClientTick 7000 RxNone), 0), [])].
Definition Mr4 := mrun env_n Mr3 hr4.
Definition hr5 : list lev3 := [((NB (ERecv 8000 (lastABm Mr4) []), 3), [3]); ((NA (EClientTick 9000 RxNone), 0), [])].
Definition Mr5 := mrun env_n Mr4 hr5.
Definition hr6 : list lev3 := [((NB (ERecv 10000 (lastABm Mr5) []), 4), [3]); ((NB (EServerTick 11000), 0), [])].
Definition Mr6 := mrun env_n Mr5 hr6.
Definition xr7 : ev := EClientTick 12000 (RxDgram (lastBAm Mr6) []).
Definition hr : list lev3 := hm1 ++ hm2 ++ hm3 ++ hr4 ++ hr5 ++ hr6.

Example C07_retransmitted_copy_delivered_once_example :
  short3_run env_n mnet0 (hr ++ [((NA xr7, 0), [])]) /\
  dg_msgs (lastABm Mr4) = [{| w_seq := 3; w_type := APP; w_payload := [x41; x42] |}] /\
  dg_msgs (lastABm Mr5) = [{| w_seq := 3; w_type := APP; w_payload := [x41; x42] |}] /\
  h_seq (d_hdr (lastABm Mr4)) = 3 /\ h_seq (d_hdr (lastABm Mr5)) = 4 /\
  fst (m_st Mr5) = Some (3, [3; 2; 1]) /\ m_st Mr6 = m_st Mr5 /\
  dlvB (g_net (m_g Mr6)) = [[x41; x42]] /\ mrun env_n mnet0 hr = Mr6 /\
  filter (fun o => match o with OCallback _ _ => true | _ => false end) (snd (step env_n (nA (g_net (m_g Mr6))) xr7))
    = [OCallback 5 true].
Proof.
  split.
  { unfold hr, hm1, hm2, hm3, hr4, hr5, hr6, lab, hn1, hn2, hn3, xr7. cbn [combine app short3_run].
    unfold short3_ev. cbn [fst snd auth_ev ev_open2].
    repeat match goal with |- _ /\ _ => split | |- True => exact I end;
      try (match goal with |- _ <= _ => vm_compute; discriminate end).
    all: try (msg_goal; try (split; [vm_compute; reflexivity|intros _; vm_compute; reflexivity])).
    all: ev_goal. all: fin_goal. }
  vm_compute. repeat split; auto 10.
Qed.

(* Invariant used by 1 (fragment sender contexts kept in pending_fragments are never complete):
   it holds initially and is preserved by the callback machinery and the receive path. *)
Theorem C07_inc_fresh : forall b, Inc (conn0 b).
Proof. intros b. constructor. Qed.
Print Assumptions C07_inc_fresh.

(* 6. No send callback is invoked twice (the at-most-once half of "fires exactly once", per
      callback, over every history).  Callback invocations are the outputs `OCallback id ok`;
      `fired os` lists the ids of the callback outputs in os in order; `sent_ids xs` lists the ids
      `IUser id` the application hands over in xs (ESend and EDisconnect events).  For every env, every
      start state c satisfying the invariant CbInv (it holds of a fresh connection, 6b, and of every
      state reached, 6c) and EVERY event list xs — sends of any size and retry mode, ticks at any
      times, received datagrams of any kind incl. forged or stale ack fields, disconnect,
      reconfiguration, hello — if the application never reuses a callback id (the ids in xs are
      pairwise distinct and none of them is mentioned by a callback stored in c) then no id occurs
      twice among ALL callback outputs of the run: not twice True, not twice False, not once each.
      Covers unretried (RNone) and guaranteed (RTimeout) sends, single-datagram and fragmented, and
      fragmented best-effort sends.  The one restriction `ev_ok`: a best-effort (RBest) send that fits
      a single datagram must not carry a user callback — its plain callback is copied into the
      re-send store and fires once per transmitted copy (6e: refuted for those, on the real code too;
      the property text speaks of unretried and guaranteed sends only). *)
Theorem C07_callback_at_most_once : forall e xs c c' oss,
  CbInv c -> Forall (ev_ok e) xs -> NoDup (sent_ids xs) ->
  (forall id, In id (sent_ids xs) -> ~ CbKnown c id) ->
  run e c xs = (c', oss) -> NoDup (fired (concat oss)).
Proof. intros e xs c c' oss HI Hok ND Fr E. exact (proj1 (proj2 (run_Sc e xs c c' oss Hok E HI ND Fr))). Qed.
Print Assumptions C07_callback_at_most_once.

(* 6a. ... from a fresh connection object (client or server side) there is nothing else to assume *)
Theorem C07_callback_at_most_once_fresh : forall e b xs c' oss,
  Forall (ev_ok e) xs -> NoDup (sent_ids xs) ->
  run e (conn0 b) xs = (c', oss) -> NoDup (fired (concat oss)).
Proof.
  intros e b xs c' oss Hok ND. apply C07_callback_at_most_once; [apply CbInv_conn0|exact Hok|exact ND|].
  intros id _. apply CbKnown_conn0.
Qed.
Print Assumptions C07_callback_at_most_once_fresh.

(* 6b. the invariant holds of a fresh connection, which mentions no callback id *)
Theorem C07_cbinv_fresh : forall b, CbInv (conn0 b) /\ forall id, ~ CbKnown (conn0 b) id.
Proof. intros b. split; [apply CbInv_conn0|intros id; apply CbKnown_conn0]. Qed.
Print Assumptions C07_cbinv_fresh.

(* 6c. ... it is preserved by every such history, the ids mentioned afterwards are ids mentioned
       before or handed over in between, and so are the ids reported (nothing is made up) *)
Theorem C07_cbinv_preserved : forall e xs c c' oss,
  CbInv c -> Forall (ev_ok e) xs -> NoDup (sent_ids xs) ->
  (forall id, In id (sent_ids xs) -> ~ CbKnown c id) ->
  run e c xs = (c', oss) ->
  CbInv c' /\ (forall id, CbKnown c' id -> CbKnown c id \/ In id (sent_ids xs)) /\
  (forall id, In id (fired (concat oss)) -> CbKnown c id \/ In id (sent_ids xs)).
Proof.
  intros e xs c c' oss HI Hok ND Fr E. destruct (run_Sc e xs c c' oss Hok E HI ND Fr) as (HI' & _ & F & _ & Kn).
  split; [exact HI'|]. split; [exact Kn|]. intros id H. destruct (F id H) as [L|S]; [left; exact (Live_Known _ _ _ L)|right; exact S].
Qed.
Print Assumptions C07_cbinv_preserved.

(* 6d. what CbInv says, spelled out on the connection's fields: plain user callbacks (queued
       messages, pending datagrams, fragment-sender contexts) are pairwise distinct; messages kept
       for re-sending carry no plain user callback; RetrySender ids are below the counter and
       determine, and are determined by, the user callback they wrap, which is no plain one *)
Theorem C07_cbinv_meaning : forall c, CbInv c <->
  NoDup (pids (pend c) ++ pids (mcbs (c_outgoing c)) ++ fids (c_pfrags c)) /\
  pids (mcbs (map snd (c_pretry_msg c))) = [] /\
  Forall mok (c_outgoing c) /\
  (forall rid id, In (rid, id) (rps (pend c ++ mcbs (c_outgoing c) ++ mcbs (map snd (c_pretry_msg c)))) ->
     rid < c_next_rid c /\ ~ In id (pids (pend c) ++ pids (mcbs (c_outgoing c)) ++ fids (c_pfrags c))) /\
  (forall rid id rid' id',
     In (rid, id) (rps (pend c ++ mcbs (c_outgoing c) ++ mcbs (map snd (c_pretry_msg c)))) ->
     In (rid', id') (rps (pend c ++ mcbs (c_outgoing c) ++ mcbs (map snd (c_pretry_msg c)))) ->
     (rid = rid' <-> id = id')).
Proof. intros c. split; [intros [A B C D E]; auto|intros (A & B & C & D & E); constructor; assumption]. Qed.
Print Assumptions C07_cbinv_meaning.

(* 6e. the restriction ev_ok is needed: a best-effort send of one byte with callback 5 is
       transmitted twice (datagrams 1 and 2, the second after the resend interval); one authentic
       header acknowledging both makes callback 5 fire twice.  Replayed on connection.py through
       harness/connsim.py: same outputs, same state after every event. *)
Definition c_ex0 : conn :=
  let c := conn0 false in
  mkConn false (Some 7) CONNECTED [] [] [] [] [] [] [] [] 0 0 0 (c_bf_pkt c) (c_bf_msg c)
         (c_out_timeout c) (c_temp_timeout c) (c_send_interval c) (c_ka_interval c)
         1536000 (c_last_send c) (c_last_ka c) 0 0 0 0 0 0 [] 0 0 false 0.
Definition env_ex0 : env := {| e_max_payload := 1434; e_max_frag := 1024; e_max_frags := 8192 |}.
Definition ack_bits_of (seq ack bits : Z) : dgram :=
  let h := {| h_to_server := false; h_ctime := 100; h_seq := seq; h_ack := ack; h_type := KEEP_ALIVE;
              h_len := 0; h_count := 0; h_ackbits := bits |} in
  {| d_hdr := h; d_body := Sealed 7 h [] |}.

Theorem C07_callback_at_most_once_best_effort_refuted :
  exists xs c' oss, CbInv c_ex0 /\ NoDup (sent_ids xs) /\ (forall id, ~ CbKnown c_ex0 id) /\
    run env_ex0 c_ex0 xs = (c', oss) /\ fired (concat oss) = [5; 5].
Proof.
  exists [ESend [x01] RBest (IUser 5); EClientTick 1536300 RxNone; EClientTick 1538300 RxNone;
          EClientTick 1538600 (RxDgram (ack_bits_of 1 2 2147483648) [])].
  eexists. eexists. split; [|split; [|split; [|split]]].
  - constructor; cbn; [constructor|reflexivity|constructor|intros ? ? []|intros ? ? ? ? []].
  - repeat constructor. intros [].
  - intros id [[]|(rid & [])].
  - vm_compute. reflexivity.
  - vm_compute. reflexivity.
Qed.
Print Assumptions C07_callback_at_most_once_best_effort_refuted.

(* 7. The at-least-once half, for the stage "attached to a pending datagram -> reported" of a plain
      (unretried-send) user callback: `Pending c id s t` = callback id is in the callback list of
      the pending datagram s, assembled at time t.  Over every history that keeps the connection open
      (no disconnect; message time-out and send interval not reconfigured; AInv as in 3) such a
      callback is never dropped: it stays attached to that pending datagram or it has been
      reported ... *)
Theorem C07_pending_callback_kept : forall e S K xs c n c' oss,
  all_open xs -> AInv S K c n -> run e c xs = (c', oss) ->
  forall id s t, Pending c id s t -> In id (fired (concat oss)) \/ Pending c' id s t.
Proof. exact run_Keep. Qed.
Print Assumptions C07_pending_callback_kept.

(*    ... hence, with the resolution deadline (3), it HAS been reported at the latest by the first
      rate-gated tick later than the message time-out after the datagram was assembled; by 6 it is
      reported exactly once.  (The stage "queued -> attached to a datagram" and the callbacks of
      guaranteed and of fragmented sends are not covered by a theorem: harness oracle.) *)
Theorem C07_pending_callback_reported_by_deadline : forall e S K xs c n c1 oss now c2 o id s t,
  all_open xs -> AInv S K c n -> Pending c id s t ->
  run e c xs = (c1, oss) ->
  c_send_interval c1 < now - c_last_send c1 -> server_tick e c1 now = (c2, o) ->
  c_out_timeout c1 < now - t ->
  In id (fired (concat oss ++ o)).
Proof. exact pending_reported_by_deadline. Qed.
Print Assumptions C07_pending_callback_reported_by_deadline.

(* non-vacuity: a CONNECTED key holder sends one message with callback 5; the datagram is acked by
   an authentic keep-alive of the peer -> callback 5 fires once with True; a second message (6) is
   never acked -> callback 6 fires once with False at the first tick past the message time-out *)
Definition c_ex : conn :=
  let c := conn0 false in
  mkConn false (Some 7) CONNECTED [] [] [] [] [] [] [] [] 0 0 0 (c_bf_pkt c) (c_bf_msg c)
         (c_out_timeout c) (c_temp_timeout c) (c_send_interval c) (c_ka_interval c)
         1536000 (c_last_send c) (c_last_ka c) 0 0 0 0 0 0 [] 0 0 false 0.
Definition env_ex : env := {| e_max_payload := 1434; e_max_frag := 1024; e_max_frags := 8192 |}.
Definition ack_of (seq ack : Z) : dgram :=
  let h := {| h_to_server := false; h_ctime := 100; h_seq := seq; h_ack := ack; h_type := KEEP_ALIVE;
              h_len := 0; h_count := 0; h_ackbits := 0 |} in
  {| d_hdr := h; d_body := Sealed 7 h [] |}.

Example C07_callbacks_fire :
  let '(_, oss) := run env_ex c_ex
      [ESend [x01] RNone (IUser 5); EClientTick 1536300 RxNone;
       EClientTick 1536600 (RxDgram (ack_of 1 1) []);
       ESend [x02] RNone (IUser 6); EClientTick 1536900 RxNone;
       EClientTick (1536900 + TICKS) RxNone] in
  filter (fun o => match o with OCallback _ _ => true | _ => false end) (concat oss)
  = [OCallback 5 true; OCallback 6 false].
Proof. vm_compute. reflexivity. Qed.

(* non-vacuity of 6: distinct ids 5..8 — unretried and acked (5), unretried and never acked (6: False
   at the first tick past the message time-out), guaranteed, re-sent after the resend interval and
   then acked on the second copy while the first copy later times out (7: True once, the stale copy
   reports nothing), unretried and fragmented into two datagrams, both acked (8) — every hypothesis
   of C07_callback_at_most_once holds and each id is reported exactly once *)
Definition once_xs : list ev :=
  [ESend [x01] RNone (IUser 5); EClientTick 1536300 RxNone;
   EClientTick 1536600 (RxDgram (ack_bits_of 1 1 0) []);
   ESend [x02] RNone (IUser 6); EClientTick 1536900 RxNone;
   ESend [x03] RTimeout (IUser 7); EClientTick 1537200 RxNone;
   EClientTick 1539200 RxNone;
   EClientTick 1539500 (RxDgram (ack_bits_of 2 4 0) []);
   ESend (repeat x02 1500) RNone (IUser 8); EClientTick 1539800 RxNone; EClientTick 1540100 RxNone;
   EClientTick 1540400 (RxDgram (ack_bits_of 3 6 2147483648) []);
   EClientTick (1536900 + TICKS) RxNone; EClientTick (1537200 + TICKS) RxNone].

Example C07_each_callback_once :
  Forall (ev_ok env_ex0) once_xs /\ sent_ids once_xs = [5; 6; 7; 8] /\
  let '(_, oss) := run env_ex0 c_ex0 once_xs in
  filter (fun o => match o with OCallback _ _ => true | _ => false end) (concat oss)
  = [OCallback 5 true; OCallback 7 true; OCallback 8 true; OCallback 6 false].
Proof. split; [repeat constructor|]. split; [reflexivity|]. vm_compute. reflexivity. Qed.

(* non-vacuity of 7: after a send with callback 6 and one tick, callback 6 is attached to the pending
   datagram 1 assembled at 1536300 in a state satisfying AInv; the first tick past the message
   time-out reports it *)
Example C07_pending_reported :
  AInv 256 0 c_ex0 0 /\
  let c6 := fst (run env_ex0 c_ex0 [ESend [x02] RNone (IUser 6); EClientTick 1536300 RxNone]) in
  Pending c6 6 1 1536300 /\ fired (snd (server_tick env_ex0 c6 (1536300 + TICKS + 1))) = [6].
Proof.
  split; [|split].
  - split; [|constructor].
    constructor; [vm_compute; discriminate|reflexivity|vm_compute; discriminate|reflexivity
                 |split; [vm_compute; discriminate|reflexivity]|constructor|constructor|reflexivity].
  - exists [Plain (IUser 6)]. vm_compute. auto.
  - vm_compute. reflexivity.
Qed.
