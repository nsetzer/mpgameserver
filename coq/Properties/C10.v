(* C10 — server handler lifecycle.
   Model: Model/Server.v (UdpServerThread.run + the ServerContext helpers) on top of Model/Conn.v.
   `srv_life h e g bl ins` = handler.starting() followed by the loop iterations `ins`, for ANY
   handler oracle h (what every handler call does and whether it raises), ANY environment e (MTU
   constants), settings g, blocklist bl, and ANY list of iterations: each with arbitrary clock
   readings, an arbitrary batch of datagrams from arbitrary addresses (bytes + symbolic body +
   handshake oracle answers), an arbitrary urandom stream, and the stop flag (shutdown at any tick).
   A client is a ServerClientConnection OBJECT (cid), not an address: reconnecting from the same
   address creates a new one. *)
From Model Require Import Base SeqNum Wire Conn Server.
From Proofs Require Import ServerP C10P ServerRunP.
Open Scope Z_scope.

(* 1. per client object the handler sees a prefix of  connect . message* . disconnect :
      connect at most once and first, messages only between connect and disconnect, disconnect at
      most once and last; in particular never a message or disconnect without a prior connect *)
Theorem C10_lifecycle : forall h e g bl ins cid,
  lifecycle_shape cid (proj cid (hlog (snd (srv_life h e g bl ins)))).
Proof. intros. apply accepted_shape, life_accepted. Qed.
Print Assumptions C10_lifecycle.

(* 2. shutdown: once the loop has exited normally, every client that connected has had exactly
      one disconnect *)
Theorem C10_shutdown_complete : forall h e g bl ins cid,
  let r := srv_life h e g bl ins in
  s_active (fst r) = false -> s_dead (fst r) = false ->
  proj cid (hlog (snd r)) = [] \/
  exists a t msgs, proj cid (hlog (snd r)) = HConnect cid a t :: msgs ++ [HDisconnect cid] /\ Forall is_message msgs.
Proof.
  intros h e g bl ins cid r A _. subst r. destruct (srv_life h e g bl ins) as [s o] eqn:L.
  destruct (srv_life_inv _ _ _ _ _ _ _ L) as [I Q]. exact (accepted_complete s _ cid I (Q A)).
Qed.
Print Assumptions C10_shutdown_complete.

(* 3. connect only on a valid challenge response: a connect event produced while processing message
      m means m is a CHALLENGE_RESP that parsed, the object is still in the temp pool and the token
      carried equals the token of that pool entry (issued by get_token when its CLIENT_HELLO was
      accepted); the datagram was opened by Conn.open_dgram under the object's key (srv_recv) *)
Theorem C10_connect_needs_challenge : forall h e s cid now m x s' o r,
  srv_msg h e s cid now m x = (s', o, r) -> existsb is_connect o = true ->
  w_type m = CHALLENGE_RESP /\ x_parse x = 0 /\
  exists cl other, sfind cid s = Some cl /\ pget (cl_addr cl) (s_temp s) = Some other /\
                   c_token (cl_conn other) = x_token x.
Proof. exact srv_msg_connect. Qed.
Print Assumptions C10_connect_needs_challenge.

(* 4. one disconnect per cause: in the sweep a client of `connections` gets the disconnect event iff
      it is due — status DISCONNECTING (peer sent DISCONNECT) or DISCONNECTED (a handler called
      client.disconnect()) or silent for connection_timeout; with theorem 1 (at most one per object)
      and theorem 2 (shutdown) this is "exactly one per cause" *)
Theorem C10_sweep_due : forall h e s now cid cl s' o p,
  pfind cid (s_conns s) = Some cl ->
  sweep_conn h e s now cid = (s', o, p) ->
  hlog o = if due (s_cfg s) now (cl_conn cl) then [HDisconnect cid] else [].
Proof. exact sweep_conn_log. Qed.
Print Assumptions C10_sweep_due.

(* client.disconnect() called by a handler leaves the object in a status that `due` reads *)
Theorem C10_disconnect_causes : forall c k, c_status (disconnect c k) = DISCONNECTED.
Proof. reflexivity. Qed.
Print Assumptions C10_disconnect_causes.

(* 5. handler_raise_irrelevant (per call; every handler call of the loop goes through
      call_handler): whether the handler raised changes neither the state nor the event, only the
      logged line SExc.   [per call; the lift to whole runs is theorem 5' below] *)
Theorem C10_handler_raise_irrelevant_call_partial : forall h e s ev,
  fst (call_handler h e s ev) = fst (call_handler (strip h) e s ev) /\
  snd (call_handler (strip h) e s ev) = [SEv ev] /\
  snd (call_handler h e s ev) = SEv ev :: (if r_raises (h (s_calls s) ev) then [SExc ev] else []).
Proof. intros. unfold call_handler, strip; simpl. auto. Qed.
Print Assumptions C10_handler_raise_irrelevant_call_partial.

(* 5'. handler_raise_irrelevant over WHOLE RUNS: for every handler oracle h, environment, settings,
       blocklist and list of iterations, the life of the thread driven by h and by (strip h) — the
       same handler that never raises — ends in the SAME server state, and the output trace of the
       never-raising run is the trace of the raising run with the logged SExc lines filtered out
       (noexc); in particular the handler sees the same sequence of events (hlog).  Events keep
       flowing identically whether or not handlers raise. *)
Theorem C10_handler_raise_irrelevant : forall h e g bl ins,
  fst (srv_life (strip h) e g bl ins) = fst (srv_life h e g bl ins) /\
  snd (srv_life (strip h) e g bl ins) = noexc (snd (srv_life h e g bl ins)) /\
  hlog (snd (srv_life (strip h) e g bl ins)) = hlog (snd (srv_life h e g bl ins)).
Proof.
  intros. rewrite (srv_life_strip h (strip h)) by reflexivity. destruct (srv_life h e g bl ins). repeat split. apply noexc_hlog.
Qed.
Print Assumptions C10_handler_raise_irrelevant.

(* more generally: two handlers that make the same client.send / client.disconnect calls in every
   handler call and differ only in WHICH calls raise (any pattern of exceptions, in any event) drive
   the loop to the same state, the same trace up to the exception lines and the same events *)
Theorem C10_raise_pattern_irrelevant : forall h1 h2 e g bl ins,
  (forall n ev, r_acts (h1 n ev) = r_acts (h2 n ev)) ->
  fst (srv_life h1 e g bl ins) = fst (srv_life h2 e g bl ins) /\
  noexc (snd (srv_life h1 e g bl ins)) = noexc (snd (srv_life h2 e g bl ins)) /\
  hlog (snd (srv_life h1 e g bl ins)) = hlog (snd (srv_life h2 e g bl ins)).
Proof.
  intros h1 h2 e g bl ins A. apply (srv_life_same_acts _ _ e g bl ins) in A.
  destruct (srv_life h1 e g bl ins) as [s1 o1], (srv_life h2 e g bl ins) as [s2 o2]. injection A as -> A.
  simpl. repeat split; auto. rewrite <- (noexc_hlog o1), A. apply noexc_hlog.
Qed.
Print Assumptions C10_raise_pattern_irrelevant.

(* the same from ANY server state (not only the initial one) *)
Theorem C10_handler_raise_irrelevant_run : forall h e s ins,
  fst (srv_run (strip h) e s ins) = fst (srv_run h e s ins) /\
  snd (srv_run (strip h) e s ins) = noexc (snd (srv_run h e s ins)).
Proof. intros. rewrite (srv_run_strip h (strip h)) by reflexivity. destruct (srv_run h e s ins). split; reflexivity. Qed.
Print Assumptions C10_handler_raise_irrelevant_run.

(* (strip h) logs no exception line at all: noexc is the identity on its trace *)
Theorem C10_strip_never_logs : forall h e g bl ins,
  noexc (snd (srv_life (strip h) e g bl ins)) = snd (srv_life (strip h) e g bl ins).
Proof. intros. rewrite (srv_life_strip h (strip h)) by reflexivity. destruct (srv_life h e g bl ins). apply noexc_idem. Qed.
Print Assumptions C10_strip_never_logs.

(* 6. tokens (D10): for EVERY urandom stream the token handed out is non-zero, is not the token of
      any connection object in either pool, and is a masked value of the stream
      [per get_token call; the run-level invariant "pooled objects carry pairwise distinct non-zero
      tokens, connected ones a non-zero token" is theorem 6' below] *)
Theorem C10_token_fresh_partial : forall used rand t rest,
  get_token used rand = Some (t, rest) ->
  t <> 0 /\ ~ In t used /\ exists r, In r rand /\ t = mask_token r.
Proof. exact get_token_fresh. Qed.
Print Assumptions C10_token_fresh_partial.

Theorem C10_tokens_in_use : forall s cl, In cl (s_conns s) \/ In cl (s_temp s) ->
  In (c_token (cl_conn cl)) (tokens_in_use s).
Proof. intros s cl H. apply (in_map (fun cl => c_token (cl_conn cl))), in_app_iff, H. Qed.
Print Assumptions C10_tokens_in_use.

(* 6'. the token invariant at EVERY REACHABLE STATE (after starting() and any list of loop
       iterations; every handler oracle, urandom stream, datagram batch, clock, stop flag):
       the connection objects held in the two pools have pairwise different identities, the
       non-zero tokens among them are pairwise different (NoDup over the pool positions), i.e. two
       DISTINCT pooled objects never share a non-zero token.   (Token 0 = "no token yet": an object
       whose hello was refused stays in temp_connections with token 0 and no key until it times
       out; see C10_temp_token_zero_shared below — such an object can never be promoted.) *)
Theorem C10_tokens_distinct : forall h e g bl ins,
  let s := fst (srv_life h e g bl ins) in
  NoDup (map cl_id (s_conns s ++ s_temp s)) /\
  NoDup (filter nonzero (tokens_in_use s)) /\
  (forall cl1 cl2, In cl1 (s_conns s ++ s_temp s) -> In cl2 (s_conns s ++ s_temp s) ->
     cl_id cl1 <> cl_id cl2 -> c_token (cl_conn cl1) <> 0 -> c_token (cl_conn cl1) <> c_token (cl_conn cl2)).
Proof.
  intros. subst s. destruct (srv_life h e g bl ins) as [s o] eqn:L.
  exact (TInv_distinct s _ (proj1 (srv_life_inv _ _ _ _ _ _ _ L)) (srv_life_T _ _ _ _ _ _ _ L)).
Qed.
Print Assumptions C10_tokens_distinct.

(* the invariant behind 6' is inductive: ANY loop iteration from ANY state that satisfies the pool
   bookkeeping invariant Inv (ServerP) and the token invariant TInv (ServerRunP: every pooled object is
   server-side and holds a non-zero token once it holds a key; every object of `connections` holds a
   key; different pooled objects never share a non-zero token) leads to a state that satisfies TInv *)
Theorem C10_token_invariant_step : forall h e s i phi,
  Inv s phi -> TInv s -> TInv (fst (srv_step h e s i)).
Proof.
  intros h e s i phi I T. destruct (srv_step h e s i) as [s' o] eqn:S. exact (srv_step_T _ _ _ _ _ _ _ S I T).
Qed.
Print Assumptions C10_token_invariant_step.

(* every object of `connections` (promoted = connected) holds a non-zero token and a session key *)
Theorem C10_connected_have_token : forall h e g bl ins cl,
  In cl (s_conns (fst (srv_life h e g bl ins))) ->
  c_token (cl_conn cl) <> 0 /\ c_key (cl_conn cl) <> None /\ c_server (cl_conn cl) = true.
Proof.
  intros h e g bl ins cl. destruct (srv_life h e g bl ins) as [s o] eqn:L.
  apply TInv_connected, (srv_life_T _ _ _ _ _ _ _ L).
Qed.
Print Assumptions C10_connected_have_token.

(* corollary — the clause of the property: simultaneously connected clients carry distinct tokens *)
Theorem C10_connected_tokens_distinct : forall h e g bl ins,
  let s := fst (srv_life h e g bl ins) in
  NoDup (map (fun cl => c_token (cl_conn cl)) (s_conns s)) /\
  Forall (fun cl => c_token (cl_conn cl) <> 0) (s_conns s).
Proof.
  intros. subst s. destruct (srv_life h e g bl ins) as [s o] eqn:L.
  exact (TInv_connected_distinct s _ (proj1 (srv_life_inv _ _ _ _ _ _ _ L)) (srv_life_T _ _ _ _ _ _ _ L)).
Qed.
Print Assumptions C10_connected_tokens_distinct.

(* non-vacuity: one complete life, with a handler that raises in every event *)
Definition e1500 : env := {| e_max_payload := 1434; e_max_frag := 1024; e_max_frags := 8192 |}.
Definition raising : horacle := fun _ _ => {| r_acts := []; r_raises := true |}.
Definition A1 : addr := (7, 5000).
Definition mkhdr (seq : Z) (t : ptype) (ln : Z) : header :=
  {| h_to_server := true; h_ctime := 100; h_seq := seq; h_ack := 0; h_type := t; h_len := ln; h_count := 1; h_ackbits := 0 |}.
Definition rawof (hd : header) : list byte := match encode_header hd with Ok b => b | Err _ => [] end.
Definition hello : witem :=
  {| w_addr := A1; w_raw := rawof (mkhdr 1 CLIENT_HELLO 3); w_body := Clear (be 2 1 ++ [x00]);
     w_hs := [{| x_parse := 0; x_version_ok := true; x_token := 0; x_key := 77; x_reply := [x01]; x_ecdh := 0 |}] |}.
Definition sealed (seq : Z) (t : ptype) (mseq : Z) (p : list byte) (hs : list hsx) : witem :=
  let pl := be 2 mseq ++ p in
  {| w_addr := A1; w_raw := rawof (mkhdr seq t (len pl)); w_body := Sealed 77 (mkhdr seq t (len pl)) pl; w_hs := hs |}.
Definition chal (tok : Z) : witem :=
  sealed 2 CHALLENGE_RESP 2 [x00] [{| x_parse := 0; x_version_ok := true; x_token := tok; x_key := 0; x_reply := []; x_ecdh := 0 |}].
Definition at_ (k : Z) (b : list witem) (rnd : list Z) (stop : bool) : sin :=
  {| i_td := 100 * TICKS + k * 300; i_ts := 100 * TICKS + k * 300; i_batch := b; i_rand := rnd; i_stop := stop |}.
Definition life (tok : Z) : list sin :=
  [at_ 0 [hello] [5] false; at_ 1 [chal tok] [] false; at_ 2 [sealed 3 APP 3 [x41] []] [] false;
   at_ 3 [sealed 4 DISCONNECT 4 [] []] [] false; at_ 4 [] [] true].

Example C10_one_life :
  filter (fun ev => match ev with HUpdate => false | _ => true end)
         (hlog (snd (srv_life raising e1500 cfg0 [] (life 1073741829))))
  = [HStarting; HConnect 0 A1 1073741829; HMessage 0 3 [x41]; HDisconnect 0; HShutdown].
Proof. vm_compute. reflexivity. Qed.

(* a wrong token: no connect, hence nothing else for that object *)
Example C10_wrong_token_no_connect :
  filter (fun ev => match ev with HUpdate => false | _ => true end)
         (hlog (snd (srv_life raising e1500 cfg0 [] (life 1073741830))))
  = [HStarting; HShutdown].
Proof. vm_compute. reflexivity. Qed.

(* the raising handler does log exception lines in that life, the stripped one logs none, and the
   two traces differ: noexc really removes something *)
Example C10_raise_logged :
  existsb is_exc (snd (srv_life raising e1500 cfg0 [] (life 1073741829))) = true /\
  existsb is_exc (snd (srv_life (strip raising) e1500 cfg0 [] (life 1073741829))) = false /\
  length (snd (srv_life raising e1500 cfg0 [] (life 1073741829))) =
    (length (snd (srv_life (strip raising) e1500 cfg0 [] (life 1073741829))) + 10)%nat.
Proof. vm_compute. auto. Qed.

(* two clients connected at the same time; os.urandom is forced to collide (5, 5, 6): the second
   hello draws 5 again, get_token rejects it and takes 6 — both end in `connections` with
   different non-zero tokens *)
Definition A2 : addr := (8, 5001).
Definition hello_at (a : addr) (key : Z) : witem :=
  {| w_addr := a; w_raw := rawof (mkhdr 1 CLIENT_HELLO 3); w_body := Clear (be 2 1 ++ [x00]);
     w_hs := [{| x_parse := 0; x_version_ok := true; x_token := 0; x_key := key; x_reply := [x01]; x_ecdh := 0 |}] |}.
Definition chal_at (a : addr) (key tok : Z) : witem :=
  let pl := be 2 2 ++ [x00] in
  {| w_addr := a; w_raw := rawof (mkhdr 2 CHALLENGE_RESP (len pl));
     w_body := Sealed key (mkhdr 2 CHALLENGE_RESP (len pl)) pl;
     w_hs := [{| x_parse := 0; x_version_ok := true; x_token := tok; x_key := 0; x_reply := []; x_ecdh := 0 |}] |}.
Definition two_clients : list sin :=
  [at_ 0 [hello_at A1 77; hello_at A2 78] [5; 5; 6] false;
   at_ 1 [chal_at A1 77 1073741829; chal_at A2 78 1073741830] [] false].

Example C10_two_connected_distinct :
  let s := fst (srv_life raising e1500 cfg0 [] two_clients) in
  map (fun cl => (cl_id cl, cl_addr cl, c_token (cl_conn cl))) (s_conns s)
    = [(0, A1, 1073741829); (1, A2, 1073741830)] /\ s_temp s = [].
Proof. vm_compute. auto. Qed.

(* why the pool-level statement speaks of NON-ZERO tokens: while a batch is being dispatched (after
   D+U, before the sweep of the same iteration) two hellos that did not parse have left two objects
   in temp_connections, both with token 0 and no key; they are never promoted, and the sweep of
   the same iteration removes them (status DISCONNECTED) *)
Definition bad_hello_at (a : addr) : witem :=
  {| w_addr := a; w_raw := rawof (mkhdr 1 CLIENT_HELLO 3); w_body := Clear (be 2 1 ++ [x00]);
     w_hs := [{| x_parse := 3; x_version_ok := true; x_token := 0; x_key := 0; x_reply := []; x_ecdh := 0 |}] |}.
Example C10_temp_token_zero_shared :
  let s := fst (srv_du raising e1500 (srv0 cfg0 []) (at_ 0 [bad_hello_at A1; bad_hello_at A2] [5; 6] false)) in
  map (fun cl => (cl_id cl, c_token (cl_conn cl), c_key (cl_conn cl))) (s_temp s) = [(0, 0, None); (1, 0, None)]
  /\ s_conns s = [] /\
  s_temp (fst (srv_life raising e1500 cfg0 [] [at_ 0 [bad_hello_at A1; bad_hello_at A2] [5; 6] false])) = [].
Proof. vm_compute. auto. Qed.

(* the hypotheses of C10_token_invariant_step are satisfiable: the initial state satisfies both *)
Example C10_token_invariant_initial :
  Inv (srv0 cfg0 []) (fun _ => Some Fresh) /\ TInv (srv0 cfg0 []).
Proof. exact (conj (Inv_srv0 cfg0 []) (TInv_srv0 cfg0 [])). Qed.
