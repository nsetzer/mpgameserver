(* C15 — typed JSON round trip of Serializable objects (mpgameserver/serializable.py: toJson / fromJson /
   dumps / loads).

   Vocabulary (Model/Json.v):
     ct                     the class table: `_fields` + annotations of every Serializable class, members of
                            every SerializableEnum class
     upper                  str.upper (external: universally quantified)
     wf_ctab ct upper       attribute names of a class are distinct; enum member names are distinct and
                            upper case (upper name = name) — the documented condition on enums
     ht_obj ct lim n x cid  x is an instance of class cid whose fields hold values of their annotated types:
                            int / float (not NaN) / bool / str, a nested Serializable instance, an enum member,
                            or None / a list / set (duplicate-free) / dict (int, str or enum keys) / tuple (of the
                            annotated arity) of those, one level of generic containers; n bounds the nesting of
                            objects.  bytes fields, bare or nested-generic containers and None for a nested
                            Serializable field are OUTSIDE this domain (ht_basic is false on them).
                            lim = true additionally restricts every int to CPython's 4300-digit int<->str limit.
     val_toJson ct n x      x.toJson()                 obj_fromJson ct upper n cid j     cid.fromJson(j)
     json_rt j              json.loads(json.dumps(j)): dict keys stringified, tuples to lists (trusted model of
                            the json module, sampled by the harness)
     plainb lim j           j is JSON data (None/bool/int/float/str/list/dict) with str or int dict keys
     strictb j              j is JSON data as json.loads returns it (str keys only) *)
From Model Require Import Base Json.
From Proofs Require Import JsonP C15P.
Open Scope Z_scope.

(* 1. fromJson(toJson(x)) = x : every object of the domain, any int size *)
Theorem C15_fromjson_tojson : forall ct upper n x cid,
  wf_ctab ct upper = true -> ht_obj ct false n x cid = true ->
  exists j, val_toJson ct n x = Ok j /\ obj_fromJson ct upper n cid j = Ok x.
Proof.
  intros ct upper n x cid WF H.
  destruct (rt_main ct upper WF false n x cid H) as (kv & kv' & A & B & C & _).
  injection B as <-. eauto.
Qed.
Print Assumptions C15_fromjson_tojson.

(* 2. loads(dumps(x)) = x : json.dumps accepts toJson's result and the object is reproduced from the
      re-read text (keys stringified, tuples as lists) *)
Theorem C15_loads_dumps : forall ct upper n x cid,
  wf_ctab ct upper = true -> ht_obj ct true n x cid = true ->
  exists j j', val_toJson ct n x = Ok j /\ json_rt j = Ok j' /\ obj_fromJson ct upper n cid j' = Ok x.
Proof.
  intros ct upper n x cid WF H.
  destruct (rt_main ct upper WF true n x cid H) as (kv & kv' & A & B & C & _). eauto.
Qed.
Print Assumptions C15_loads_dumps.

(* 3. toJson produces plain data (needs only distinct names, not the upper-case condition) *)
Theorem C15_tojson_plain : forall ct lim n x cid,
  wf_ctab ct (fun s => s) = true -> ht_obj ct lim n x cid = true ->
  exists j, val_toJson ct n x = Ok j /\ plainb lim j = true.
Proof.
  intros ct lim n x cid WF H.
  destruct (rt_main ct (fun s => s) WF lim n x cid H) as (kv & kv' & A & _ & _ & D). eauto.
Qed.
Print Assumptions C15_tojson_plain.

(* 4. json.dumps accepts all plain data, and what json.loads returns is strict JSON data *)
Theorem C15_dumps_accepts_plain : forall j, plainb true j = true ->
  exists j', json_rt j = Ok j' /\ strictb j' = true.
Proof. exact json_rt_plain_strict. Qed.
Print Assumptions C15_dumps_accepts_plain.

(* 5. = 3 + 4: json.dumps accepts toJson's result *)
Theorem C15_dumps_accepts : forall ct n x cid,
  wf_ctab ct (fun s => s) = true -> ht_obj ct true n x cid = true ->
  exists j j', val_toJson ct n x = Ok j /\ json_rt j = Ok j' /\ strictb j' = true.
Proof.
  intros ct n x cid WF H. destruct (C15_tojson_plain ct true n x cid WF H) as (j & A & B).
  destruct (C15_dumps_accepts_plain j B) as (j' & C & D). eauto.
Qed.
Print Assumptions C15_dumps_accepts.

(* 6. the nesting bound n is no restriction: a larger bound accepts the same objects (so 1-5 hold at
      every sufficient fuel) *)
Theorem C15_fuel_monotone : forall ct lim n m x cid,
  ht_obj ct lim n x cid = true -> (n <= m)%nat -> ht_obj ct lim m x cid = true.
Proof. intros ct lim n m x cid H L. induction L; auto using ht_obj_S. Qed.
Print Assumptions C15_fuel_monotone.

(* enum Color { BLUE = 3, GREEN = 2, RED = 1 } (dir() order);
   class Inner { v: int; s: str };
   class Outer { a: int; f: float; c: Color; o: Inner; l: List[Inner]; s: Set[int]; d: Dict[int, str];
                 e: Dict[Color, Inner]; t: Tuple[int, str, Color]; n: List[int]; g: Optional[...] } *)
Definition ex_ct : ctab :=
  mkCtab
    [ (1, [ mkField [118] (TBasic TInt) (PInt 0); mkField [115] (TBasic TStr) (PStr []) ]);
      (2, [ mkField [97] (TBasic TInt) (PInt 0); mkField [102] (TBasic TFloat) (PFloat 0);
            mkField [99] (TBasic (TEnum 1)) (PEnum 1 1); mkField [111] (TBasic (TObj 1)) PNone;
            mkField [108] (TList (TObj 1)) PNone; mkField [115] (TSet TInt) PNone;
            mkField [100] (TDict TInt TStr) PNone; mkField [101] (TDict (TEnum 1) (TObj 1)) PNone;
            mkField [116] (TTuple [TInt; TStr; TEnum 1]) PNone; mkField [110] (TList TInt) PNone;
            mkField [103] TGenOther PNone ]);
      (3, [ mkField [98] (TBasic TBytes) (PBytes []) ]);
      (4, [ mkField [116] (TTuple [TInt; TInt]) PNone ]);
      (5, [ mkField [99] (TBasic (TEnum 2)) (PEnum 2 1) ]) ]
    [ (1, [ ([66;76;85;69], 3); ([71;82;69;69;78], 2); ([82;69;68], 1) ]);
      (2, [ ([114;101;100], 1) ]) ].                                       (* member "red": not upper case *)

(* the part of the table that satisfies the documented conditions *)
Definition ex_ct_ok : ctab :=
  mkCtab (firstn 2 (c_objs ex_ct) ++ [nth 3 (c_objs ex_ct) (0, [])]) (firstn 1 (c_enums ex_ct)).

Definition ex_inner (v : Z) (s : str) : pv := PObj 1 [PInt v; PStr s].
Definition ex_x : pv :=
  PObj 2 [ PInt (-5); PFloat 4607182418800017408; PEnum 1 2; ex_inner 7 [233; 28450];
           PList [ex_inner 1 [97]; ex_inner (2 ^ 70) []]; PSet [PInt 3; PInt (-1)];
           PDict [(PInt 10, PStr [97]); (PInt (-2), PStr [])];
           PDict [(PEnum 1 1, ex_inner 0 []); (PEnum 1 3, ex_inner 9 [122])];
           PTuple [PInt 1; PStr [120]; PEnum 1 3]; PNone; PNone ].

Example C15_hypotheses_satisfiable :
  wf_ctab ex_ct_ok ascii_upper = true /\ ht_obj ex_ct_ok true 2 ex_x 2 = true.
Proof. vm_compute. split; reflexivity. Qed.

(* the conversions computed on that object: int and enum keys travel as text and come back *)
Example C15_roundtrip_computed :
  (do j <- val_toJson ex_ct_ok 2 ex_x; do j' <- json_rt j; obj_fromJson ex_ct_ok ascii_upper 2 2 j') = Ok ex_x /\
  (do j <- val_toJson ex_ct_ok 2 ex_x; do j' <- json_rt j;
   match j' with
   | PDict kv => Ok (dict_find kv (PStr [100]), dict_find kv (PStr [116]))
   | _ => Err EOther
   end)
  = Ok (Some (PDict [(PStr [49; 48], PStr [97]); (PStr [45; 50], PStr [])]),        (* {"10": "a", "-2": ""} *)
        Some (PList [PInt 1; PStr [120]; PStr [66;76;85;69]])).                    (* [1, "x", "BLUE"] *)
Proof. vm_compute. split; reflexivity. Qed.

(* each restriction of the domain is needed (the conversion really fails outside it): *)
(* a bytes field: toJson passes it through and json.dumps raises TypeError *)
Example C15_bytes_outside_domain :
  ht_obj ex_ct true 1 (PObj 3 [PBytes [1; 2]]) 3 = false /\
  (do j <- val_toJson ex_ct 1 (PObj 3 [PBytes [1; 2]]); json_rt j) = Err EType.
Proof. vm_compute. split; reflexivity. Qed.

(* a tuple shorter than its annotation is padded with None by toJson, and fromJson then raises
   TypeError on int(None) *)
Example C15_tuple_arity_outside_domain :
  ht_obj ex_ct true 1 (PObj 4 [PTuple [PInt 1]]) 4 = false /\
  (do j <- val_toJson ex_ct 1 (PObj 4 [PTuple [PInt 1]]); obj_fromJson ex_ct ascii_upper 1 4 j)
  = Err EType.
Proof. vm_compute. split; reflexivity. Qed.

(* an enum member whose name is not upper case: fromJson raises KeyError *)
Example C15_lowercase_enum_outside_domain :
  wf_ctab ex_ct ascii_upper = false /\
  (do j <- val_toJson ex_ct 1 (PObj 5 [PEnum 2 1]); obj_fromJson ex_ct ascii_upper 1 5 j) = Err EKey.
Proof. vm_compute. split; reflexivity. Qed.

(* None in a nested-Serializable field: toJson raises AttributeError *)
Example C15_none_object_outside_domain :
  val_toJson ex_ct_ok 2 (PObj 2 [PInt 0; PFloat 0; PEnum 1 1; PNone; PNone; PNone; PNone; PNone; PNone; PNone; PNone])
  = Err EAttr.
Proof. vm_compute. reflexivity. Qed.

(* a NaN float is not reproduced bit for bit by the text round trip (and NaN <> NaN in Python) *)
Example C15_nan_outside_domain :
  json_rt (PFloat 18444492273895866368) = Ok (PFloat NAN_BITS) /\ 18444492273895866368 <> NAN_BITS.
Proof. vm_compute. split; [reflexivity | discriminate]. Qed.

(* an int beyond 4300 digits: the direct round trip holds (theorem 1), json.dumps raises ValueError *)
Example C15_huge_int_needs_lim :
  ht_obj ex_ct_ok false 1 (ex_inner (10 ^ 4300) []) 1 = true /\
  (do j <- val_toJson ex_ct_ok 1 (ex_inner (10 ^ 4300) []); json_rt j) = Err EValue.
Proof.
  (* 10^4300 stays a variable: writing it out in decimal (what evaluating lim_ok would do) is slow to check *)
  pose proof (lim_ok_pow10 4300 (Z.le_refl _)) as L. revert L. generalize (10 ^ 4300). intros z L.
  split; [reflexivity|]. cbn -[lim_ok]. rewrite L. reflexivity.
Qed.
