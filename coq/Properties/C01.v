(* C01 — only datagrams authenticated under the session key can affect a connection.
   `recv` is Conn.recv (= ConnectionBase._recv_datagram with Packet.from_bytes,
   _handle_ack_bits, _recv_message and the subclasses' handshake handlers); a datagram is the
   symbolic form `{d_hdr; d_body := Sealed k hdr payload | Clear payload | Bad}` the harness
   computes from real bytes with the real AES-GCM.  All statements hold for EVERY connection
   state c (not just reachable ones), every clock value, every datagram, every oracle list. *)
From RecordUpdate Require Import RecordUpdate.
From Model Require Import Base SeqNum Wire Conn RecvSpec.
From Proofs Require Import RecvP C01P.
Import RecordSetNotations.
Open Scope Z_scope.

(* 1. A key holder discards every datagram that is not authentic for its key: the post-state is
      the pre-state with stats.dropped + 1 — equality of the WHOLE state record (incoming queue,
      pending acks / callbacks / retries, key, status, liveness clock, both windows, fragment
      contexts, counters ...) — and the call returns False. *)
Theorem C01_drop : forall c now d orcs k,
  c_key c = Some k -> ~ authentic k d ->
  recv c now d orcs = (c <| c_dropped := c_dropped c + 1 |>, [ORet false]).
Proof. exact recv_drop_key. Qed.
Print Assumptions C01_drop.

(* the same, read the other way: whatever has any other effect was sealed under the key, with
   the header it carries *)
Theorem C01_only_authentic_accepted : forall c now d orcs k,
  c_key c = Some k ->
  recv c now d orcs <> (c <| c_dropped := c_dropped c + 1 |>, [ORet false]) ->
  exists p, d_body d = Sealed k (d_hdr d) p.
Proof. exact recv_accept_authentic. Qed.
Print Assumptions C01_only_authentic_accepted.

(* 2. the forgery classes of the property are all "not authentic":
      forged plaintext of any type / count / inner types (valid CRC) and junk ... *)
Theorem C01_unsealed_not_authentic : forall k h p,
  ~ authentic k {| d_hdr := h; d_body := Clear p |} /\ ~ authentic k {| d_hdr := h; d_body := Bad |}.
Proof. intros. split; intros [q H]; discriminate. Qed.
Print Assumptions C01_unsealed_not_authentic.

(* ... ciphertext made under another key ... *)
Theorem C01_other_key_not_authentic : forall k k' h sh p, k' <> k ->
  ~ authentic k {| d_hdr := h; d_body := Sealed k' sh p |}.
Proof. intros k k' h sh p Hk [q H]. cbn in H. congruence. Qed.
Print Assumptions C01_other_key_not_authentic.

(* ... every rewrite of any header field of a genuine datagram (re-typing as a hello, another
   seq / ack / ack bits / count / length / time / direction).  (Bit flips / truncations of the
   ciphertext or tag do not open under any key: symbolically their body is Bad.) *)
Theorem C01_tampered_header_not_authentic : forall k d h',
  authentic k d -> h' <> d_hdr d -> ~ authentic k {| d_hdr := h'; d_body := d_body d |}.
Proof. intros k d h' [p Hb] Hne [q H]. cbn in H. rewrite Hb in H. injection H as H _. congruence. Qed.
Print Assumptions C01_tampered_header_not_authentic.

(* 3. Before a key exists: nothing is ever delivered to the application; anything but a
      single-message hello with a valid CRC has no effect at all; and a hello of the type this
      endpoint does not wait for makes no handshake progress (no key, same status and token,
      no reply queued, no connect event / connection callback / exception). *)
Theorem C01_prekey : forall c now d orcs c' o,
  c_key c = None -> recv c now d orcs = (c', o) ->
  c_incoming c' = c_incoming c
  /\ (~ single_clear_hello d -> c' = c <| c_dropped := c_dropped c + 1 |> /\ o = [ORet false])
  /\ (h_type (d_hdr d) <> expected_hello c ->
        c_key c' = None /\ c_status c' = c_status c /\ c_token c' = c_token c
        /\ c_seq_msg c' = c_seq_msg c /\ no_handshake_output o).
Proof. exact C01_prekey_proof. Qed.
Print Assumptions C01_prekey.

(* 4. ... at every point of every connection history: c is whatever state ANY list of events
      (sends, ticks, genuine and forged datagrams, disconnects, configuration changes) produced *)
Theorem C01_history : forall e c0 xs now d orcs,
  let c := fst (run e c0 xs) in
  (forall k, c_key c = Some k -> ~ authentic k d ->
     run e c0 (xs ++ [ERecv now d orcs])
       = (c <| c_dropped := c_dropped c + 1 |>, snd (run e c0 xs) ++ [[ORet false]]))
  /\ (c_key c = None ->
     c_incoming (fst (run e c0 (xs ++ [ERecv now d orcs]))) = c_incoming c).
Proof.
  intros e c0 xs now d orcs c. subst c. rewrite run_app.
  destruct (run e c0 xs) as [c os]. cbn [fst snd run step]. split.
  - intros k Hk Hn. rewrite (recv_drop_key c now d orcs k Hk Hn). reflexivity.
  - intros Hk. destruct (recv c now d orcs) as [c' o] eqn:Hr. cbn [fst].
    exact (proj1 (C01_prekey c now d orcs c' o Hk Hr)).
Qed.
Print Assumptions C01_history.

(* ... and through UdpClient.update (the client's receive loop): an update() that reads a forged
   datagram from the socket is exactly an update() that reads nothing, run on the state with
   stats.dropped + 1 (client_send_part = the build / send / time-out part of update()) *)
Theorem C01_update_path : forall e c now d orcs k,
  c_key c = Some k -> ~ authentic k d ->
  client_tick e c now (RxDgram d orcs) =
    let '(c1, o0) := client_update c now in
    if status_eqb (c_status c1) DROPPED then (c1, o0)
    else let '(c2, o) := client_send_part e (c1 <| c_dropped := c_dropped c1 + 1 |>) now in (c2, o0 ++ o).
Proof.
  intros e c now d orcs k Hk Hn. rewrite client_tick_send_part.
  pose proof (client_update_key c now) as Hk1. destruct (client_update c now) as [c1 o0]. cbn [fst] in Hk1.
  destruct (status_eqb (c_status c1) DROPPED); [reflexivity|].
  rewrite (recv_drop_key c1 now d orcs k) by (congruence || exact Hn). reflexivity.
Qed.
Print Assumptions C01_update_path.

(* the update() that reads nothing, which the right-hand side above is an instance of *)
Theorem C01_update_without_datagram : forall e c now,
  client_tick e c now RxNone =
    let '(c1, o0) := client_update c now in
    if status_eqb (c_status c1) DROPPED then (c1, o0)
    else let '(c2, o) := client_send_part e c1 now in (c2, o0 ++ o).
Proof.
  intros e c now. rewrite client_tick_send_part. destruct (client_update c now) as [c1 o0].
  destruct (status_eqb (c_status c1) DROPPED); reflexivity.
Qed.
Print Assumptions C01_update_without_datagram.

(* 5. The symbolic notion, at the byte level (Wire.from_bytes = Packet.from_bytes over abstract
      AES-GCM).  Premises: AEAD integrity and injectivity of seal (assumptions about the
      `cryptography` package, see the trusted base).  A key holder accepts a byte datagram only
      if the bytes behind the header are `seal k (first 12 bytes) (first 20 bytes) p`: sealed
      under ITS key for THE header bytes the datagram carries.  So a ciphertext produced for any
      (key, nonce, header) is accepted only under that key and behind exactly that header. *)
Theorem C01_bytes_binds : forall (crc : list byte -> Z)
    (seal : Z -> list byte -> list byte -> list byte -> list byte)
    (open : Z -> list byte -> list byte -> list byte -> option (list byte)),
  (forall k iv aad c p, open k iv aad c = Some p -> c = seal k iv aad p) ->
  (forall k iv aad p k' iv' aad' p',
     seal k iv aad p = seal k' iv' aad' p' -> k = k' /\ iv = iv' /\ aad = aad' /\ p = p') ->
  forall k h d ms,
  from_bytes crc open (Some k) h d = Ok ms ->
  (exists p, sub d 20 (Z.to_nat (h_len h) + 16) = seal k (firstn 12 d) (firstn 20 d) p
             /\ decode_msgs (h_type h) (h_count h) p = Ok ms)
  /\ forall k0 iv0 aad0 p0, sub d 20 (Z.to_nat (h_len h) + 16) = seal k0 iv0 aad0 p0 ->
       k0 = k /\ iv0 = firstn 12 d /\ aad0 = firstn 20 d.
Proof.
  intros crc seal open Hint Hinj k h d ms H. split.
  - exact (proj2 (from_bytes_key_sealed crc seal open Hint k h d ms H)).
  - intros k0 iv0 aad0 p0 Hs.
    destruct (from_bytes_binds crc seal open Hint Hinj k h d ms k0 iv0 aad0 p0 H Hs) as (A & B & C & _). auto.
Qed.
Print Assumptions C01_bytes_binds.

(* wrong-key ciphertext is refused, whatever header is put in front *)
Theorem C01_bytes_wrong_key : forall (crc : list byte -> Z)
    (seal : Z -> list byte -> list byte -> list byte -> list byte)
    (open : Z -> list byte -> list byte -> list byte -> option (list byte)),
  (forall k iv aad c p, open k iv aad c = Some p -> c = seal k iv aad p) ->
  (forall k iv aad p k' iv' aad' p',
     seal k iv aad p = seal k' iv' aad' p' -> k = k' /\ iv = iv' /\ aad = aad' /\ p = p') ->
  forall k h d k0 iv0 aad0 p0,
  sub d 20 (Z.to_nat (h_len h) + 16) = seal k0 iv0 aad0 p0 -> k0 <> k ->
  exists e, from_bytes crc open (Some k) h d = Err e.
Proof.
  intros crc seal open Hint Hinj k h d k0 iv0 aad0 p0 Hs Hk.
  destruct (from_bytes crc open (Some k) h d) as [ms|e] eqn:E; [|eauto].
  exfalso. apply Hk. exact (proj1 (from_bytes_binds crc seal open Hint Hinj k h d ms k0 iv0 aad0 p0 E Hs)).
Qed.
Print Assumptions C01_bytes_wrong_key.

(* a genuine ciphertext (sealed for header h0) behind the encoding of any other header h' is
   refused: no header field can be rewritten *)
Theorem C01_bytes_rewritten_header : forall (crc : list byte -> Z)
    (seal : Z -> list byte -> list byte -> list byte -> list byte)
    (open : Z -> list byte -> list byte -> list byte -> option (list byte)),
  (forall k iv aad c p, open k iv aad c = Some p -> c = seal k iv aad p) ->
  (forall k iv aad p k' iv' aad' p',
     seal k iv aad p = seal k' iv' aad' p' -> k = k' /\ iv = iv' /\ aad = aad' /\ p = p') ->
  forall k h0 h' hb0 hb' iv0 p0 rest hparsed,
  encode_header h0 = Ok hb0 -> encode_header h' = Ok hb' -> h' <> h0 ->
  let d := hb' ++ rest in
  sub d 20 (Z.to_nat (h_len hparsed) + 16) = seal k iv0 hb0 p0 ->
  exists e, from_bytes crc open (Some k) hparsed d = Err e.
Proof.
  intros crc seal open Hint Hinj k h0 h' hb0 hb' iv0 p0 rest hparsed E0 E' Hne d Hs.
  destruct (from_bytes crc open (Some k) hparsed d) as [ms|e] eqn:E; [|eauto].
  exfalso. apply Hne. eapply encode_header_inj; [exact E'|].
  rewrite <- (from_bytes_aad crc seal open Hint Hinj k hparsed h' hb' rest ms k iv0 hb0 p0 E' E Hs). exact E0.
Qed.
Print Assumptions C01_bytes_rewritten_header.

Definition ex_hdr (t : ptype) (count ln : Z) : header :=
  {| h_to_server := true; h_ctime := 100; h_seq := 5; h_ack := 0; h_type := t;
     h_len := ln; h_count := count; h_ackbits := 0 |}.
Definition ex_conn : conn := (conn0 true) <| c_key := Some 7 |> <| c_status := CONNECTED |>.
Definition ex_payload : list byte := [x00; x09; x41; x42].      (* message seq 9, body "AB" *)

(* an authentic datagram IS accepted and its message delivered (recv does not always drop) ... *)
Example C01_authentic_is_delivered :
  let d := {| d_hdr := ex_hdr APP 1 4; d_body := Sealed 7 (ex_hdr APP 1 4) ex_payload |} in
  authentic 7 d /\ c_incoming (fst (recv ex_conn 0 d [])) = [(9, [x41; x42])]
  /\ snd (recv ex_conn 0 d []) = [ORet true].
Proof. split; [exists ex_payload; reflexivity | vm_compute; split; reflexivity]. Qed.

(* ... while the D1 witness (CRC-only plaintext typed CLIENT_HELLO, two inner messages
   CHALLENGE_RESP + APP) and the same ciphertext behind a re-typed header are dropped *)
Example C01_forgeries_dropped :
  let inner := [x00; x00; x00; x01; x03; x00; x02; x00; x02; x06; x41; x42] in
  let d1 := {| d_hdr := ex_hdr CLIENT_HELLO 2 12; d_body := Clear inner |} in
  let d2 := {| d_hdr := ex_hdr CLIENT_HELLO 1 4; d_body := Sealed 7 (ex_hdr APP 1 4) ex_payload |} in
  recv ex_conn 0 d1 [] = (bump ex_conn, [ORet false]) /\ recv ex_conn 0 d2 [] = (bump ex_conn, [ORet false])
  /\ (* and on a keyless server connection the D2 witness is dropped as well *)
  recv (conn0 true) 0 d1 [] = (bump (conn0 true), [ORet false]).
Proof. vm_compute. repeat split. Qed.

(* the AEAD hypotheses of part 5 are consistent: a toy scheme satisfies them (and opens what it
   seals, so the conclusions are not vacuous either) *)
Example C01_aead_hypotheses_satisfiable :
  (forall k iv aad c p, toy_open k iv aad c = Some p -> c = toy_seal k iv aad p)
  /\ (forall k iv aad p k' iv' aad' p',
        toy_seal k iv aad p = toy_seal k' iv' aad' p' -> k = k' /\ iv = iv' /\ aad = aad' /\ p = p')
  /\ (forall k iv aad p, toy_open k iv aad (toy_seal k iv aad p) = Some p).
Proof. split; [exact toy_integrity|]. split; [exact toy_injective|exact toy_open_seal]. Qed.
