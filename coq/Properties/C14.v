(* C14 — deserializing hostile bytes is safe and bounded.
   decode fc pk reg fuel bs  is Serializable.loadb / deserialize_value on the byte string bs with
   registry reg (data), float conversions fc, the outcome pk of the external DER key parser
   (EllipticCurvePublicKey.fromBytes) and fuel = Python frames still available when
   deserialize_value is entered (recursion limit minus frames in use).  dec_value is the same
   computation on the stream state (bytes left, number of stream.read calls, number of
   deserialize_value calls). *)
From Model Require Import Base Utf8 Ser SerCost SerHs.
From Proofs Require Import SerDecP SerCostP SerSizeP C14P.
From Model Require Registry.
From Proofs Require RegistryP.
Open Scope Z_scope.

(* 1. totality: for every byte string, registry, key-parser behaviour and number of frames the
      decoder ends (it is a total function: structural recursion on the frames) either with a
      value and the unread rest of the input, or with one of the documented exception kinds
      (or with whatever exception the external key parser raised). *)
Theorem C14_decode_total : forall fc pk reg fuel bs,
  match decode fc pk reg fuel bs with
  | SOk (v, rest) => exists consumed, bs = consumed ++ rest
  | SErr e => documented e \/ exists x, pk x = Some e
  end.
Proof.
  intros fc pk reg fuel bs. pose proof (decode_facts fc pk reg fuel bs) as H.
  destruct (decode fc pk reg fuel bs) as [[v rest]|e]; tauto.
Qed.
Print Assumptions C14_decode_total.

(* 2. RecursionError (fuel exhausted) is only possible when the frames available are fewer than
      |bs| + 3: every nesting level costs two frames and at least two bytes.  With Python's
      recursion limit L and d frames in use at the call, inputs of at most L - d - 3 bytes never
      hit it (L - d <= 1400, e.g. the default L = 1000: beyond that CPython 3.12's separate C-level
      recursion limit, about 747 nested class instances, raises the same RecursionError first —
      see frames_available in Model/SerCost.v and the harness). *)
Theorem C14_recursion_needs_long_input : forall fc pk reg fuel bs,
  len bs + 3 <= Z.of_nat fuel ->
  decode fc pk reg fuel bs = SErr (SE ERecursion) -> exists x, pk x = Some (SE ERecursion).
Proof.
  intros fc pk reg fuel bs Hf He. pose proof (decode_facts fc pk reg fuel bs) as H. rewrite He in H.
  destruct H as [H|[_ H]]; [exact H | destruct (H Hf eq_refl)].
Qed.
Print Assumptions C14_recursion_needs_long_input.

Theorem C14_recursion_limit : forall fc pk reg limit depth bs,
  len bs + 3 <= limit - depth ->
  decode fc pk reg (frames_available limit depth) bs = SErr (SE ERecursion) ->
  exists x, pk x = Some (SE ERecursion).
Proof.
  intros fc pk reg limit depth bs H. apply C14_recursion_needs_long_input, frames_fit, H.
Qed.
Print Assumptions C14_recursion_limit.

(* 3. work is bounded by the input length: value decodes (every deserialize_value call, so every
      iteration of every loop) <= |bs|/2 + 1, stream reads <= 2 per value decode, the stream only
      moves forward (the bytes handed out are the consumed prefix of bs). *)
Theorem C14_decode_bounded : forall fc pk reg fuel bs,
  match dec_value fc pk reg fuel (st0 bs) with
  | (r, s) =>
      0 <= nval s /\ 2 * nval s <= len bs + 2 /\
      0 <= nrd s /\ nrd s <= 2 * nval s /\
      (exists consumed, bs = consumed ++ rem s) /\
      match r with SOk _ => 2 * nval s <= len bs - len (rem s) | SErr _ => True end
  end.
Proof. exact decode_bounded_proof. Qed.
Print Assumptions C14_decode_bounded.

(* 4. a returned value is composed only of base types and classes of the registry (given that
      the class defaults are) *)
Theorem C14_decode_closed : forall fc pk reg fuel bs v rest,
  reg_closed reg -> decode fc pk reg fuel bs = SOk (v, rest) -> closed reg v.
Proof.
  intros fc pk reg fuel bs v rest Hreg He. pose proof (decode_facts fc pk reg fuel bs) as H.
  rewrite He in H. apply H, Hreg.
Qed.
Print Assumptions C14_decode_closed.

(* 5. the read log.  c_dec_value is the same decoder on a stream that records every read call
      (size argument, bytes returned).  Erasing the log gives exactly dec_value: same outcome,
      same bytes left, same number of value decodes, and the number of reads is the length of
      the log ... *)
Theorem C14_cost_erasure : forall fc pk reg fuel bs,
  match c_dec_value fc pk reg fuel (cst0 bs) with
  | (r, cs) => dec_value fc pk reg fuel (st0 bs) = (r, erase cs)
  end.
Proof. exact cost_erasure_proof. Qed.
Print Assumptions C14_cost_erasure.

(*    ... the bytes returned by all reads together are exactly the bytes the stream moved forward,
      hence at most |bs|; every single read returned between 0 and its size argument (when that is
      not negative) *)
Theorem C14_bytes_returned : forall fc pk reg fuel bs,
  match c_dec_value fc pk reg fuel (cst0 bs) with
  | (r, cs) =>
      log_bytes (c_log cs) = len bs - len (c_rem cs) /\
      0 <= len (c_rem cs) /\ log_bytes (c_log cs) <= len bs /\
      Forall (fun p => 0 <= snd p /\ (0 <= fst p -> snd p <= fst p)) (c_log cs)
  end.
Proof. exact bytes_returned_proof. Qed.
Print Assumptions C14_bytes_returned.

(* 5b. allocation: the size of a decoded value (nodes + string/bytes payload) is bounded by the work
      done, hence by the input: with D a bound on the size of the class defaults of the registry,
      vsize v <= (1 + D) * (value decodes) + (bytes consumed) and so 2 * vsize v <= (3 + D) * |bs|.
      (Intermediate structures are the partially built lists/dicts of the same values; peak
      memory of the CPython process is measured by the harness, not proved.) *)
Theorem C14_decode_size : forall fc pk reg D,
  reg_defsize_le reg D -> 0 <= D -> forall fuel bs,
  match dec_value fc pk reg fuel (st0 bs) with
  | (SOk v, s) => vsize v <= (1 + D) * nval s + (len bs - len (rem s))
  | (SErr _, _) => True
  end.
Proof. exact decode_size_proof. Qed.
Print Assumptions C14_decode_size.

Theorem C14_decode_alloc : forall fc pk reg D fuel bs v rest,
  reg_defsize_le reg D -> 0 <= D ->
  decode fc pk reg fuel bs = SOk (v, rest) ->
  2 * vsize v <= (3 + D) * (len bs - len rest) /\ len bs - len rest <= len bs.
Proof. exact decode_alloc_proof. Qed.
Print Assumptions C14_decode_alloc.

(* 6. length-prefixed types (str, bytes: cap 2^20; seq, map, set: cap 2^14), for ANY decoder `sub`
      of the length (in particular the recursive one):
      a declared length above the cap is refused in the very state the length decode left —
      no read, no loop iteration, no further value decode; *)
Theorem C14_cap_refused_before_loop : forall fc (sub : M value) f2 k cap s v s1 n,
  cap_of k = Some cap -> sub s = (SOk v, s1) -> as_len v = Some n -> cap < n ->
  dec_base fc sub f2 k s = (SErr (SE EValue), s1).
Proof. exact cap_refused_proof. Qed.
Print Assumptions C14_cap_refused_before_loop.

(*    a declared length that is not an int is a TypeError in that same state; *)
Theorem C14_length_not_int : forall fc (sub : M value) f2 k cap s v s1,
  cap_of k = Some cap -> sub s = (SOk v, s1) -> as_len v = None ->
  dec_base fc sub f2 k s = (SErr (SE EType), s1).
Proof. exact length_not_int_proof. Qed.
Print Assumptions C14_length_not_int.

(*    the element loop ends at the first element that fails (a short read included): the state and
      the exception are those of that element, whatever length was declared; *)
Theorem C14_loop_stops_at_first_failure : forall (A : Type) (m : M A) i n s l si e s',
  rep i m s = (SOk l, si) -> m si = (SErr e, s') -> (i < n)%nat ->
  rep n m s = (SErr e, s').
Proof. exact @rep_first_failure_proof. Qed.
Print Assumptions C14_loop_stops_at_first_failure.

(*    a negative or over-long declared bytes length (within the cap) returns exactly what is left
      of the stream, in one read, without an error. *)
Theorem C14_bytes_returns_what_is_left : forall fc (sub : M value) f2 s v s1 n,
  sub s = (SOk v, s1) -> as_len v = Some n -> n <= MAXB ->
  (n < 0 \/ len (rem s1) <= n) ->
  dec_base fc sub f2 KBytes s = (SOk (VBytes (rem s1)), mkst [] (nrd s1 + 1) (nval s1)).
Proof. exact bytes_returns_what_is_left_proof. Qed.
Print Assumptions C14_bytes_returns_what_is_left.

(* 7. the two messages a server decodes from peers before the handshake is complete
      (ServerClientConnection._recvClientHello / _recvChallengeResponse: Serializable.loadb on the
      payload with the global registry, then one attribute of the result).  Both are `decode`
      followed by a constant amount of work, so theorems 1-6 bound them; what leaves them is:
      hello     — the handshake continues only with a HandshakeClientHelloMessage whose version
                  compares equal; anything else is dropped or raises a documented exception kind
                  (AttributeError for a value of another type);
      challenge — accepted only with an equal token; otherwise a documented kind, or NameError (the
                  failure branch of the receiver names an undefined variable). *)
Theorem C14_hello_total : forall fc pk reg fuel version data,
  match recv_client_hello fc pk reg fuel version data with
  | HsAccept v =>
      exists t der ver base rest,
        v = VObj t [der; ver] /\ reg_find reg t = Some (CClientHello base) /\
        eq_int ver version = SOk true /\ decode fc pk reg fuel data = SOk (v, rest) /\
        (reg_closed reg -> closed reg v)
  | HsIgnore => True
  | HsRaise e => documented e \/ exists x, pk x = Some e
  end.
Proof. exact hello_total_proof. Qed.
Print Assumptions C14_hello_total.

Theorem C14_challenge_total : forall fc pk reg tok fuel expected data,
  match recv_challenge fc pk reg tok fuel expected data with
  | HsAccept v =>
      exists tv rest, token_of tok v = Some tv /\ eq_int tv expected = SOk true /\
                      decode fc pk reg fuel data = SOk (v, rest) /\ (reg_closed reg -> closed reg v)
  | HsIgnore => False
  | HsRaise e => documented e \/ e = SName \/ exists x, pk x = Some e
  end.
Proof. exact challenge_total_proof. Qed.
Print Assumptions C14_challenge_total.

(* "registered types": the decode table only ever holds classes whose class statement succeeded
   (Model/Registry.v, the metaclasses of serializable.py): a refused definition (type id or name already in use)
   leaves the decode table and the name table exactly as they were, so its half-built class can never be the
   result of decoding hostile bytes (the statement is C13_refused_leaves_tables); see also
   C13_registry_bijection *)
Theorem C14_refused_class_not_decodable : forall s o s' t code, Registry.rstep s o = (s', (t, code)) -> code <> 0 ->
  Registry.r_reg s' = Registry.r_reg s /\ Registry.r_names s' = Registry.r_names s.
Proof. exact RegistryP.refused_leaves_tables. Qed.
Print Assumptions C14_refused_class_not_decodable.

Definition fc0 : fconv := {| to32 := fun z => SOk z; of32 := fun z => z |}.
Definition pk0 : value -> option serr := fun _ => None.
Definition reg0 : registry := [(130, CEnum [VInt 1; VInt 2]); (131, CObj [VInt 0; VInt 0])].
Definition B (l : list Z) : list byte := map byte_of_Z l.

Example C14_ex_reg_closed : reg_closed reg0.
Proof.
  intros t defs H. unfold reg0 in H. cbn [reg_find] in H.
  destruct (130 =? t); [discriminate|]. destruct (131 =? t); [|discriminate].
  inversion H. simpl. auto.
Qed.

Example C14_ex_ok :     (* [None, Point(5, default)] followed by a stray byte *)
  decode fc0 pk0 reg0 50 (B [0;16; 0;3;2; 0;15; 0;131; 0;3;1; 0;3;5; 9]) =
  SOk (VList [VNone; VObj 131 [VInt 5; VInt 0]], B [9]).
Proof. vm_compute. reflexivity. Qed.
Example C14_ex_errors :
  decode fc0 pk0 reg0 50 (B [0]) = SErr SHeader /\                         (* short type id *)
  decode fc0 pk0 reg0 50 (B [0;99; 1;2]) = SErr SHeader /\                 (* unknown type id *)
  decode fc0 pk0 reg0 50 (B [0;16; 0;3;2; 0;15]) = SErr SSer /\            (* element missing *)
  decode fc0 pk0 reg0 50 (B [0;5; 1;2]) = SErr (SE EStruct) /\             (* short int32 *)
  decode fc0 pk0 reg0 50 (B [0;16; 0;15]) = SErr (SE EType) /\             (* length None *)
  decode fc0 pk0 reg0 50 (B [0;16; 0;4;64;1]) = SErr (SE EValue) /\        (* length 16385 *)
  decode fc0 pk0 reg0 50 (B [0;13; 0;3;1; 255]) = SErr (SE EUnicode) /\
  decode fc0 pk0 reg0 50 (B [0;131; 0;3;3; 0;15; 0;15; 0;15]) = SErr (SE EIndex) /\
  decode fc0 pk0 reg0 50 (B [0;17; 0;3;1; 0;16;0;3;0; 0;15]) = SErr (SE EType) /\   (* list as key *)
  decode fc0 pk0 reg0 50 (B [0;18; 0;3;2; 0;130;0;3;1; 0;3;1]) = SErr (SE EAttr).  (* {Color(1), 1} *)
Proof. vm_compute. repeat split. Qed.
(* six nested enums need 15 frames; 14 frames raise RecursionError, 15 do not *)
Example C14_ex_recursion :
  decode fc0 pk0 reg0 14 (B [0;130; 0;130; 0;130; 0;130; 0;130; 0;130; 0;3;1]) = SErr (SE ERecursion) /\
  decode fc0 pk0 reg0 15 (B [0;130; 0;130; 0;130; 0;130; 0;130; 0;130; 0;3;1]) =
    SOk (VEnum 130 (VEnum 130 (VEnum 130 (VEnum 130 (VEnum 130 (VEnum 130 (VInt 1)))))), []).
Proof. vm_compute. split; reflexivity. Qed.
(* the counters: a declared length of 16385 is refused after 2 value decodes and 3 reads;
   a bytes value with declared length -1 / 1000 returns what is left in one read *)
Example C14_ex_counters :
  (let '(r, s) := dec_value fc0 pk0 reg0 50 (st0 (B [0;16; 0;4;64;1; 0;15; 0;15])) in (r, nval s, nrd s))
    = (SErr (SE EValue), 2, 3) /\
  (let '(r, s) := dec_value fc0 pk0 reg0 50 (st0 (B [0;14; 0;3;255; 7;8;9])) in (r, nval s, nrd s))
    = (SOk (VBytes (B [7;8;9])), 2, 4) /\
  (let '(r, s) := dec_value fc0 pk0 reg0 50 (st0 (B [0;14; 0;4;3;232; 7;8;9])) in (r, nval s, nrd s))
    = (SOk (VBytes (B [7;8;9])), 2, 4).
Proof. vm_compute. repeat split. Qed.

(* the logging decoder on the same inputs: the log of the over-long bytes value *)
Example C14_ex_log :
  (let '(r, cs) := c_dec_value fc0 pk0 reg0 50 (cst0 (B [0;14; 0;4;3;232; 7;8;9])) in (r, c_log cs))
    = (SOk (VBytes (B [7;8;9])), [(1000, 3); (2, 2); (2, 2); (2, 2)]).
Proof. vm_compute. reflexivity. Qed.
(* handshake receivers: registry with the hello class (id 130) and the challenge class (id 132, token = field 0) *)
Definition reg1 : registry := [(129, CEnum [VInt 1]); (130, CClientHello 13); (132, CObj [VInt 0])].
Definition tok1 (t : Z) : option nat := if t =? 132 then Some 0%nat else None.
Example C14_ex_hello :
  recv_client_hello fc0 pk0 reg1 50 1 (B [0;130; 0;14;0;3;1;65; 0;3;1; 0;0;0;0]) = HsAccept (VObj 130 [VBytes (B [65]); VInt 1]) /\
  recv_client_hello fc0 pk0 reg1 50 1 (B [0;130; 0;14;0;3;1;65; 0;3;2; 0;0;0;0]) = HsIgnore /\
  recv_client_hello fc0 pk0 reg1 50 1 (B [0;130; 0;14;0;3;1;65; 0;3;1; 0;0;0]) = HsRaise (SE EValue) /\        (* padding short *)
  recv_client_hello fc0 pk0 reg1 50 1 (B [0;132; 0;3;1; 0;3;1]) = HsRaise (SE EAttr) /\                        (* another class *)
  recv_client_hello fc0 pk0 reg1 50 1 (B [0;130; 0;14;0;3;1;65; 0;129;0;3;1; 0;0]) = HsRaise (SE EAttr) /\      (* version is an enum *)
  recv_client_hello fc0 pk0 reg1 6 1 (B [0;129; 0;129; 0;129; 0;3;1]) = HsRaise (SE ERecursion).
Proof. vm_compute. repeat split. Qed.
Example C14_ex_challenge :
  recv_challenge fc0 pk0 reg1 tok1 50 77 (B [0;132; 0;3;1; 0;3;77]) = HsAccept (VObj 132 [VInt 77]) /\
  recv_challenge fc0 pk0 reg1 tok1 50 77 (B [0;132; 0;3;1; 0;3;78]) = HsRaise SName /\
  recv_challenge fc0 pk0 reg1 tok1 50 77 (B [0;132; 0;3;1; 0;129;0;3;77]) = HsRaise (SE EAttr) /\
  recv_challenge fc0 pk0 reg1 tok1 50 77 (B [0;132; 0;3;2; 0;3;77; 0;3;77]) = HsRaise (SE EIndex) /\
  recv_challenge fc0 pk0 reg1 tok1 50 77 (B [0;15]) = HsRaise (SE EAttr).
Proof. vm_compute. repeat split. Qed.

(* size: 2 bounds the size of the defaults of reg0's classes; the size of a small value, one per node *)
Example C14_ex_size : reg_defsize_le reg0 2 /\ vsize (VList [VNone; VObj 131 [VInt 5; VInt 0]]) = 5.
Proof.
  split; [|reflexivity]. intros t defs H. unfold reg0 in H. cbn [reg_find] in H.
  destruct (130 =? t); [discriminate|]. destruct (131 =? t); [|discriminate]. inversion H. vm_compute. discriminate.
Qed.

(* the length limits the bounds above rest on, tied to the source text: the guards of the five length-prefixed
   decoders REGENERATED from mpgameserver/serializable.py on every run (tools/py2v_bytes.py, Gen/SerKernels.v) *)
From Gen Require SerKernels.
From Proofs Require SerKernelsP.

(* the statements between `length = deserialize_value(...)` and the first use of length, as written in the source, refuse
   a non-integer with TypeError and a length above MAX_BYTES_LENGTH (str, bytes) / MAX_ARRAY_LENGTH (list, dict, set) with
   ValueError BEFORE anything is read or allocated for it, and that is exactly the guard of the model's dec_len; the two
   limits are the model's 2^20 and 2^14 (C13_kernel_length_guards with the first part of C13_kernel_writers) *)
Theorem C14_kernel_length_limits :
  (SerKernels.gen_ser_MAX_BYTES_LENGTH = MAXB /\ SerKernels.gen_ser_MAX_ARRAY_LENGTH = MAXA) /\
  ((forall b n, SerKernels.gen_deserialize_string_guard b n = SerKernelsP.guard_spec MAXB b n) /\
   (forall b n, SerKernels.gen_deserialize_bytes_guard b n = SerKernelsP.guard_spec MAXB b n) /\
   (forall b n, SerKernels.gen_deserialize_map_guard b n = SerKernelsP.guard_spec MAXA b n) /\
   (forall b n, SerKernels.gen_deserialize_seq_guard b n = SerKernelsP.guard_spec MAXA b n) /\
   (forall b n, SerKernels.gen_deserialize_set_guard b n = SerKernelsP.guard_spec MAXA b n)) /\
  (forall (sub : M value) cap s, dec_len sub cap s = mbind sub (SerKernelsP.guard_M (SerKernelsP.guard_spec cap)) s).
Proof. split; [exact SerKernelsP.gen_limits|]. split; [exact SerKernelsP.gen_guards|exact SerKernelsP.dec_len_is_guard]. Qed.
Print Assumptions C14_kernel_length_limits.
