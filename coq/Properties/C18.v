(* C18 — WebSocket frames round-trip per RFC 6455; TCP segmentation is harmless.
   Model/WsFrame.v: encode_frame = writeFrame (serializeHeader, serializeDataHeader,
   writeData), parse_frame = readFrame over the ring buffer, frame_available = _frameAvailable,
   ws_call = WebSocketTemporaryHandler.__call__, ws_feed = a connection (one ws_call per TCP read).
   rfc_encode is RFC 6455 section 5.2 written down independently (7-bit / 126 + 16-bit / 127 + 64-bit
   length selection, mask bit, 4-byte key, payload xor key[i mod 4]).

   wf_frame_anykey f : fin/rsv/mask are bits, the opcode is one of Text/Binary/Close/Ping/Pong, the
   key has 4 bytes, payload_length = len(payload) < 2^63.  wf_frame f adds the library's default
   "an unmasked frame carries the zero key".  client_frame f : wf_frame f, masked, and a Text payload
   is valid UTF-8 (what a client may send and the endpoint must receive). *)
From Model Require Import Base Utf8 WsFrame WsFactory.
From Proofs Require Import WsFrameP WsStreamP C18P WsFactoryP.
From Coq Require Import Lia.
Import ListNotations.
Open Scope Z_scope.

(* 1. every frame the library builds — any opcode, mask flag, key, flag bits, payload of any
      length below 2^63 — is written exactly as RFC 6455 prescribes *)
Theorem C18_encoding_is_rfc6455 : forall f,
  wf_frame_anykey f -> encode_frame f = Ok (rfc_encode f).
Proof. exact encode_rfc_anykey. Qed.
Print Assumptions C18_encoding_is_rfc6455.

(* 2. frame_roundtrip: what writeFrame wrote, followed by anything, is parsed back by readFrame to the
      same frame (flags, opcode, mask, payload length, unmasked payload; the key too when it is on
      the wire) and exactly the bytes of the frame are consumed *)
Theorem C18_frame_roundtrip : forall f rest,
  wf_frame_anykey f ->
  match encode_frame f with
  | Ok bytes => parse_frame (bytes ++ rest) = (Ok (canon_key f), rest)
  | Err _ => False
  end.
Proof. intros f rest H. rewrite (encode_rfc_anykey f H). apply parse_encode_anykey, H. Qed.
Print Assumptions C18_frame_roundtrip.

Theorem C18_frame_roundtrip_exact : forall f rest,
  wf_frame f ->
  match encode_frame f with
  | Ok bytes => parse_frame (bytes ++ rest) = (Ok f, rest)
  | Err _ => False
  end.
Proof. intros f rest H. rewrite (encode_rfc f H). apply parse_encode, H. Qed.
Print Assumptions C18_frame_roundtrip_exact.

(* 3. prefix-freeness: the handler sees a complete frame as complete whatever follows it, and
      any strict prefix of a frame as incomplete: it delivers nothing, raises nothing and keeps
      the bytes *)
Theorem C18_complete_frame_available : forall f rest,
  wf_frame f -> frame_available (rfc_encode f ++ rest) = true.
Proof. intros f rest H. apply available_encode, wf_frame_anykey_of, H. Qed.
Print Assumptions C18_complete_frame_available.

Theorem C18_incomplete_frame_waits : forall f p q,
  wf_frame f -> rfc_encode f = p ++ q -> q <> [] ->
  frame_available p = false /\
  forall st, w_buf st = [] ->
    ws_call st p = ({| w_buf := p; w_closed := w_closed st |},
                    {| o_delivered := []; o_written := []; o_error := None |}).
Proof.
  intros f p q Hwf E Hq. pose proof (incomplete_prefix f p q (wf_frame_anykey_of f Hwf) E Hq) as Hp.
  split; [exact Hp|]. intros st Hb. rewrite ws_call_idle; unfold more; rewrite Hb; [reflexivity | exact Hp].
Qed.
Print Assumptions C18_incomplete_frame_waits.

(* 4. stream_any_chunking: for ANY sequence of client frames and ANY way of cutting their
      concatenated encodings into TCP reads (frames split anywhere, several frames per read, empty
      reads), the endpoint callback receives exactly the frames — each once, in order, with its opcode
      and unmasked payload — no exception escapes, nothing is left in the buffer, and the Close
      reply is written exactly once iff a Close frame arrived on a handler not yet closed *)
Theorem C18_stream_any_chunking : forall frames chunks closed,
  Forall client_frame frames ->
  concat chunks = enc_stream frames ->
  ws_feed {| w_buf := []; w_closed := closed |} chunks =
  ({| w_buf := []; w_closed := closed || existsb is_close frames |},
   {| o_delivered := map delivery frames;
      o_written := if negb closed && existsb is_close frames then close_bytes else [];
      o_error := None |}).
Proof.
  intros fs chunks c HF E. apply (feed_frames chunks fs [] [] c HF); [reflexivity..|].
  rewrite app_nil_r. exact E.
Qed.
Print Assumptions C18_stream_any_chunking.

(* 5. delivery is prompt: at any moment — the reads so far hold some whole frames followed by the
      beginning of the next one — exactly the whole frames have been delivered and exactly the
      beginning of the next one is buffered *)
Theorem C18_stream_prompt : forall frames tail chunks closed,
  Forall client_frame frames -> partial_frame tail ->
  concat chunks = enc_stream frames ++ tail ->
  ws_feed {| w_buf := []; w_closed := closed |} chunks =
  ({| w_buf := tail; w_closed := closed || existsb is_close frames |},
   {| o_delivered := map delivery frames;
      o_written := if negb closed && existsb is_close frames then close_bytes else [];
      o_error := None |}).
Proof.
  intros fs t chunks c HF Ht E. apply (feed_frames chunks fs [] t c HF); [reflexivity | | exact E].
  apply partial_unavailable, Ht.
Qed.
Print Assumptions C18_stream_prompt.

(* 6. composition of 1 and 4: frames written by the library's own writeFrame (a peer using this
      library) and cut arbitrarily are delivered exactly *)
Theorem C18_stream_written_by_library : forall frames encs chunks closed,
  Forall client_frame frames ->
  Forall2 (fun f b => encode_frame f = Ok b) frames encs ->
  concat chunks = concat encs ->
  let '(st, out) := ws_feed {| w_buf := []; w_closed := closed |} chunks in
  o_delivered out = map delivery frames /\ o_error out = None /\ w_buf st = [].
Proof.
  intros fs encs chunks c HF HE E. rewrite (encs_are_rfc fs encs (client_frames_wf fs HF) HE) in E.
  rewrite (C18_stream_any_chunking fs chunks c HF E). cbn. auto.
Qed.
Print Assumptions C18_stream_written_by_library.

(* 7. ARBITRARY bytes (well-formed or not, e.g. unmasked frames, unknown opcodes, bad UTF-8, garbage):
      cutting the stream into reads changes nothing — the deliveries, the bytes written and the
      exception (if any) are those of a single read of the whole stream, and without an exception
      the final buffer and closed flag are the same too *)
Theorem C18_chunking_irrelevant : forall chunks closed,
  let '(s1, o1) := ws_feed {| w_buf := []; w_closed := closed |} chunks in
  let '(s2, o2) := ws_call {| w_buf := []; w_closed := closed |} (concat chunks) in
  o1 = o2 /\ (o_error o1 = None -> s1 = s2).
Proof. intros chunks c. apply chunking_irrelevant. reflexivity. Qed.
Print Assumptions C18_chunking_irrelevant.

(* 8. readFrame is local: on ANY buffer that _frameAvailable accepts, the parsed frame (or the
      exception) does not depend on the bytes behind it and these bytes are left untouched *)
Theorem C18_parser_is_local : forall buf more,
  frame_available buf = true ->
  parse_frame (buf ++ more) = (fst (parse_frame buf), snd (parse_frame buf) ++ more).
Proof. exact parse_local. Qed.
Print Assumptions C18_parser_is_local.

(* 9. model sanity: the fuel that makes the while loop structurally recursive is never exhausted
      (the loop of the real handler terminates on every input: each iteration consumes >= 2 bytes) *)
Theorem C18_fuel_never_exhausted : forall chunks st,
  o_error (snd (ws_feed st chunks)) <> Some ERecursion.
Proof. exact ws_feed_no_recursion. Qed.
Print Assumptions C18_fuel_never_exhausted.

(* 10. the PUBLIC CONSTRUCTORS (Model/WsFactory.v: WebSocketFrame.Ping / Pong / Binary / Close / Text, any
       argument): whatever they return is a well-formed final unmasked frame whose length field is the
       number of payload BYTES, so it is written exactly as RFC 6455 prescribes and parses back to itself *)
Theorem C18_factories_wellformed : forall f,
  built_by_factory f -> len (f_payload f) < 2 ^ 63 ->
  wf_frame f /\ f_fin f = 1 /\ f_mask f = 0 /\ f_plen f = len (f_payload f).
Proof.
  intros f Hb Hl. split; [exact (built_wf f Hb Hl)|].
  destruct (built_is_factory_frame f Hb) as (op & p & _ & ->). auto.
Qed.
Print Assumptions C18_factories_wellformed.

Theorem C18_factories_roundtrip : forall f rest,
  built_by_factory f -> len (f_payload f) < 2 ^ 63 ->
  encode_frame f = Ok (rfc_encode f) /\ parse_frame (rfc_encode f ++ rest) = (Ok f, rest).
Proof.
  intros f rest Hb Hl. pose proof (built_wf f Hb Hl) as Hwf.
  split; [apply encode_rfc | apply parse_encode]; exact Hwf.
Qed.
Print Assumptions C18_factories_roundtrip.

(* 11. Text(s) exists for every str without lone surrogates; its payload is the UTF-8 encoding of s (it
       decodes back to s) and payload_length counts bytes, not characters; handler.send(s) puts exactly
       the RFC encoding of that frame on the wire *)
Theorem C18_text_factory : forall s,
  Forall (fun c => cp_ok c = true /\ is_surrogate c = false) s ->
  exists f, ws_text s = Ok f /\ f_opcode f = OpText /\ utf8_decode (f_payload f) = Some s /\
            f_plen f = len (f_payload f).
Proof.
  intros s H. destruct (ws_text_total s H) as [f E]. exists f. split; [exact E | exact (ws_text_spec s f E)].
Qed.
Print Assumptions C18_text_factory.

Theorem C18_send_is_rfc : forall s b, ws_send s = Ok b ->
  exists f, ws_text s = Ok f /\ (len (f_payload f) < 2 ^ 63 -> b = rfc_encode f).
Proof.
  intros s b H. destruct (ws_send_inv s b H) as (f & E & He). exists f. split; [exact E|]. intro Hl.
  rewrite encode_rfc in He by (apply built_wf; [do 4 right; eauto | exact Hl]). congruence.
Qed.
Print Assumptions C18_send_is_rfc.

(* non-vacuity *)
Definition mkf (op : opcode) (mask : Z) (key payload : list byte) : frame :=
  {| f_fin := 1; f_rsv1 := 0; f_rsv2 := 0; f_rsv3 := 0; f_opcode := op; f_mask := mask; f_key := key;
     f_plen := len payload; f_payload := payload |}.
Definition zeros (n : Z) : list byte := repeat x00 (Z.to_nat n).
Definition key1 : list byte := [byte_of_Z 1; byte_of_Z 2; byte_of_Z 3; byte_of_Z 4].
Definition hdr (n : nat) (r : res (list byte)) : list Z :=
  match r with Ok b => map Z_of_byte (firstn n b) | Err _ => [] end.

(* the length boundaries of the property: 125 / 126 / 127 / 65535 / 65536.  Defect D13: the pinned
   commit re-read a payload length of 127 as the marker of a 64-bit length, wrote 65535 as 64 bits
   under the 16-bit marker, and sent the payload of a masked frame unmasked (last line); the code as
   repaired does what is stated here *)
Example C18_boundary_headers :
  hdr 2 (encode_frame (mkf OpBinary 0 zero_key (zeros 125))) = [130; 125] /\
  hdr 4 (encode_frame (mkf OpBinary 0 zero_key (zeros 126))) = [130; 126; 0; 126] /\
  hdr 4 (encode_frame (mkf OpBinary 0 zero_key (zeros 127))) = [130; 126; 0; 127] /\
  hdr 4 (encode_frame (mkf OpBinary 0 zero_key (zeros 65535))) = [130; 126; 255; 255] /\
  hdr 10 (encode_frame (mkf OpBinary 0 zero_key (zeros 65536))) = [130; 127; 0; 0; 0; 0; 0; 1; 0; 0] /\
  hdr 9 (encode_frame (mkf OpText 1 key1 (zeros 3))) = [129; 131; 1; 2; 3; 4; 1; 2; 3].
Proof.
  (* the header is computed with the payload left symbolic *)
  assert (E : forall n, 0 <= n < 2 ^ 63 -> encode_frame (mkf OpBinary 0 zero_key (zeros n))
              = Ok ([byte_of_Z 130; byte_of_Z (length_code n)] ++ ext_of n ++ zeros n)).
  { intros n Hn. assert (Hl : len (zeros n) = n) by (apply BytesP.len_repeat; lia).
    rewrite encode_rfc by (apply wf_final; [discriminate | left | | | lia]; reflexivity).
    rewrite rfc_encode_eq. cbn [mkf f_payload]. rewrite Hl. reflexivity. }
  rewrite !E by lia. unfold hdr.
  repeat apply conj; [generalize (zeros 125) | generalize (zeros 126) | generalize (zeros 127) | generalize (zeros 65535)
                 | generalize (zeros 65536) | ]; intros; vm_compute; reflexivity.
Qed.

Example C18_boundary_roundtrips :
  forallb (fun n => match encode_frame (mkf OpBinary 1 key1 (zeros n)) with
                    | Ok b => match parse_frame (b ++ [x00]) with
                              | (Ok f, [_]) => (f_plen f =? n) && (len (f_payload f) =? n) && (f_mask f =? 1)
                              | _ => false
                              end
                    | Err _ => false
                    end) [0; 125; 126; 127; 128; 65535; 65536; 70000] = true.
Proof.
  apply forallb_forall. intros n Hin. assert (Hn : 0 <= n < 2 ^ 63) by (cbn [In] in Hin; lia). clear Hin.
  assert (Hl : len (zeros n) = n) by (apply BytesP.len_repeat; lia).
  assert (Hwf : wf_frame (mkf OpBinary 1 key1 (zeros n)))
    by (apply wf_final; [discriminate | right; reflexivity | reflexivity | discriminate | lia]).
  rewrite (encode_rfc _ Hwf), (parse_encode _ [x00] Hwf). cbn [mkf f_plen f_payload f_mask].
  rewrite Hl, Z.eqb_refl. reflexivity.
Qed.

(* the hypotheses are satisfiable: two masked client frames (Text "hi", Close) *)
Definition f_hi : frame := mkf OpText 1 key1 [byte_of_Z 104; byte_of_Z 105].
Definition f_bye : frame := mkf OpClose 1 key1 [].
Example C18_client_frames_exist : Forall client_frame [f_hi; f_bye].
Proof.
  assert (H : forall op p, op <> OpOpen -> (op = OpText -> utf8_valid p = true) -> len p < 2 ^ 63 ->
                           client_frame (mkf op 1 key1 p)).
  { intros op p Hop Hu Hl. split; [|split; [reflexivity | exact Hu]].
    apply wf_final; [exact Hop | right; reflexivity | reflexivity | discriminate | exact Hl]. }
  constructor; [|constructor; [|constructor]]; apply H; solve [discriminate | reflexivity].
Qed.

(* the stream of the two frames (8 + 6 bytes) cut inside the first header, inside the key of the
   first frame and inside the second frame: delivered once, in order, Close answered *)
Example C18_three_cuts :
  let s := enc_stream [f_hi; f_bye] in
  ws_feed {| w_buf := []; w_closed := false |} [firstn 1 s; firstn 3 (skipn 1 s); firstn 7 (skipn 4 s); skipn 11 s] =
  ({| w_buf := []; w_closed := true |},
   {| o_delivered := [(OpText, [byte_of_Z 104; byte_of_Z 105]); (OpClose, [])];
      o_written := close_bytes; o_error := None |}).
Proof. vm_compute. reflexivity. Qed.

(* a strict prefix is a partial frame *)
Example C18_partial_exists : partial_frame (firstn 5 (rfc_encode f_hi)).
Proof.
  right. exists f_hi, (skipn 5 (rfc_encode f_hi)).
  split; [exact (proj1 (Forall_inv C18_client_frames_exist))|].
  split; [vm_compute; discriminate | symmetry; apply firstn_skipn].
Qed.

(* a malformed stream (Binary "a" masked, then an unmasked Text frame, then more): same outcome
   whether it arrives in one read or byte by byte — one delivery, then the "mask bit" exception *)
Example C18_malformed_same_outcome :
  let s := rfc_encode (mkf OpBinary 1 key1 [byte_of_Z 97]) ++ rfc_encode (mkf OpText 0 zero_key [byte_of_Z 98]) ++ rfc_encode f_hi in
  snd (ws_feed {| w_buf := []; w_closed := false |} (map (fun b => [b]) s)) =
    {| o_delivered := [(OpBinary, [byte_of_Z 97])]; o_written := []; o_error := Some EOther |} /\
  snd (ws_call {| w_buf := []; w_closed := false |} s) =
    {| o_delivered := [(OpBinary, [byte_of_Z 97])]; o_written := []; o_error := Some EOther |}.
Proof. vm_compute. split; reflexivity. Qed.

(* the factories: 42 euro signs are 126 BYTES (16-bit length form, not the 7-bit form with 42);
   Close() is Close(200, b"OK") *)
Example C18_text_counts_bytes :
  match ws_text (repeat 0x20AC 42) with
  | Ok f => f_plen f = 126 /\ hdr 4 (encode_frame f) = [129; 126; 0; 126]
  | Err _ => False
  end.
Proof. vm_compute. split; reflexivity. Qed.
Example C18_close_default : ws_close 200 [byte_of_Z 79; byte_of_Z 75] = Ok close_frame.
Proof. vm_compute. reflexivity. Qed.

(* kernels: tools/py2v_bytes.py translates the source text of the three header functions of
   mpgameserver/http_server.py at every build (Gen/WsKernels.v); the translation is the hand-written model *)
From Model Require StructPack.
From Gen Require WsKernels.
From Proofs Require WsKernelsP.

(* WebSocketFrame.serializeHeader as written in the source = WsFrame.serialize_header, for every frame record
   (any flag values, any payload_length: the struct.error cases included) *)
Theorem C18_kernel_header : forall f,
  WsKernels.gen_ws_serializeHeader (f_fin f) (f_rsv1 f) (f_rsv2 f) (f_rsv3 f) (opcode_val (f_opcode f))
                                   (f_mask f) (f_plen f)
  = serialize_header f.
Proof. exact WsKernelsP.gen_ws_serializeHeader_spec. Qed.
Print Assumptions C18_kernel_header.

(* WebSocketFrame.serializeDataHeader as written in the source = WsFrame.serialize_data_header *)
Theorem C18_kernel_data_header : forall f,
  WsKernels.gen_ws_serializeDataHeader (f_mask f) (f_plen f) (f_key f) = serialize_data_header f.
Proof. exact WsKernelsP.gen_ws_serializeDataHeader_spec. Qed.
Print Assumptions C18_kernel_data_header.

(* WebSocketFrame.parseHeader as written in the source: the flag fields of every frame parse_frame returns
   are the kernel's, computed from the first two bytes *)
Theorem C18_kernel_parse_header : forall b0 b1 rest f buf',
  parse_frame (b0 :: b1 :: rest) = (Ok f, buf') ->
  WsKernels.gen_ws_parseHeader (Z_of_byte b0) (Z_of_byte b1)
  = (f_fin f, f_rsv1 f, f_rsv2 f, f_rsv3 f, opcode_val (f_opcode f), f_mask f, Z.land (Z_of_byte b1) 127).
Proof. exact WsKernelsP.gen_ws_parseHeader_spec. Qed.
Print Assumptions C18_kernel_parse_header.

Example C18_kernel_header_example :
  WsKernels.gen_ws_serializeHeader 1 0 0 0 2 1 70000 = Ok [byte_of_Z 130; byte_of_Z 255] /\
  WsKernels.gen_ws_serializeDataHeader 0 126 [] = Ok [x00; byte_of_Z 126] /\
  WsKernels.gen_ws_parseHeader 130 255 = (1, 0, 0, 0, 2, 1, 127).
Proof. vm_compute. repeat split. Qed.
