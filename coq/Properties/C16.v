(* C16 — the HTTP router matches paths exactly as the documented pattern grammar says.
   Strings are lists of code points.  Vocabulary (Model/Router.v):
     pattern_to_regex   the regular expression SOURCE TEXT and the tokens built by Router.patternToRegex
     ast_of_pieces      the syntax tree of that text; pr_regex prints it
     re_groups          re.compile(text).match(path).groups() : backtracking matcher on the syntax tree
     route_match        pattern against path through the regular expression, as getRoute does (names zipped with groups)
     spec_path / spec_route_match / spec_get_route   the documented rule on the path's segments
     wf_pat             ?, * and + parameters only on the last segment (the documented grammar)
     no_nl              the path holds no newline (an HTTP request line cannot) *)
From Model Require Import Base PathJoin Router.
From Proofs Require Import RouterP.
Open Scope Z_scope.

(* 1. the text handed to re.compile is the printed syntax tree, the tokens are the parameter
      names in order; the only failure is ValueError, exactly when there are two or more
      ?/*/+ parameters *)
Theorem C16_regex_text : forall pat,
  pattern_to_regex pat =
  if (nwild (parse_pattern pat) <=? 1)%nat
  then Ok (pr_regex (ast_of_pieces (parse_pattern pat)), names (parse_pattern pat))
  else Err EValue.
Proof. exact pattern_to_regex_spec. Qed.
Print Assumptions C16_regex_text.

Theorem C16_compile_error : forall pat,
  (compile_route pat = Err EValue <-> (2 <= nwild (parse_pattern pat))%nat) /\
  ((exists r, compile_route pat = Ok r) \/ compile_route pat = Err EValue).
Proof. intro pat. split; [apply compile_route_error | apply compile_route_total]. Qed.
Print Assumptions C16_compile_error.

(* 2. for every pattern of the documented grammar and every newline-free path, of any length:
      the regular expression matches exactly when the documented rule does, and m.groups()
      are exactly the values the rule binds (None for an absent optional parameter) *)
Theorem C16_groups_spec : forall pat path,
  wf_pat pat = true -> no_nl path ->
  re_groups (ast_of_pieces (parse_pattern pat)) path = spec_path (parse_pattern pat) path.
Proof. intros pat path Hwf. apply re_groups_spec; [exact Hwf | apply parse_pattern_ok]. Qed.
Print Assumptions C16_groups_spec.

Theorem C16_match_spec : forall pat path,
  wf_pat pat = true -> no_nl path ->
  route_match pat path = spec_route_match pat path.
Proof. exact route_match_spec. Qed.
Print Assumptions C16_match_spec.

(* ... and the documented rule itself, as inference rules over (pieces, segments, values):
      [spec] computes exactly the relation [matches] of Model/Router.v *)
Theorem C16_spec_rules : forall ps segs vals,
  wf_pieces ps = true -> (spec ps segs = Some vals <-> matches ps segs vals).
Proof. intros ps segs vals H. split; [apply spec_matches, H | apply matches_spec]. Qed.
Print Assumptions C16_spec_rules.

(* 3. registerRoutes on a fresh router succeeds for routes of the documented grammar with
      supported methods, and getRoute then answers: the first route in registration order
      whose method is the request's and whose pattern matches by the documented rule, with
      the bindings as a dict; for every list of routes, method and path *)
Theorem C16_first_match : forall rs m path,
  (forall r, In r rs -> wf_pat (r_pattern r) = true /\ supported_method (r_method r) = true) ->
  no_nl path ->
  exists t, register_routes empty_table rs = (t, Ok tt) /\
            get_route t m path = spec_get_route rs m path.
Proof. exact get_route_spec. Qed.
Print Assumptions C16_first_match.

(* ... where "first" reads: every earlier route of that method does not match *)
Theorem C16_first_match_wins : forall rs m path id d,
  spec_get_route rs m path = Some (id, d) <->
  exists rs1 r rs2 kvs,
    rs = rs1 ++ r :: rs2 /\ r_id r = id /\ r_method r = m /\
    spec_route_match (r_pattern r) path = Some kvs /\ d = mkdict kvs /\
    forall r', In r' rs1 -> r_method r' = m -> spec_route_match (r_pattern r') path = None.
Proof. exact spec_get_route_first. Qed.
Print Assumptions C16_first_match_wins.

(* 4. dispatch: 404 exactly when the client is not rate limited and no route of the request's
      method matches; 429 exactly when limited; otherwise the route getRoute chose *)
Theorem C16_notfound_404 : forall rs limited m path,
  (forall r, In r rs -> wf_pat (r_pattern r) = true /\ supported_method (r_method r) = true) ->
  no_nl path ->
  exists t, register_routes empty_table rs = (t, Ok tt) /\
    (router_dispatch t limited m path = D404 <->
       limited = false /\
       forall r, In r rs -> r_method r = m -> spec_route_match (r_pattern r) path = None) /\
    (router_dispatch t limited m path = D429 <-> limited = true) /\
    (forall id d, router_dispatch t limited m path = DRoute id d <->
       limited = false /\ spec_get_route rs m path = Some (id, d)).
Proof.
  intros rs limited m path Hrs Hnl.
  destruct (dispatch_spec rs limited m path Hrs Hnl) as [t [Hreg Hd]].
  exists t. split; [exact Hreg|]. rewrite Hd, <- spec_get_route_none.
  destruct limited, (spec_get_route rs m path) as [[id d]|]; intuition congruence.
Qed.
Print Assumptions C16_notfound_404.

(* non-vacuity and the D11 witnesses *)
Definition p_abc_rest : str := [47;97;98;99;47;58;114;101;115;116;43].   (* /abc/:rest+ *)
Definition p_a_dot_c : str := [47;97;46;99].   (* /a.c *)
Definition p_abc_x_r : str := [47;97;98;99;47;58;120;47;58;114;43].   (* /abc/:x/:r+ *)
Definition p_abc_x : str := [47;97;98;99;47;58;120].   (* /abc/:x *)
Definition p_abc_abc : str := [47;97;98;99;47;97;98;99].   (* /abc/abc *)
Definition p_abc_opt : str := [47;97;98;99;47;58;121;63].   (* /abc/:y? *)
Definition p_star_mid : str := [47;58;97;42;47;98].   (* /:a*/b *)
Definition s_rest : str := [114;101;115;116].   (* rest *)

Example C16_text_example :
  pattern_to_regex p_abc_x_r = Ok ([94;92;47;97;98;99;92;47;40;91;94;92;47;93;43;41;92;47;40;46;43;41;92;47;63;36], [[120]; [114]]).   (* ^\/abc\/([^\/]+)\/(.+)\/?$ *)
Proof. vm_compute. reflexivity. Qed.

(* defect D11: the pinned commit matched '/abc/:rest+' against '/abcdef' and '/a.c' against '/aXc'; the
   code as repaired refuses both; and what the two patterns accept *)
Example C16_d11_witnesses :
  wf_pat p_abc_rest = true /\ wf_pat p_a_dot_c = true /\
  route_match p_abc_rest [47;97;98;99;100;101;102] = None /\
  route_match p_abc_rest [47;97;98;99;47;100;47;101] = Some [(s_rest, Some [100;47;101])] /\
  route_match p_abc_rest [47;97;98;99;47] = None /\
  route_match p_a_dot_c [47;97;88;99] = None /\
  route_match p_a_dot_c [47;97;46;99;47] = Some [].
Proof. vm_compute. repeat split. Qed.

(* the optional parameter: absent, present, present with the tolerated slash, too many segments *)
Example C16_optional_example :
  route_match p_abc_opt [47;97;98;99] = Some [([121], None)] /\
  route_match p_abc_opt [47;97;98;99;47;118] = Some [([121], Some [118])] /\
  route_match p_abc_opt [47;97;98;99;47;118;47] = Some [([121], Some [118])] /\
  route_match p_abc_opt [47;97;98;99;47;118;47;119] = None.
Proof. vm_compute. repeat split. Qed.

(* first registered route wins, method respected, 404 otherwise *)
Example C16_table_example :
  let rs := [ {| r_method := M_GET; r_pattern := p_abc_x; r_id := 1 |};
              {| r_method := M_GET; r_pattern := p_abc_abc; r_id := 2 |};
              {| r_method := M_POST; r_pattern := p_abc_abc; r_id := 3 |} ] in
  let t := fst (register_routes empty_table rs) in
  get_route t M_GET [47;97;98;99;47;97;98;99] = Some (1, [([120], Some [97;98;99])]) /\
  get_route t M_POST [47;97;98;99;47;97;98;99] = Some (3, []) /\
  router_dispatch t false M_PUT [47;97;98;99;47;97;98;99] = D404 /\
  router_dispatch t false M_GET [47;97;98;99;100;101;102] = D404 /\
  router_dispatch t true M_GET [47;97;98;99;47;97;98;99] = D429.
Proof. vm_compute. repeat split. Qed.

(* both premises are needed: '$' accepts a final newline, which the rule does not; and a
   wildcard in the middle (outside the documented grammar) backtracks in ways the rule
   does not describe *)
Example C16_premises_needed :
  route_match [47;97;98;99] [47;97;98;99;10] = Some [] /\ spec_route_match [47;97;98;99] [47;97;98;99;10] = None /\
  wf_pat p_star_mid = false /\
  route_match p_star_mid [47;120;47;98] <> spec_route_match p_star_mid [47;120;47;98].
Proof. vm_compute. repeat split. discriminate. Qed.
