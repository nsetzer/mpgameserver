(* RegistryP.v — the class registry stays a bijection between type ids and classes. *)
From Coq Require Import ZArith List Lia.
From Model Require Import Registry.
From Proofs Require Import ListP.
Import ListNotations.
Open Scope Z_scope.

Lemma rget_rset {A} k k' (v : A) d : rget k' (rset k v d) = if k' =? k then Some v else rget k' d.
Proof.
  induction d as [|[k0 v0] r IH]; cbn; [reflexivity|].
  destruct (Z.eqb_spec k k0) as [->|N]; cbn.
  - destruct (k' =? k0); reflexivity.
  - rewrite IH. destruct (Z.eqb_spec k' k0), (Z.eqb_spec k' k); try reflexivity. lia.
Qed.

Lemma rset_new {A} k (v : A) d : rget k d = None -> rset k v d = d ++ [(k, v)].
Proof.
  induction d as [|[k0 v0] r IH]; cbn; intros H; [reflexivity|].
  destruct (k =? k0); [discriminate|]. rewrite (IH H). reflexivity.
Qed.

Lemma rget_None_notin {A} k (d : list (Z * A)) : rget k d = None -> ~ In k (map fst d).
Proof.
  induction d as [|[k0 v0] r IH]; cbn; intros H; [tauto|].
  destruct (Z.eqb_spec k k0) as [|N]; [discriminate|]. intros [E|Hin]; [congruence|exact (IH H Hin)].
Qed.

Lemma rget_In {A} k (v : A) d : rget k d = Some v -> In (k, v) d.
Proof.
  induction d as [|[k0 v0] r IH]; cbn; intros H; [discriminate|].
  destruct (Z.eqb_spec k k0) as [->|_]; [injection H as ->; left; reflexivity|right; exact (IH H)].
Qed.

Lemma In_rget {A} k (v : A) d : NoDup (map fst d) -> In (k, v) d -> rget k d = Some v.
Proof.
  induction d as [|[k0 v0] r IH]; cbn; intros ND H; [destruct H|].
  inversion ND as [|? ? Hni ND']; subst. destruct H as [H|H].
  - injection H as -> ->. rewrite Z.eqb_refl. reflexivity.
  - destruct (Z.eqb_spec k k0) as [->|_]; [contradict Hni; exact (in_map fst _ _ H)|exact (IH ND' H)].
Qed.

Lemma rmem_false {A} k (d : list (Z * A)) : rmem k d = false -> rget k d = None.
Proof. unfold rmem. destruct (rget k d); [discriminate|reflexivity]. Qed.

(* the decode table (registry) is a bijection between the ids in use and the classes registered;
   classes are numbered below r_defs *)
Record WF (s : reg) : Prop := {
  wf_ids : NoDup (map fst (r_reg s));
  wf_cls : NoDup (map snd (r_reg s));
  wf_old : forall c, In c (map snd (r_reg s)) -> c < r_defs s }.

Lemma WF_reg0 : WF reg0.
Proof. constructor; cbn; try constructor; tauto. Qed.

Lemma WF_tables s s' : r_reg s' = r_reg s -> r_defs s <= r_defs s' -> WF s -> WF s'.
Proof.
  intros R D [I C O]. constructor; rewrite ?R; auto. intros c H. apply O in H. lia.
Qed.

Lemma WF_add s s' t :
  WF s -> rget t (r_reg s) = None -> r_reg s' = rset t (r_defs s) (r_reg s) -> r_defs s' = r_defs s + 1 ->
  WF s'.
Proof.
  intros [I C O] Ht R D.
  assert (Hc : ~ In (r_defs s) (map snd (r_reg s))) by (intros H; apply O in H; lia).
  constructor; rewrite R, (rset_new _ _ _ Ht), map_app; cbn [map fst snd].
  - apply NoDup_snoc; [exact I|apply rget_None_notin; exact Ht].
  - apply NoDup_snoc; assumption.
  - rewrite D. intros c Hin. apply in_app_or in Hin as [H|[<-|[]]]; [apply O in H; lia|lia].
Qed.

Lemma draw_tables m s t s1 : draw m s = (t, s1) -> r_reg s1 = r_reg s /\ r_names s1 = r_names s.
Proof. unfold draw. destruct (rget m (r_custom s)); intros [= _ <-]; cbn; auto. Qed.

(* what one class statement / setRootId call does to the tables: a setRootId call and a refused
   class statement leave both as they are; a successful class statement puts one new entry (fresh
   id, the new class) at the end of the decode table; entries are never removed or replaced *)
Lemma rstep_inv s o s' t code : rstep s o = (s', (t, code)) ->
  r_defs s <= r_defs s' /\
  ((r_reg s' = r_reg s /\ r_names s' = r_names s /\ (code = 0 -> exists m b, o = RSetRoot m b)) \/
   (code = 0 /\ rget t (r_reg s) = None /\ r_reg s' = rset t (r_defs s) (r_reg s) /\ r_defs s' = r_defs s + 1)).
Proof.
  destruct o as [m b|m n|m n]; cbn [rstep].
  - intros [= <- <- <-]; cbn. split; [lia | left; eauto].
  - (* a Serializable is refused when its id or its name is taken *)
    destruct (draw m s) as [t0 s1] eqn:E; apply draw_tables in E as [-> ->].
    destruct (rmem t0 (r_reg s)) eqn:E1; [|destruct (rmem n (r_names s))];
      intros [= <- <- <-]; cbn; (split; [lia|]).
    + left; easy.
    + left; easy.
    + right; repeat split; apply rmem_false; exact E1.
  - (* a SerializableEnum when its id is taken; its name is not looked up *)
    destruct (draw m s) as [t0 s1] eqn:E; apply draw_tables in E as [-> ->].
    destruct (rmem t0 (r_reg s)) eqn:E1; intros [= <- <- <-]; cbn; (split; [lia|]).
    + left; easy.
    + right; repeat split; apply rmem_false; exact E1.
Qed.

Lemma rstep_WF s o : WF s -> WF (fst (rstep s o)).
Proof.
  intros H. destruct (rstep s o) as [s' [t code]] eqn:E. cbn [fst].
  destruct (rstep_inv _ _ _ _ _ E) as [D [(R & _)|(_ & Ht & R & D')]]; [eapply WF_tables|eapply WF_add]; eassumption.
Qed.

Lemma rrun_inv (P : reg -> Prop) :
  (forall s o, P s -> P (fst (rstep s o))) -> forall ops s, P s -> P (fst (rrun s ops)).
Proof.
  intros St. induction ops as [|o r IH]; intros s H; [exact H|].
  cbn [rrun]. specialize (St s o H). destruct (rstep s o) as [s1 x].
  specialize (IH s1 St). destruct (rrun s1 r) as [s2 xs]. exact IH.
Qed.

Theorem rrun_WF ops : forall s, WF s -> WF (fst (rrun s ops)).
Proof. exact (rrun_inv WF rstep_WF ops). Qed.

Theorem refused_leaves_tables s o s' t code :
  rstep s o = (s', (t, code)) -> code <> 0 -> r_reg s' = r_reg s /\ r_names s' = r_names s.
Proof.
  intros E Hc. destruct (rstep_inv _ _ _ _ _ E) as [_ [(R & N & _)|(C & _)]]; [auto|contradiction].
Qed.

Theorem registered_stays ops : forall s t c, In (t, c) (r_reg s) -> In (t, c) (r_reg (fst (rrun s ops))).
Proof.
  intros s t c. revert s. apply (rrun_inv (fun s => In (t, c) (r_reg s))).
  intros s o H. destruct (rstep s o) as [s' [t1 code]] eqn:E. cbn [fst].
  destruct (rstep_inv _ _ _ _ _ E) as [_ [(R & _)|(_ & Ht & R & _)]]; rewrite R; [exact H|].
  rewrite (rset_new _ _ _ Ht). apply in_or_app. left. exact H.
Qed.

Theorem WF_lookup s t c : WF s -> In (t, c) (r_reg s) -> rget t (r_reg s) = Some c /\
  forall t', In (t', c) (r_reg s) -> t' = t.
Proof.
  intros [I C _] H. split; [apply In_rget; assumption|].
  intros t' H'. exact (NoDup_snd_inj _ _ _ _ C H H').
Qed.

Theorem defined_is_registered s o s' t : rstep s o = (s', (t, 0)) ->
  match o with RSetRoot _ _ => True | _ => rget t (r_reg s') = Some (r_defs s) end.
Proof.
  intros E. destruct (rstep_inv _ _ _ _ _ E) as [_ [(_ & _ & S)|(_ & _ & -> & _)]].
  - destruct (S eq_refl) as (m & b & ->). exact I.
  - rewrite rget_rset, Z.eqb_refl. destruct o; [exact I|reflexivity..].
Qed.

(* overlapping setRootId ranges: the second class is refused whether it is a Serializable or an
   enum (at the pinned commit the enum silently took the id over, defect D21; the code as repaired
   refuses it) *)
Example id_in_use_refused :
  snd (rrun reg0 [RSetRoot 1 128; RDefSer 0 10; RDefEnum 1 11; RDefSer 1 12; RDefEnum 1 10]) =
  [(0, 0); (128, 0); (128, 1); (129, 0); (130, 0)].
Proof. reflexivity. Qed.
