(* The frame records same_core / same_sess, no_emit and cb_only, with one lemma per part, each an instance
   of ConnSpecP's masks; a walker through a sweep (sweep_walk) for a client that needs the snapshot or
   resolve whole; resolving sent datagrams as a star of atoms; then what a step does, as data: the atoms
   of a step, the datagram and the tail of update() as units, step_shape and its corollaries (step_acts,
   step_packet) -- an invariant is one case per atom; run_inv lifts a step to a history. *)
From Coq Require Import Lia.
From RecordUpdate Require Import RecordUpdate.
From Model Require Import Base SeqNum Wire Conn Net2.
From Proofs Require Import DictP.
From Proofs Require Export ConnSpecP.
Import RecordSetNotations.
Open Scope Z_scope.

Definition is_emit (o : out) : bool := match o with OEmit _ _ _ => true | _ => false end.
Definition no_emit (os : list out) : Prop := forall o, In o os -> is_emit o = false.

Lemma no_emit_nil : no_emit []. Proof. intros o []. Qed.
Lemma no_emit_app a b : no_emit a -> no_emit b -> no_emit (a ++ b).
Proof. intros Ha Hb o Ho. apply in_app_or in Ho as [H|H]; auto. Qed.
Lemma no_emit_cons o a : is_emit o = false -> no_emit a -> no_emit (o :: a).
Proof. intros H Ha x [<-|Hx]; auto. Qed.
Lemma no_emit_one o : is_emit o = false -> no_emit [o].
Proof. intros H. apply no_emit_cons; [exact H|apply no_emit_nil]. Qed.
Lemma no_emit_filter f a : no_emit a -> no_emit (filter f a).
Proof. intros Ha o Ho. apply filter_In in Ho as [Ho _]. auto. Qed.
Lemma no_emit_ret b : no_emit [ORet b]. Proof. apply no_emit_one. reflexivity. Qed.
Lemma no_emit_rx o : o = [] \/ (exists er, o = [ORaise er]) -> no_emit o.
Proof. intros [->|(er & ->)]; [apply no_emit_nil|apply no_emit_one; reflexivity]. Qed.
#[export] Hint Resolve no_emit_nil no_emit_app no_emit_one no_emit_filter no_emit_ret : frame.

(* fields that only packet assembly and ESetCfg write (c_server: nothing does) *)
Record same_core (c c' : conn) : Prop := {
  sc_server : c_server c' = c_server c;
  sc_seq : c_seq_send c' = c_seq_send c;
  sc_last_send : c_last_send c' = c_last_send c;
  sc_last_ka : c_last_ka c' = c_last_ka c;
  sc_si : c_send_interval c' = c_send_interval c;
  sc_ka : c_ka_interval c' = c_ka_interval c;
  sc_ot : c_out_timeout c' = c_out_timeout c;
  sc_tt : c_temp_timeout c' = c_temp_timeout c }.

(* ... plus the fields the handshake / receive path may change *)
Record same_sess (c c' : conn) : Prop := {
  ss_core : same_core c c';
  ss_key : c_key c' = c_key c;
  ss_status : c_status c' = c_status c;
  ss_last_recv : c_last_recv c' = c_last_recv c;
  ss_hello : c_hello_sent c' = c_hello_sent c;
  ss_conncb : c_conn_cb c' = c_conn_cb c;
  ss_bfp : c_bf_pkt c' = c_bf_pkt c;
  ss_bfm : c_bf_msg c' = c_bf_msg c;
  ss_incoming : c_incoming c' = c_incoming c;
  ss_token : c_token c' = c_token c }.

Lemma same_core_refl c : same_core c c. Proof. constructor; reflexivity. Qed.
Lemma same_sess_refl c : same_sess c c. Proof. constructor; try reflexivity. apply same_core_refl. Qed.
Lemma same_core_trans a b c : same_core a b -> same_core b c -> same_core a c.
Proof. intros [] []. constructor; congruence. Qed.
Lemma same_sess_trans a b c : same_sess a b -> same_sess b c -> same_sess a c.
Proof. intros [H1] [H2]. constructor; try congruence. eapply same_core_trans; eassumption. Qed.
#[export] Hint Resolve same_core_refl same_sess_refl : frame.

(* the frame records follow from wr by wr_rel: its premise holds by computation for a closed mask that spares
   their fields *)
Ltac sess_triv := constructor; [constructor|..]; cbn; reflexivity.
Ltac core_triv := constructor; cbn; reflexivity.

Definition is_cbout (o : out) : Prop := match o with OCallback _ _ | OLog _ => True | _ => False end.
Definition cb_only (os : list out) : Prop := Forall is_cbout os.

Lemma cb_only_app a b : cb_only a -> cb_only b -> cb_only (a ++ b).
Proof. intros. apply Forall_app. auto. Qed.

Lemma raised_app a b : raised (a ++ b) = raised a || raised b.
Proof. apply existsb_app. Qed.

Lemma cb_only_not_raised o : cb_only o -> raised o = false.
Proof.
  unfold cb_only, raised. induction 1 as [|x r Hx _ IH]; [reflexivity|].
  cbn [existsb]. rewrite IH. destruct x; try reflexivity; destruct Hx.
Qed.

Lemma raised_filter_ret o : raised (filter not_ret o) = raised o.
Proof.
  unfold raised. induction o as [|x l IH]; [reflexivity|]. destruct x; cbn [filter not_ret existsb]; rewrite IH; reflexivity.
Qed.

Lemma fire_icb_cb_only c k ok c' o : fire_icb c k ok = (c', o) -> cb_only o.
Proof.
  unfold fire_icb, cb_only. intros E. destruct k; try (injection E as <- <-; try destruct ok; repeat constructor).
  destruct (dget fid (c_pfrags c)) as [fs|]; [|injection E as <- <-; constructor].
  destruct (forallb is_some _); injection E as <- <-; [|constructor].
  destruct (fs_ucb fs); repeat constructor.
Qed.
Arguments fire_icb_cb_only {_ _ _ _ _} _.

Lemma fire_cb_cb_only c k ok c' o : fire_cb c k ok = (c', o) -> cb_only o.
Proof.
  intros E. apply fire_cb_cases in E as [(q & _ & ->)|(d & i & _ & E)]; [constructor|eapply fire_icb_cb_only, E].
Qed.
Arguments fire_cb_cb_only {_ _ _ _ _} _.

Lemma cb_only_no_emit o : cb_only o -> no_emit o.
Proof. intros H x Hx. apply (proj1 (Forall_forall _ _) H) in Hx. destruct x; try reflexivity; destruct Hx. Qed.

(* A relation on (state before, state after, outputs), reflexive and transitive over ++, through a sweep
   over a snapshot of pending_acks: for a client that judges the entries against the snapshot or the
   verdict, or needs resolve whole.  handle_ack_bits c h and check_timeout strict c now are ack_loop /
   timeout_loop over c_packs c by conversion; ack_loop_sweep / timeout_loop_sweep turn them into sweeps. *)
Section SweepWalk.
  Variable R : conn -> conn -> list out -> Prop.
  Hypothesis Rrefl : forall c, R c c [].
  Hypothesis Rtrans : forall a b c o1 o2, R a b o1 -> R b c o2 -> R a c (o1 ++ o2).

  Lemma sweep_walk verdict snap :
    (forall c s t ok c' o, In (s, t) snap -> verdict c s t = Some ok -> resolve ok c s = (c', o) -> R c c' o) ->
    forall c c' o, sweep verdict c snap = (c', o) -> R c c' o.
  Proof.
    induction snap as [|[s t] r IH]; intros H c c' o E; cbn [sweep] in E.
    - injection E as <- <-. apply Rrefl.
    - dpair E c1 o1 E1. destruct (sweep verdict c1 r) as [c2 o2] eqn:E2. injection E as <- <-.
      eapply Rtrans; [|eapply IH; [|exact E2]; intros; eapply H; try eassumption; right; eassumption].
      destruct (verdict c s t) as [ok|] eqn:Ev; [eapply H; [left; reflexivity|..]; eassumption|].
      injection E1 as <- <-. apply Rrefl.
  Qed.
End SweepWalk.

Inductive star (A : conn -> conn -> list out -> Prop) : conn -> conn -> list out -> Prop :=
  | star_nil c : star A c c []
  | star_cons a b c o1 o2 : A a b o1 -> star A b c o2 -> star A a c (o1 ++ o2).

Lemma star_one (A : conn -> conn -> list out -> Prop) c c' o : A c c' o -> star A c c' o.
Proof. intros H. rewrite <- (app_nil_r o). eapply star_cons; [exact H|apply star_nil]. Qed.

Lemma star_app (A : conn -> conn -> list out -> Prop) a b c o1 o2 : star A a b o1 -> star A b c o2 -> star A a c (o1 ++ o2).
Proof.
  induction 1 as [|a b0 b o0 o1 H _ IH]; intros H2; [exact H2|]. rewrite <- app_assoc. eapply star_cons; [exact H|apply IH, H2].
Qed.

Lemma star_rel (A R : conn -> conn -> list out -> Prop) :
  (forall c, R c c []) -> (forall a b c o1 o2, R a b o1 -> R b c o2 -> R a c (o1 ++ o2)) ->
  (forall c c' o, A c c' o -> R c c' o) -> forall c c' o, star A c c' o -> R c c' o.
Proof. intros Rr Rt Ra. induction 1; eauto. Qed.

Lemma star_sub (A A' : conn -> conn -> list out -> Prop) : (forall c c' o, A c c' o -> A' c c' o) ->
  forall c c' o, star A c c' o -> star A' c c' o.
Proof. intros H. induction 1; [constructor|eapply star_cons; eauto]. Qed.

Lemma star_pres (A : conn -> conn -> list out -> Prop) (I : conn -> Prop) :
  (forall c c' o, A c c' o -> I c -> I c') -> forall c c' o, star A c c' o -> I c -> I c'.
Proof. intros H. induction 1; eauto. Qed.

(* resolving sent datagrams; B: the outcomes that may occur (a time-out sweep only reports false) *)
Inductive ratom (B : bool -> Prop) (c : conn) : conn -> list out -> Prop :=
  | r_count ok : B ok -> ratom B c (count_outcome ok c) []
  | r_fire s ks k ok c' o : B ok -> dget s (c_pcbs c) = Some ks -> In k ks -> fire_cb c k ok = (c', o) -> ratom B c c' o
  | r_unreg s : ratom B c (c <| c_pcbs := ddel s (c_pcbs c) |>) []
  | r_forget s : dget s (c_pcbs c) = None -> ratom B c (forget s c) [].

Definition racts (B : bool -> Prop) := star (ratom B).

Lemma fire_all_racts (B : bool -> Prop) s ks ok l : B ok -> forall c c' o, incl l ks -> dget s (c_pcbs c) = Some ks ->
  fire_all c l ok = (c', o) -> racts B c c' o.
Proof.
  intros Hb. induction l as [|k r IH]; intros c c' o Hi Eg E; cbn [fire_all] in E; [injection E as <- <-; constructor|].
  destruct (fire_cb c k ok) as [c1 o1] eqn:Ek. destruct (fire_all c1 r ok) as [c2 o2] eqn:Er. injection E as <- <-.
  eapply star_cons; [eapply r_fire; [exact Hb|exact Eg|apply Hi; left; reflexivity|exact Ek]|].
  eapply IH; [intros y Hy; apply Hi; right; exact Hy| |exact Er].
  rewrite (wr_keeps W_cb c_pcbs (fun _ _ => eq_refl) (fire_cb_wr Ek)). exact Eg.
Qed.

Lemma resolve_racts (B : bool -> Prop) ok c s c' o : B ok -> resolve ok c s = (c', o) -> racts B c c' o.
Proof.
  intros Hb. rewrite resolve_eq. pose proof (star_one (ratom B) _ _ _ (r_count B c ok Hb)) as H0.
  destruct (dget s (c_pcbs c)) as [ks|] eqn:Eg.
  - destruct (fire_all _ ks ok) as [c1 o1] eqn:E1. intros E. injection E as <- <-.
    apply (fire_all_racts B s ks ok ks Hb) in E1; [|apply incl_refl|destruct ok; exact Eg].
    change o1 with ([] ++ o1). eapply star_app; [exact H0|].
    rewrite <- (app_nil_r o1). eapply star_app; [exact E1|]. change (@nil out) with (@nil out ++ []).
    eapply star_cons; [apply r_unreg|]. apply star_one, r_forget. cbn. apply dget_ddel_same.
  - intros E. injection E as <- <-. change (@nil out) with (@nil out ++ []). eapply star_app; [exact H0|apply star_one, r_forget; destruct ok; exact Eg].
Qed.

Lemma sweep_racts (B : bool -> Prop) verdict snap : (forall c s t ok, verdict c s t = Some ok -> B ok) ->
  forall c c' o, sweep verdict c snap = (c', o) -> racts B c c' o.
Proof.
  intros Hv. apply (sweep_walk (racts B) (star_nil _) (star_app _)). intros c s t ok c' o _ Ev. apply resolve_racts, (Hv _ _ _ _ Ev).
Qed.

Lemma handle_ack_bits_racts c h c' o : handle_ack_bits c h = (c', o) -> racts (fun _ => True) c c' o.
Proof. unfold handle_ack_bits. rewrite ack_loop_sweep. apply sweep_racts. auto. Qed.
Arguments handle_ack_bits_racts {_ _ _ _} _.

Lemma check_timeout_racts strict c now c' o : check_timeout strict c now = (c', o) -> racts (eq false) c c' o.
Proof.
  unfold check_timeout. rewrite timeout_loop_sweep. apply sweep_racts. unfold timeout_verdict. intros c0 s t ok.
  destruct (overdue _ _ _ _); [intros [= <-]; reflexivity|discriminate].
Qed.
Arguments check_timeout_racts {_ _ _ _ _} _.

Lemma ratom_cb_only B c c' o : ratom B c c' o -> cb_only o.
Proof. intros [ok _|s ks k ok c1 o1 _ _ _ E|s|s _]; try constructor. eapply fire_cb_cb_only, E. Qed.
Arguments ratom_cb_only {_ _ _ _} _.

Lemma racts_cb_only B c c' o : racts B c c' o -> cb_only o.
Proof. apply (star_rel (ratom B) (fun _ _ o => cb_only o)); [constructor|intros; apply cb_only_app; assumption|exact (@ratom_cb_only B)]. Qed.
Arguments racts_cb_only {_ _ _ _} _.

Lemma ack_loop_cb_only h snap c c' o : ack_loop c h snap = (c', o) -> cb_only o.
Proof. rewrite ack_loop_sweep. intros E. exact (racts_cb_only (sweep_racts (fun _ => True) _ _ (fun _ _ _ _ _ => I) _ _ _ E)). Qed.
Arguments ack_loop_cb_only {_ _ _ _ _} _.

Lemma timeout_loop_cb_only strict now snap c c' o : timeout_loop strict c now snap = (c', o) -> cb_only o.
Proof. rewrite timeout_loop_sweep. intros E. exact (racts_cb_only (sweep_racts (fun _ => True) _ _ (fun _ _ _ _ _ => I) _ _ _ E)). Qed.
Arguments timeout_loop_cb_only {_ _ _ _ _ _} _.

Lemma wr_resolve_sess c c' : wr W_resolve c c' -> same_sess c c'.
Proof. apply (wr_rel same_sess). intros. sess_triv. Qed.
Arguments wr_resolve_sess {_ _} _.

Lemma wr_recv_core c c' : wr W_recv c c' -> same_core c c'.
Proof. apply (wr_rel same_core). intros. core_triv. Qed.
Arguments wr_recv_core {_ _} _.

Lemma handle_ack_bits_frame c h c' o : handle_ack_bits c h = (c', o) -> same_sess c c' /\ no_emit o.
Proof.
  intros E. split; [apply wr_resolve_sess; eapply handle_ack_bits_wr, E|eapply cb_only_no_emit, ack_loop_cb_only, E].
Qed.
Arguments handle_ack_bits_frame {_ _ _ _} _.

Lemma check_timeout_frame strict c now c' o : check_timeout strict c now = (c', o) -> same_sess c c' /\ no_emit o.
Proof.
  intros E. split; [apply wr_resolve_sess; eapply check_timeout_wr, E|eapply cb_only_no_emit, timeout_loop_cb_only, E].
Qed.
Arguments check_timeout_frame {_ _ _ _ _} _.

Lemma send_frame e c p r k c' o : send e c p r k = (c', o) -> same_sess c c' /\ no_emit o.
Proof.
  intros E. split; [apply (wr_rel same_sess W_send); [intros; sess_triv|eapply send_wr, E]|].
  destruct (send_out E) as [->| ->]; auto with frame.
Qed.
Arguments send_frame {_ _ _ _ _ _ _} _.

Lemma recv_fragment_frame c now mseq frag c' o :
  recv_fragment c now mseq frag = (c', o) -> same_core c c' /\ no_emit o.
Proof.
  intros E. split; [apply (wr_rel same_core W_frag); [intros; core_triv|eapply recv_fragment_wr, E]|].
  destruct (recv_fragment_out E) as [->| ->]; auto with frame.
Qed.
Arguments recv_fragment_frame {_ _ _ _ _ _} _.

Lemma recv_handshake_frame c ty o c' os :
  recv_handshake c ty o = (c', os) -> same_core c c' /\ no_emit os.
Proof.
  intros E. split; [apply (wr_rel same_core W_hs); [intros; core_triv|eapply recv_handshake_wr, E]|].
  destruct (recv_handshake_inv _ _ _ _ _ E) as [os' _ _ [->|(er & ->)]|_ _ _ _|_ _ _ _|_ _ _|_ _ _];
    try destruct (c_conn_cb c); auto with frame.
Qed.
Arguments recv_handshake_frame {_ _ _ _ _} _.

Lemma dispatch_no_emit c now m orcs c' o orcs' : dispatch c now m orcs = (c', o, orcs') -> no_emit o.
Proof.
  unfold dispatch. intros E.
  destruct (w_type m); try (injection E as _ <- _; apply no_emit_nil);
    try (destruct (recv_handshake c _ _) as [c1 o1] eqn:E1; injection E as _ <- _; eapply recv_handshake_frame, E1).
  destruct (recv_fragment c now _ _) as [c1 o1] eqn:E1. injection E as _ <- _. eapply recv_fragment_frame, E1.
Qed.
Arguments dispatch_no_emit {_ _ _ _ _ _ _} _.

Lemma recv_msgs_no_emit ms : forall c now orcs c' o, recv_msgs c now ms orcs = (c', o) -> no_emit o.
Proof.
  induction ms as [|m r IH]; intros c now orcs c' o E; [injection E as _ <-; apply no_emit_nil|].
  rewrite recv_msgs_cons in E. destruct (bf_insert _ _); [|eapply IH, E].
  destruct (dispatch _ now m orcs) as [[c1 o1] orcs'] eqn:E1. apply dispatch_no_emit in E1.
  destruct (raised o1); [injection E as _ <-; exact E1|].
  destruct (recv_msgs c1 now r orcs') as [c2 o2] eqn:E2. injection E as _ <-. apply no_emit_app; [exact E1|eapply IH, E2].
Qed.
Arguments recv_msgs_no_emit {_ _ _ _ _ _} _.

Lemma recv_no_emit c now d orcs c' o : recv c now d orcs = (c', o) -> no_emit o.
Proof.
  intros E. apply recv_cases in E as [(_ & -> & _)|(ms & bf & c1 & o1 & o2 & _ & _ & _ & E1 & E2 & ->)]; [apply no_emit_ret|].
  apply no_emit_app; [eapply handle_ack_bits_frame, E1|]. apply no_emit_app; [eapply recv_msgs_no_emit, E2|].
  destruct (raised o2); auto with frame.
Qed.
Arguments recv_no_emit {_ _ _ _ _ _} _.

Lemma recv_frame c now d orcs c' o : recv c now d orcs = (c', o) -> same_core c c' /\ no_emit o.
Proof. intros E. split; [apply wr_recv_core; eapply recv_wr, E|eapply recv_no_emit, E]. Qed.
Arguments recv_frame {_ _ _ _ _ _} _.

Lemma rx_recv_no_emit c now r c' o : rx_recv c now r = (c', o) -> no_emit o.
Proof.
  intros E. apply rx_recv_cases in E as [(_ & H)|(d & orcs & o' & _ & E & ->)]; [apply no_emit_rx, H|].
  apply no_emit_filter. eapply recv_no_emit, E.
Qed.
Arguments rx_recv_no_emit {_ _ _ _ _} _.

Lemma client_update_frame c now c' o : client_update c now = (c', o) -> same_core c c' /\ no_emit o /\ c_key c' = c_key c.
Proof.
  intros E. pose proof (client_update_wr E) as W. split; [apply (wr_rel same_core W_update); [intros; core_triv|exact W]|].
  split; [|exact (wr_keeps W_update c_key (fun _ _ => eq_refl) W)].
  apply client_update_out in E as [->| ->]; auto with frame.
Qed.
Arguments client_update_frame {_ _ _ _} _.

(* What a step does.  A step is the event's own action (catom: a call of the application, the client's
   timers, a header that does not parse), then at most one datagram that reaches _recv_datagram (rx_unit),
   then at most one pass through the tail of update() (tail_unit).  The datagram is a star of datagram atoms
   (datom) and message atoms (matom).  An invariant is proved by one case per atom (star_rel, star_pres); the
   atoms carry the event, so what holds for some events only is asked where it matters.  A client for which
   the receive or the tail has to stay whole (a sweep judged against its snapshot, the one packet of a step)
   uses the units of step_shape; every other takes them apart with rx_unit_acts, handle_ack_bits_racts,
   check_timeout_racts. *)

(* the clock of an event.  NonceP.ev_now, which the statements of C07 speak of, is the same function; it is
   defined after this file, so the clients that state something about ev_now turn one into the other by
   `change (ev_clock x) with (ev_now x)` *)
Definition ev_clock (x : ev) : Z :=
  match x with EClientTick now _ | EServerTick now | ERecv now _ _ | EClientHello now _ => now | _ => 0 end.

Inductive catom (e : env) (x : ev) (c : conn) : conn -> list out -> Prop :=
  | a_send p r k c' o : x = ESend p r k -> send e c p r k = (c', o) -> catom e x c c' o
  | a_disconnect k : x = EDisconnect k -> catom e x c (disconnect c k) []
  | a_cfg w v : x = ESetCfg w v -> catom e x c (fst (step e c x)) []
  | a_hello now hello : x = EClientHello now hello -> catom e x c (client_hello c now hello) []
  | a_get : x = EGetMessages -> catom e x c (c <| c_incoming := [] |>) []
  | a_conncb b : x = ESetConnCb b -> catom e x c (c <| c_conn_cb := b |>) []
  | a_update now r c' o : x = EClientTick now r -> client_update c now = (c', o) -> catom e x c c' o
  | a_badhdr now er : x = EClientTick now (RxBadHeader er) -> catom e x c c [ORaise er].

(* a datagram: refused, or accepted into the window; its acknowledgements; its return value (a client tick drops it) *)
Inductive datom (x : ev) (c : conn) : conn -> list out -> Prop :=
  | a_drop o : o = [] \/ o = [ORet false] -> datom x c (c <| c_dropped := c_dropped c + 1 |>) o
  | a_accept s bf : bf_insert (c_bf_pkt c) s = Ok bf ->
      datom x c (c <| c_bf_pkt := bf |> <| c_received := c_received c + 1 |> <| c_last_recv := ev_clock x |>) []
  | a_acks h c' o : c_last_recv c = ev_clock x -> handle_ack_bits c h = (c', o) -> datom x c c' o
  | a_ret o : o = [] \/ o = [ORet true] -> datom x c c o.

(* a message of an accepted datagram; a connection without a key only hears hellos *)
Inductive matom (x : ev) (c : conn) : conn -> list out -> Prop :=
  | a_window s bf : bf_insert (c_bf_msg c) s = Ok bf -> matom x c (c <| c_bf_msg := bf |>) []
  | a_app s p : matom x c (recv_app c s p) []
  | a_fragment s p c' o : recv_fragment c (ev_clock x) s p = (c', o) -> matom x c c' o
  | a_bye : matom x c (c <| c_status := DISCONNECTING |>) []
  | a_hs ty oo c' os : is_hs ty = true -> (c_key c = None -> is_hello ty = true) ->
      recv_handshake c ty oo = (c', os) -> matom x c c' os.

Inductive atom (e : env) (x : ev) (c c' : conn) (o : list out) : Prop :=
  | at_call : catom e x c c' o -> atom e x c c' o
  | at_dgram : datom x c c' o -> atom e x c c' o
  | at_msg : matom x c c' o -> atom e x c c' o.

Definition acts (e : env) (x : ev) := star (atom e x).
Definition rxatom (x : ev) (c c' : conn) (o : list out) : Prop := datom x c c' o \/ matom x c c' o.
Lemma rxatom_atom e x c c' o : rxatom x c c' o -> atom e x c c' o.
Proof. intros [H|H]; [apply at_dgram, H|apply at_msg, H]. Qed.

Section Acts.
  Variables (e : env) (x : ev).

  Lemma dispatch_macts c m orcs c' o orcs' : (c_key c = None -> is_hello (w_type m) = true) ->
    dispatch c (ev_clock x) m orcs = (c', o, orcs') -> star (matom x) c c' o.
  Proof.
    unfold dispatch. intros Hk E.
    assert (Hh : forall ty, w_type m = ty -> is_hs ty = true ->
              (let '(c1, o1) := recv_handshake c ty (hd no_oracle orcs) in (c1, o1, tl orcs)) = (c', o, orcs') -> star (matom x) c c' o).
    { intros ty Et Hty E1. destruct (recv_handshake c ty _) as [c1 o1] eqn:Eh. injection E1 as <- <- _.
      eapply star_one, a_hs; [exact Hty|rewrite <- Et; exact Hk|exact Eh]. }
    destruct (w_type m) eqn:Et; try (exact (Hh _ eq_refl eq_refl E)); try (injection E as <- <- _).
    - constructor.
    - constructor.
    - apply star_one, a_bye.
    - apply star_one, a_app.
    - destruct (recv_fragment c _ _ _) as [c1 o1] eqn:Ef. injection E as <- <- _. eapply star_one, a_fragment, Ef.
  Qed.

  Lemma recv_msgs_macts ms : forall c orcs c' o,
    (c_key c = None -> ms = [] \/ exists m, ms = [m] /\ is_hello (w_type m) = true) ->
    recv_msgs c (ev_clock x) ms orcs = (c', o) -> star (matom x) c c' o.
  Proof.
    induction ms as [|m r IH]; intros c orcs c' o Hk E; [injection E as <- <-; constructor|].
    assert (Hr : c_key c = None -> r = [] /\ is_hello (w_type m) = true).
    { intros K. destruct (Hk K) as [H|(m' & H & Hm)]; [discriminate|]. injection H as -> ->. auto. }
    rewrite recv_msgs_cons in E. destruct (bf_insert _ _) as [bf|] eqn:Eb.
    - destruct (dispatch _ _ m orcs) as [[c1 o1] orcs'] eqn:E1.
      assert (H1 : star (matom x) c c1 o1).
      { change o1 with ([] ++ o1). eapply star_cons; [eapply a_window, Eb|]. eapply dispatch_macts; [|exact E1]. intros K. apply Hr, K. }
      destruct (raised o1); [injection E as <- <-; exact H1|].
      destruct (recv_msgs c1 _ r orcs') as [c2 o2] eqn:E2. injection E as <- <-. eapply star_app; [exact H1|].
      eapply IH; [|exact E2]. intros K1. left. destruct (c_key c) eqn:K; [|apply Hr; reflexivity].
      destruct (dispatch_key_held _ _ _ _ _ _ _ E1); [cbn; congruence|exact K1].
    - eapply IH; [|exact E]. intros K. left. apply Hr, K.
  Qed.

  (* a receive needs no environment *)
  Lemma recv_rxacts c d orcs c' o : recv c (ev_clock x) d orcs = (c', o) -> star (rxatom x) c c' o.
  Proof.
    intros E. apply recv_cases in E as [(-> & -> & _)|(ms & bf & c1 & o1 & o2 & Ekl & Eo & Eb & E1 & E2 & ->)];
      [apply star_one; left; apply a_drop; auto|].
    change (o1 ++ _) with ([] ++ o1 ++ o2 ++ (if raised o2 then [] else [ORet true])).
    eapply star_cons; [left; eapply a_accept, Eb|]. eapply star_cons; [left; eapply a_acks; [reflexivity|exact E1]|]. eapply star_app.
    - apply (star_sub (matom x) (rxatom x) (fun _ _ _ H => or_intror H)). eapply recv_msgs_macts; [|exact E2]. intros K1.
      rewrite (wr_keeps W_resolve c_key (fun _ _ => eq_refl) (handle_ack_bits_wr E1)) in K1. cbn in K1.
      exact (open_keyless c d ms K1 Ekl Eo).
    - apply star_one. left. apply a_ret. destruct (raised o2); auto.
  Qed.

  Lemma recv_acts c d orcs c' o : recv c (ev_clock x) d orcs = (c', o) -> acts e x c c' o.
  Proof. intros E. exact (star_sub _ _ (rxatom_atom e x) _ _ _ (recv_rxacts _ _ _ _ _ E)). Qed.
End Acts.

Lemma cb_only_no_ret o : cb_only o -> filter not_ret o = o.
Proof. induction 1 as [|y r Hy _ IH]; [reflexivity|]. cbn. rewrite IH. destruct y; try reflexivity; destruct Hy. Qed.

(* a client tick drops the return value of _recv_datagram: the atoms allow for it *)
Lemma atom_filter e x c c' o : atom e x c c' o -> atom e x c c' (filter not_ret o).
Proof.
  intros [H|H|H]; [apply at_call|apply at_dgram|apply at_msg].
  - destruct H as [p r k c1 o1 Ex E|k Ex|w v Ex|now hello Ex|Ex|b Ex|now r c1 o1 Ex E|now er Ex].
    + destruct (send_out E) as [->| ->]; eapply a_send; eassumption.
    + eapply a_disconnect, Ex.
    + eapply a_cfg, Ex.
    + eapply a_hello, Ex.
    + apply a_get, Ex.
    + apply a_conncb, Ex.
    + destruct (client_update_out _ _ _ _ E) as [->| ->]; eapply a_update; eassumption.
    + eapply a_badhdr, Ex.
  - destruct H as [o1 Ho|s bf Eb|h c1 o1 Hl E|o1 Ho].
    + apply a_drop. destruct Ho as [->| ->]; auto.
    + eapply a_accept, Eb.
    + rewrite (cb_only_no_ret o1); [eapply a_acks; eassumption|]. unfold handle_ack_bits in E. eapply ack_loop_cb_only, E.
    + apply a_ret. destruct Ho as [->| ->]; auto.
  - destruct H as [s bf Eb|s p|s p c1 o1 E| |ty oo c1 os Hty Hk E].
    + eapply a_window, Eb.
    + apply a_app.
    + destruct (recv_fragment_out E) as [->| ->]; eapply a_fragment, E.
    + apply a_bye.
    + replace (filter not_ret os) with os; [eapply a_hs; eassumption|].
      destruct (recv_handshake_inv _ _ _ _ _ E) as [os' _ _ [->|(er & ->)]|_ _ _ _|_ _ _ _|_ _ _|_ _ _]; try reflexivity.
      destruct (c_conn_cb c); reflexivity.
Qed.
Arguments atom_filter {_ _ _ _ _} _.

Lemma acts_filter e x c c' o : acts e x c c' o -> acts e x c c' (filter not_ret o).
Proof. induction 1; [constructor|]. rewrite filter_app. eapply star_cons; [apply atom_filter|]; eassumption. Qed.
Arguments acts_filter {_ _ _ _ _} _.

(* the datagram of the event, in the state c0 in which it reaches _recv_datagram (Net2.pre_recv), as a whole *)
Inductive rx_unit (x : ev) (c c0 : conn) : conn -> list out -> Prop :=
  | rx_none : pre_recv c x = None -> rx_unit x c c0 c0 []
  | rx_dgram now d orcs c1 o1 o1' : pre_recv c x = Some (c0, d) ->
      (x = ERecv now d orcs /\ c0 = c /\ o1' = o1 \/
       x = EClientTick now (RxDgram d orcs) /\ c0 = fst (client_update c now) /\ o1' = filter not_ret o1) ->
      recv c0 now d orcs = (c1, o1) -> rx_unit x c c0 c1 o1'.

Definition ticks (x : ev) (now : Z) : Prop := x = EServerTick now \/ exists r, x = EClientTick now r.
(* the server's sweep is due after strictly more than the time-out, and is reported before the packet *)
Definition ev_strict (x : ev) : bool := match x with EServerTick _ => true | _ => false end.

(* the tail of update() behind the send-rate gate, as a whole, after the outputs opre; the server reports the
   sweep's outputs first.  When an update() does not reach its tail, the connection is dropped, an exception
   escaped, or the gate is closed. *)
Inductive tail_unit (e : env) (x : ev) (opre : list out) (c : conn) : conn -> list out -> Prop :=
  | tl_none : (forall now, ticks x now -> status_eqb (c_status c) DROPPED = true \/ raised opre = true \/
                                           now - c_last_send c <= c_send_interval c) -> tail_unit e x opre c c []
  | tl_tail c' o2 o3 : ticks x (ev_clock x) -> c_send_interval c < ev_clock x - c_last_send c ->
      tick_tail (ev_strict x) e c (ev_clock x) = (c', o2, o3) -> tail_unit e x opre c c' (if ev_strict x then o3 ++ o2 else o2 ++ o3).

Theorem step_shape e c x c' o : step e c x = (c', o) ->
  exists c0 c1 o0 o1 ot, star (catom e x) c c0 o0 /\ rx_unit x c c0 c1 o1 /\ tail_unit e x (o0 ++ o1) c1 c' ot /\ o = o0 ++ o1 ++ ot.
Proof.
  assert (One : forall c' o, pre_recv c x = None -> (forall now, ~ ticks x now) -> catom e x c c' o ->
            exists c0 c1 o0 o1 ot, star (catom e x) c c0 o0 /\ rx_unit x c c0 c1 o1 /\ tail_unit e x (o0 ++ o1) c1 c' ot /\ o = o0 ++ o1 ++ ot).
  { intros a oa Hp Hn H. exists a, a, oa, [], []. rewrite !app_nil_r. repeat split; [apply star_one, H|apply rx_none, Hp|].
    apply tl_none. intros now Ht. destruct (Hn now Ht). }
  assert (Nt : forall y, (forall now, y <> EServerTick now) -> (forall now r, y <> EClientTick now r) -> forall now, ~ ticks y now)
    by (intros y H1 H2 now [H|[r H]]; [exact (H1 _ H)|exact (H2 _ _ H)]).
  destruct x; cbn [step]; intros E; try (injection E as <- <-).
  - apply One; [reflexivity|apply Nt; discriminate|]. eapply a_send; [reflexivity|exact E].
  - rewrite client_tick_eq in E. destruct (client_update c now) as [cu ou] eqn:Eu.
    pose proof (star_one _ _ _ _ (a_update e (EClientTick now r) c now r cu ou eq_refl Eu)) as Hu.
    assert (Ru : forall o1, raised (ou ++ o1) = raised o1)
      by (intros o1; rewrite raised_app; destruct (client_update_out _ _ _ _ Eu) as [->| ->]; reflexivity).
    destruct (status_eqb (c_status cu) DROPPED) eqn:Ed.
    { injection E as <- <-. exists cu, cu, ou, [], []. rewrite !app_nil_r. repeat split; [exact Hu| |apply tl_none; auto].
      apply rx_none. destruct r; try reflexivity. cbn [pre_recv]. rewrite Eu. cbn [fst]. rewrite Ed. reflexivity. }
    assert (Tl : forall c1 o0 o1, raised (o0 ++ o1) = raised o1 ->
                (if raised o1 then (c1, ou ++ o1)
                  else if now - c_last_send c1 >? c_send_interval c1
                       then let '(c2, o2, o3) := tick_tail false e c1 now in (c2, ou ++ o1 ++ o2 ++ o3) else (c1, ou ++ o1)) = (c', o) ->
                exists ot, tail_unit e (EClientTick now r) (o0 ++ o1) c1 c' ot /\ o = ou ++ o1 ++ ot).
    { intros c1 o0 o1 Hr E1. destruct (raised o1) eqn:R1;
        [injection E1 as <- <-; exists []; rewrite app_nil_r; split; [apply tl_none; auto|reflexivity]|].
      destruct (_ >? _) eqn:G; [|injection E1 as <- <-; exists []; rewrite app_nil_r; split; [|reflexivity]].
      - destruct (tick_tail false e c1 now) as [[c2 o2] o3] eqn:E2. injection E1 as <- <-. exists (o2 ++ o3). split; [|reflexivity].
        apply (tl_tail e (EClientTick now r) _ c1 c2 o2 o3); [right; eauto|cbn [ev_clock]; lia|exact E2].
      - apply tl_none. intros n [H|[r' H]]; [discriminate|]. injection H as <- _. right. right. lia. }
    destruct r as [|er|d orcs]; cbn [rx_recv] in E.
    + apply (Tl cu ou []) in E as (ot & Ht & ->); [|apply Ru]. exists cu, cu, ou, [], ot. repeat split; [exact Hu|apply rx_none; reflexivity|exact Ht].
    + apply (Tl cu ou) in E as (ot & Ht & ->); [|apply Ru]. exists cu, cu, (ou ++ [ORaise er]), [], ot.
      split; [eapply star_app; [exact Hu|]; eapply star_one, a_badhdr; reflexivity|]. split; [apply rx_none; reflexivity|].
      rewrite app_nil_r, <- app_assoc. split; [exact Ht|reflexivity].
    + destruct (recv cu now d orcs) as [c1 o1] eqn:Er. apply (Tl c1 ou) in E as (ot & Ht & ->); [|apply Ru].
      exists cu, c1, ou, (filter not_ret o1), ot. repeat split; [exact Hu| |exact Ht].
      apply (rx_dgram _ c cu now d orcs c1 o1); [cbn [pre_recv]; rewrite Eu; cbn [fst]; rewrite Ed; reflexivity| |exact Er].
      right. rewrite Eu. auto.
  - rewrite server_tick_eq in E. exists c, c, [], []. cbn [app]. destruct (_ >? _) eqn:G.
    + destruct (tick_tail true e c now) as [[c2 o2] o3] eqn:E2. injection E as <- <-. exists (o3 ++ o2).
      repeat split; [constructor|apply rx_none; reflexivity|].
      apply (tl_tail e (EServerTick now) _ c c2 o2 o3); [left; reflexivity|cbn [ev_clock]; lia|exact E2].
    + injection E as <- <-. exists []. repeat split; [constructor|apply rx_none; reflexivity|].
      apply tl_none. intros n [H|[r H]]; [|discriminate]. injection H as <-. right. right. lia.
  - exists c, c', [], o, []. rewrite app_nil_r. repeat split; [constructor| |apply tl_none; intros n [H|[r H]]; discriminate].
    apply (rx_dgram _ c c now d orcs c' o); [reflexivity|auto|exact E].
  - apply One; [reflexivity|apply Nt; discriminate|]. eapply a_disconnect. reflexivity.
  - apply One; [reflexivity|apply Nt; discriminate|]. eapply (a_cfg e (ESetCfg which v) c). reflexivity.
  - apply One; [reflexivity|apply Nt; discriminate|]. eapply a_hello. reflexivity.
  - apply One; [reflexivity|apply Nt; discriminate|]. apply a_get. reflexivity.
  - apply One; [reflexivity|apply Nt; discriminate|]. eapply a_conncb. reflexivity.
Qed.

Lemma rx_unit_acts e x c c0 c1 o : rx_unit x c c0 c1 o -> acts e x c0 c1 o.
Proof.
  intros [_|now d orcs c2 o1 o1' _ [(-> & _ & ->)|(-> & _ & ->)] E]; [apply star_nil|apply (recv_acts e (ERecv now d orcs) _ _ _ _ _ E)|].
  apply acts_filter. apply (recv_acts e (EClientTick now (RxDgram d orcs)) _ _ _ _ _ E).
Qed.

(* for a client that does not need the receive whole *)
Theorem step_acts e c x c' o : step e c x = (c', o) ->
  exists c1 o1 ot, acts e x c c1 o1 /\ tail_unit e x o1 c1 c' ot /\ o = o1 ++ ot.
Proof.
  intros E. apply step_shape in E as (c0 & c1 & o0 & o1 & ot & H0 & H1 & Ht & ->).
  exists c1, (o0 ++ o1), ot. rewrite <- app_assoc. repeat split; [|exact Ht].
  eapply star_app; [exact (star_sub _ _ (at_call e x) _ _ _ H0)|eapply rx_unit_acts, H1].
Qed.

Lemma atom_no_emit e x c c' o : atom e x c c' o -> no_emit o.
Proof.
  intros [H|H|H].
  - destruct H as [p r k c1 o1 _ E|k _|w v _|now hello _|_|b _|now r c1 o1 _ E|now er _]; auto with frame.
    + eapply send_frame, E.
    + eapply client_update_frame, E.
  - destruct H as [o1 [->| ->]|s bf _|h c1 o1 _ E|o1 [->| ->]]; auto with frame. eapply handle_ack_bits_frame, E.
  - destruct H as [s bf _|s p|s p c1 o1 E| |ty oo c1 os _ _ E]; auto with frame.
    + eapply recv_fragment_frame, E.
    + eapply recv_handshake_frame, E.
Qed.
Arguments atom_no_emit {_ _ _ _ _} _.

Lemma acts_no_emit e x c c' o : acts e x c c' o -> no_emit o.
Proof. induction 1; eauto using atom_no_emit with frame. Qed.
Arguments acts_no_emit {_ _ _ _ _} _.

(* what the atoms write that are not a sweep of acknowledgements, a disconnect or a reconfiguration: none of the
   tables of sent datagrams, the counters of the sending side and the configuration *)
Definition W_misc : mask := fun f =>
  match f with
  | F_seq_msg | F_next_rid | F_outgoing | F_sent | F_seq_frag | F_pfrags | F_incoming | F_conn_cb | F_status | F_hello_sent
  | F_dropped | F_bf_pkt | F_received | F_last_recv | F_bf_msg | F_rfrags | F_token | F_key => true
  | _ => false
  end.

Lemma atom_cases e x c c' o : atom e x c c' o ->
  wr W_misc c c' \/ (exists h, handle_ack_bits c h = (c', o)) \/
  (exists k, x = EDisconnect k /\ c' = disconnect c k) \/ (exists w v, x = ESetCfg w v /\ c' = fst (step e c x)).
Proof.
  intros [H|H|H].
  - destruct H as [p r k c1 o1 _ E|k ->|w v ->|now hello _|_|b _|now r c1 o1 _ E|now er _]; [|eauto 6|eauto 7|..]; left;
      try (apply wr_intro; reflexivity); try apply wr_refl.
    + apply (wr_sub W_send); [reflexivity|eapply send_wr, E].
    + apply (wr_sub W_update); [reflexivity|eapply client_update_wr, E].
  - destruct H as [o1 _|s bf _|h c1 o1 _ E|o1 _]; [| |eauto|]; left; try (apply wr_intro; reflexivity). apply wr_refl.
  - left. destruct H as [s bf _|s p|s p c1 o1 E| |ty oo c1 os _ _ E]; try (apply wr_intro; reflexivity).
    + apply (wr_sub W_frag); [reflexivity|eapply recv_fragment_wr, E].
    + apply (wr_sub W_hs); [reflexivity|eapply recv_handshake_wr, E].
Qed.
Arguments atom_cases {_ _ _ _ _} _.

Lemma atom_seq_send e x c c' o : atom e x c c' o -> c_seq_send c' = c_seq_send c.
Proof.
  intros H. destruct (atom_cases H) as [Hw|[(h & E)|[(k & _ & ->)|(w & v & -> & ->)]]].
  - exact (wr_keeps W_misc c_seq_send (fun _ _ => eq_refl) Hw).
  - exact (wr_keeps W_resolve c_seq_send (fun _ _ => eq_refl) (handle_ack_bits_wr E)).
  - exact (wr_keeps W_disc c_seq_send (fun _ _ => eq_refl) (disconnect_wr c k)).
  - exact (wr_keeps W_cfg c_seq_send (fun _ _ => eq_refl) (setcfg_wr e c w v)).
Qed.
Arguments atom_seq_send {_ _ _ _ _} _.

(* the one packet of a step: whatever a step emits comes out of one packet assembly behind the gate, after
   which the step only sweeps for time-outs *)
Lemma step_packet e c x c' o : step e c x = (c', o) ->
  no_emit o \/
  exists c1 c2 pk o1 o3, acts e x c c1 o1 /\ c_send_interval c1 < ev_clock x - c_last_send c1 /\
    build_packet e c1 (ev_clock x) = (c2, Some pk) /\ check_timeout (ev_strict x) c2 (ev_clock x) = (c', o3) /\
    forall y, is_emit y = true -> (In y o <-> In y (emit c2 pk)).
Proof.
  intros E. apply step_acts in E as (c1 & o1 & ot & H1 & Ht & ->). pose proof (acts_no_emit H1) as N1.
  destruct Ht as [_|c2' o2 o3 _ G T]; [left; rewrite app_nil_r; exact N1|].
  apply tick_tail_cases in T as (c2 & pk & E1 & E2 & ->). pose proof (proj2 (check_timeout_frame E2)) as N3.
  destruct pk as [pk|]; [right|left; destruct (ev_strict x); rewrite ?app_nil_r; auto with frame].
  exists c1, c2, pk, o1, o3. repeat split; try assumption.
  - intros Hi. apply in_app_or in Hi as [Hi|Hi]; [rewrite (N1 _ Hi) in *; discriminate|].
    destruct (ev_strict x); apply in_app_or in Hi as [Hi|Hi]; try exact Hi; rewrite (N3 _ Hi) in *; discriminate.
  - intros Hi. apply in_or_app. right. destruct (ev_strict x); apply in_or_app; auto.
Qed.

Lemma emit_sealed c pk h kk p :
  In (OEmit h kk p) (emit c pk) ->
  kk = (if ptype_eqb (h_type h) SERVER_HELLO then None else c_key c)
  /\ encode_msgs (map wmsg_of (snd pk)) = Ok p /\ h_len h = len p /\ h_type h = h_type (fst pk).
Proof.
  destruct pk as [h0 ms]. destruct (emit_cases c h0 ms) as [(er & _ & ->)|(q & Eq & ->)]; intros [H|[]]; [discriminate|].
  injection H as <- <- <-. auto.
Qed.

(* the key a step seals with is the key the connection holds after the step: after the one packet of a
   step only the time-out sweep runs, which keeps the key *)
Lemma step_emit_key e c x c' o h kk p :
  step e c x = (c', o) -> In (OEmit h kk p) o ->
  kk = (if ptype_eqb (h_type h) SERVER_HELLO then None else c_key c').
Proof.
  intros E Hin. apply step_packet in E as [N|(c1 & c2 & pk & o1 & o3 & _ & _ & _ & E2 & Ho)]; [discriminate (N _ Hin)|].
  apply Ho, emit_sealed in Hin as [-> _]; [|reflexivity].
  rewrite (wr_keeps W_resolve c_key (fun _ _ => eq_refl) (check_timeout_wr E2)). reflexivity.
Qed.

Lemma run_inv (P : conn -> Prop) (Q : list out -> Prop) e :
  (forall c x c' o, P c -> step e c x = (c', o) -> P c' /\ Q o) ->
  forall xs c c' oss, P c -> run e c xs = (c', oss) -> P c' /\ Forall Q oss.
Proof.
  intros H. induction xs as [|x xs IH]; intros c c' oss Hc E; cbn [run] in E.
  - injection E as <- <-. auto.
  - destruct (step e c x) as [c1 o] eqn:E1. destruct (run e c1 xs) as [c2 os] eqn:E2. injection E as <- <-.
    destruct (H _ _ _ _ Hc E1) as [H1 Ho]. destruct (IH _ _ _ H1 E2). auto.
Qed.
