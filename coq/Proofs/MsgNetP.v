(* C07, "a send callback reports success only after the peer endpoint has accepted the
   WHOLE MESSAGE", over joint histories of two endpoints with mixed traffic (Model/Net3.v): a success
   callback belongs to a fragmented send (big_id) or its payload has been handed to the peer's application
   (delivered_as) — success_means_delivered, and _unique when callback ids are not reused.  The joint
   invariant J3 composes AckNetP (datagram level: the success callback is registered for a pending
   datagram that B has accepted), MsgSendP (the sender's custody link), MsgRecvP (the receiver's half)
   and MsgFragP (where a reported id comes from; fragment contexts come from oversized sends only). *)
From Coq Require Import Lia.
From RecordUpdate Require Import RecordUpdate.
From Model Require Import Base SeqNum Wire Conn Net Net2 Net3.
From Proofs Require Import WireP ConnSpecP NonceP AckP CallbackP StoredP AckNamesP AckNetP RecvHistP MsgRecvP MsgSendP MsgFragP.
Import RecordSetNotations.
Open Scope Z_scope.

Lemma cb_user_inner k id : cb_user k id <-> cb_inner k = IUser id.
Proof. destruct k as [i|rid mseq ty p i]; destruct i; cbn; intuition congruence. Qed.

(* the predicate on queued messages: a user callback travels with what was passed to send() *)
Definition ucb_ok (S : list (list byte * Z)) (i : icb) (ty : ptype) (p : list byte) : Prop :=
  match i with IUser id => ty = APP /\ In (p, id) S | IFrag _ _ => ty = APP_FRAGMENT | _ => True end.

(* fragments carry their 6-byte header (FragmentSender.build) *)
Definition ty_ok (ty : ptype) (p : list byte) : Prop :=
  ty <> UNKNOWN /\ (ty = APP_FRAGMENT -> (6 <= length p)%nat).

Definition QkS (S : list (list byte * Z)) (k : cb) : Prop :=
  match k with Plain _ => True | Retry _ _ ty p i => ty_ok ty p /\ ucb_ok S i ty p end.

(* a RetrySender re-queues the message with the same message sequence number, type and payload *)
Definition QmS (S : list (list byte * Z)) (m : pmsg) : Prop :=
  ty_ok (m_type m) (m_payload m) /\
  match m_cb m with
  | None => True
  | Some (Plain i) => ucb_ok S i (m_type m) (m_payload m)
  | Some (Retry rid mseq ty p i) =>
      m_seq m = mseq /\ m_type m = ty /\ m_payload m = p /\ ty_ok ty p /\ ucb_ok S i ty p
  end.

Lemma QS_stamp S now m : QmS S m -> QmS S (stamp now m).
Proof. intros H. exact H. Qed.

Lemma QS_cb S m k : QmS S m -> m_cb m = Some k -> QkS S k.
Proof.
  intros [_ H] E. rewrite E in H. destruct k as [i|rid mseq ty p i]; cbn; [exact I|].
  destruct H as (_ & _ & _ & A & B). auto.
Qed.

Lemma QS_requeue S rid mseq ty p i : QkS S (Retry rid mseq ty p i) ->
  QmS S {| m_seq := mseq; m_type := ty; m_payload := p; m_cb := Some (Retry rid mseq ty p i);
           m_retry := RTimeout; m_atime := 0 |}.
Proof. intros [A B]. split; [exact A|]. cbn. auto. Qed.

Lemma QS_sys S c ty p k : is_hs ty = true -> sys_icb k -> QmS S (new_msg c ty p RNone k).
Proof.
  intros Ht Hk. assert (Hok : ty_ok ty p) by (split; intros E; rewrite E in Ht; discriminate Ht).
  split; [exact Hok|].
  destruct k; try destruct Hk; cbn; exact I.
Qed.

Lemma QS_frag S c fid i n f r :
  QmS S (new_msg c APP_FRAGMENT (be 2 fid ++ be 2 (1 + i) ++ be 2 n ++ f) r (IFrag fid i)).
Proof.
  assert (Hok : ty_ok APP_FRAGMENT (be 2 fid ++ be 2 (1 + i) ++ be 2 n ++ f)).
  { split; [discriminate|]. intros _. rewrite !app_length, !be_length. lia. }
  split; [exact Hok|]. unfold new_msg, mk_cb. cbn [m_cb m_seq m_type m_payload]. destruct r; cbn; auto.
Qed.

Lemma QS_closed S : closed (QmS S) (QkS S).
Proof. constructor; [apply QS_requeue|apply QS_sys|apply QS_stamp|apply QS_cb]. Qed.

Lemma ucb_ok_mono S S' i ty p : (forall y, In y S -> In y S') -> ucb_ok S i ty p -> ucb_ok S' i ty p.
Proof. intros H. destruct i; cbn; auto. intros [A B]. auto. Qed.

Lemma QkS_mono S S' k : (forall y, In y S -> In y S') -> QkS S k -> QkS S' k.
Proof. intros H. destruct k; cbn; [auto|]. intros [A B]. split; [exact A|eapply ucb_ok_mono; eassumption]. Qed.

Lemma QmS_mono S S' m : (forall y, In y S -> In y S') -> QmS S m -> QmS S' m.
Proof.
  intros H [A B]. split; [exact A|]. destruct (m_cb m) as [[i|rid mseq ty p i]|]; [eapply ucb_ok_mono; eassumption| |exact I].
  destruct B as (B1 & B2 & B3 & B4 & B5). split; [exact B1|]. split; [exact B2|]. split; [exact B3|]. split; [exact B4|].
  eapply ucb_ok_mono; eassumption.
Qed.

Lemma MI_mono S S' c : (forall y, In y S -> In y S') -> MI (QmS S) (QkS S) c -> MI (QmS S') (QkS S') c.
Proof. intros H. apply MI_impl; intros x; [apply QmS_mono|apply QkS_mono]; exact H. Qed.

Lemma QmS_user S m k id : QmS S m -> m_cb m = Some k -> cb_inner k = IUser id ->
  m_type m = APP /\ In (m_payload m, id) S.
Proof.
  intros [_ Hq] Hcb Hk. rewrite Hcb in Hq. destruct k as [i|rid mseq ty p i]; cbn [cb_inner] in Hk; subst i.
  - exact Hq.
  - destruct Hq as (_ & -> & -> & _ & Hq). exact Hq.
Qed.

Lemma QS_send S c p r k : user_icb k -> (forall id, k = IUser id -> In (p, id) S) -> QmS S (new_msg c APP p r k).
Proof.
  intros Hk Hin. assert (Hok : ty_ok APP p) by (split; [discriminate|intros H; discriminate H]).
  split; [exact Hok|]. unfold new_msg, mk_cb. cbn [m_cb m_seq m_type m_payload].
  destruct r; destruct k; try destruct Hk; cbn; auto 8.
Qed.

(* for every datagram on the wire whose index is recent, the callbacks registered for its sequence
   number belong to messages it carries *)
Definition CInv (M : mnet) : Prop :=
  forall i dA ks k, In (i, dA) (g_AB (m_g M)) -> g_nA (m_g M) - i < RING - 1 ->
    dget (wire i) (c_pcbs (nA (g_net (m_g M)))) = Some ks -> In k ks ->
    exists m, QmS (m_sent M) m /\ m_cb m = Some k /\ In (wmsg_of m) (dg_msgs dA).

Record SInv (M : mnet) : Prop := {
  s_mi : MI (QmS (m_sent M)) (QkS (m_sent M)) (nA (g_net (m_g M)));
  s_pk : PK (nA (g_net (m_g M)));
  s_c : CInv M;
  s_wire : forall i d, In (i, d) (g_AB (m_g M)) -> Forall frag_ok (dg_msgs d) }.

Lemma wire_next S K c n : AInv S K c n -> seq_succ (c_seq_send c) = wire (n + 1).
Proof. intros [[H1 -> _ _ _ _ _ _] _]. apply seq_succ_index_wire, H1. Qed.

Theorem SInv_step e S K M vj : J S K (m_g M) -> SInv M -> wf3_ev e M vj -> SInv (mstep e M vj).
Proof.
  intros HJ [HN HP HC HWi] Hwf0. pose proof Hwf0 as [Hwf2 Hwf]. destruct vj as [[v l] js].
  unfold wf3_ev, wf3x_ev, msg_ev in *. cbn [fst snd] in *. destruct v as [x|x].
  - (* A moves *)
    destruct Hwf2 as [Hop _]. apply ev_open2_eq in Hop.
    pose proof HJ as [HA HAB _ _ _ _ _ _].
    set (S' := sent_of x ++ m_sent M).
    assert (Hmono : forall y, In y (m_sent M) -> In y S') by (intros; apply in_or_app; right; assumption).
    pose proof (MI_mono _ _ _ Hmono HN) as HN'.
    assert (Hnew : ev_creates (QmS S') e (nA (g_net (m_g M))) x).
    { destruct x; try exact I; [|destruct Hop]. cbn [ev_creates]. destruct (_ >? _); [intros; apply QS_frag|].
      apply QS_send; [exact Hwf|]. intros id ->. subst S'. cbn. left. reflexivity. }
    unfold mstep, CInv. cbn [fst snd gstep m_g m_sent m_st].
    destruct (step e (nA (g_net (m_g M))) x) as [a' o] eqn:E.
    destruct (step_link _ _ (QS_closed S') e _ x a' o Hop Hnew HN' HP E) as (N' & P' & L' & W').
    destruct (step_emit_idx _ _ _ _ _ _ _ _ Hop HA E) as [Hmono_n Hem].
    pose proof (wire_next _ _ _ _ HA) as Hnext.
    pose proof (next_seq_fresh _ _ _ _ HA) as Hfresh.
    fold (next_idx (nA (g_net (m_g M))) a' (g_nA (m_g M))) in *.
    set (n' := next_idx (nA (g_net (m_g M))) a' (g_nA (m_g M))) in *.
    constructor; unfold CInv; cbn [m_g m_sent g_net g_AB g_nA nstep]; rewrite ?E; cbn [nA].
    + exact N'.
    + exact P'.
    + intros i dA ks k Hin Hrec Hg Hk.
      destruct (L' (wire i) ks Hg) as [Hold|[Hs Hall]].
      * apply in_app_or in Hin as [Hin|Hin].
        -- destruct (HC i dA ks k Hin ltac:(lia) Hold Hk) as (m & Q & Cb & Wm). exists m.
           split; [eapply QmS_mono; eassumption|auto].
        -- exfalso. destruct Hem as [Hem|(d0 & Hem & Hn & _)]; rewrite Hem in Hin; cbn in Hin; [exact Hin|].
           destruct Hin as [Hin|[]]. injection Hin as <- _. rewrite Hn, <- Hnext in Hold. exact (Hfresh (HP _ _ Hold)).
      * apply in_app_or in Hin as [Hin|Hin].
        -- exfalso. destruct (HAB _ _ Hin) as [Hi _]. rewrite Hnext in Hs.
           apply (wire_neq_near i (g_nA (m_g M) + 1)); [unfold RING in *; lia|exact Hs].
        -- apply in_map_iff in Hin as (d0 & Hd0 & Hin). injection Hd0 as _ <-. exact (Hall k Hk d0 Hin).
    + intros i d Hin. apply in_app_or in Hin as [Hin|Hin]; [exact (HWi i d Hin)|].
      apply in_map_iff in Hin as (d0 & Hd0 & Hin). injection Hd0 as _ <-.
      apply Forall_forall. intros w Hw. destruct (W' d0 Hin w Hw) as (m & [[_ Hf] _] & <-). exact Hf.
  - (* B moves: nothing of the sender changes *)
    unfold mstep, CInv. cbn [fst snd gstep m_g m_sent m_st].
    destruct (step e (nB (g_net (m_g M))) x) as [b' o] eqn:E.
    constructor; unfold CInv; cbn [m_g m_sent g_net g_AB g_nA nstep]; rewrite ?E; cbn [nA]; assumption.
Qed.

(* what the sender's invariant says of a registered user callback: the datagram carries an APP
   message whose payload is the one passed to send() with that callback id *)
Theorem custody_meaning M i dA ks k id :
  SInv M -> In (i, dA) (g_AB (m_g M)) -> g_nA (m_g M) - i < RING - 1 ->
  dget (wire i) (c_pcbs (nA (g_net (m_g M)))) = Some ks -> In k ks -> cb_user k id ->
  exists w, In w (dg_msgs dA) /\ w_type w = APP /\ In (w_payload w, id) (m_sent M).
Proof.
  intros [_ _ HC _] HAB Hrec Hg Hk Hu. destruct (HC i dA ks k HAB Hrec Hg Hk) as (m & Hq & Hcb & Hm).
  exists (wmsg_of m). split; [exact Hm|]. exact (QmS_user _ _ _ _ Hq Hcb (proj1 (cb_user_inner k id) Hu)).
Qed.

(* the receiver: what B's message window has recorded, and every APP message of an accepted datagram, was handed to the application *)
Record BInv (M : mnet) : Prop := {
  b_W : W 256 (c_bf_msg (nB (g_net (m_g M)))) (fst (m_st M));
  b_rec : recorded (m_st M);
  b_D : forall j p, In (j, (APP, p)) (snd (m_st M)) -> In p (dlvB (g_net (m_g M)));
  b_acc : forall d w, In d (g_accB (m_g M)) -> In w (dg_msgs d) -> w_type w = APP ->
            In (w_payload w) (dlvB (g_net (m_g M))) }.

Theorem BInv_step e M vj :
  (forall i d, In (i, d) (g_AB (m_g M)) -> Forall frag_ok (dg_msgs d)) ->
  BInv M -> wf3_ev e M vj -> BInv (mstep e M vj).
Proof.
  intros HWi [HW Hrec HD Hacc] Hwf0. pose proof Hwf0 as [Hwf2 Hwf]. destruct vj as [[v l] js].
  unfold wf3_ev, wf3x_ev, msg_ev in *. cbn [fst snd] in *. destruct v as [x|x].
  - unfold mstep. cbn [fst snd gstep m_g m_sent m_st].
    destruct (step e (nA (g_net (m_g M))) x) as [a' o] eqn:E.
    constructor; cbn [m_g m_st g_net g_accB nstep]; rewrite ?E; cbn [nB dlvB]; assumption.
  - unfold mstep. cbn [fst snd gstep m_g m_sent m_st].
    destruct (step e (nB (g_net (m_g M))) x) as [b' o] eqn:E. cbn [snd] in Hwf.
    pose proof (step_inbox _ _ _ _ _ E) as Hbox.
    destruct (accepts (nB (g_net (m_g M))) x) as [d|] eqn:Ea.
    + destruct (Hwf d eq_refl) as (Hlen & Hm & Hnr). specialize (Hnr eq_refl).
      destruct Hbox as (c1 & now & orcs & c2 & o2 & K1 & Er & Hr & K2).
      destruct (accepts_opens _ _ _ Ea) as [Hdi Ho].
      assert (Hnr2 : raised o2 = false).
      { destruct (has_hs (dg_msgs d)) eqn:Eh; [apply Hr, Hnr; reflexivity|].
        eapply recv_msgs_noraise; [exact Eh| |exact Er]. destruct (Hwf2 d Hdi Ho) as [Hin _]. exact (HWi l d Hin). }
      injection K1 as B1 I1. injection K2 as B2 I2.
      rewrite <- B1 in HW.
      destruct (recv_msgs_deliver _ _ _ _ _ _ _ _ Hlen HW Hrec Hm Er Hnr2) as (HW' & Hrec' & extra & Hinc & C2 & C3).
      assert (Hnew : (match x with EGetMessages | EDisconnect _ => [] | _ => new_incoming (c_incoming (nB (g_net (m_g M)))) (c_incoming b') end)
                     = map snd extra).
      { assert (Hn : new_incoming (c_incoming (nB (g_net (m_g M)))) (c_incoming b') = map snd extra).
        { unfold new_incoming. rewrite I2, Hinc, I1, skipn_app_exact. reflexivity. }
        destruct x; try discriminate Hdi; exact Hn. }
      constructor; cbn [m_g m_st g_net g_accB nstep]; rewrite ?E; cbn [nB dlvB]; rewrite ?Hnew.
      * rewrite B2. exact HW'.
      * exact Hrec'.
      * intros j p Hin. apply in_or_app. destruct (C2 j (APP, p) Hin) as [H|(w & Hw & Hc & Hd)]; [left; exact (HD j p H)|right].
        unfold content in Hc. injection Hc as Ht Hp. rewrite <- Hp. exact (Hd Ht).
      * intros d0 w [<-|Hd0] Hw Hty; apply in_or_app.
        -- destruct (C3 w Hw Hty) as [H|(j & H)]; [right; exact H|left].
           unfold content in H. rewrite Hty in H. exact (HD j _ H).
        -- left. exact (Hacc d0 w Hd0 Hw Hty).
    + constructor; cbn [m_g m_st g_net g_accB nstep]; rewrite ?E; cbn [nB dlvB].
      * rewrite (proj1 Hbox). exact HW.
      * exact Hrec.
      * intros j p Hin. apply in_or_app. left. exact (HD j p Hin).
      * intros d0 w Hd0 Hw Hty. apply in_or_app. left. exact (Hacc d0 w Hd0 Hw Hty).
Qed.

(* the joint invariant at message level (S, K as in AckP.AInv): the datagram-level one, A's fragment contexts incomplete,
   the sender's custody (SInv) and the receiver's delivery record (BInv) *)
Record J3 (S K : Z) (M : mnet) : Prop := {
  j3_J : J S K (m_g M);
  j3_inc : Inc (nA (g_net (m_g M)));
  j3_S : SInv M;
  j3_B : BInv M }.

Lemma J3_mnet0 S : 0 < S -> S <= 256 -> TICKS < (RING - 1) * S -> J3 S 0 mnet0.
Proof.
  intros H1 H2 H3. constructor.
  - apply J_gnet0; assumption.
  - constructor.
  - constructor; cbn.
    + constructor; constructor.
    + intros s ks H. discriminate H.
    + intros i dA ks k [].
    + intros i d [].
  - constructor; cbn.
    + reflexivity.
    + intros j [].
    + intros j p [].
    + intros d w [].
Qed.

Theorem J3_step e S K M vj : 0 <= e_max_payload e -> J3 S K M -> wf3_ev e M vj -> J3 S K (mstep e M vj).
Proof.
  intros He [HJ HI HS HB] Hwf. constructor.
  - destruct Hwf as [Hwf2 _]. exact (J_step e S K (m_g M) (fst vj) HJ Hwf2).
  - apply gstep_Inc; assumption.
  - eapply SInv_step; eassumption.
  - eapply BInv_step; [apply HS|eassumption|eassumption].
Qed.

Theorem J3_run e S K vs : forall M, 0 <= e_max_payload e -> J3 S K M -> wf3_run e M vs -> J3 S K (mrun e M vs).
Proof.
  induction vs as [|v r IH]; intros M He HJ Hwf; cbn [mrun fold_left]; [exact HJ|].
  destruct Hwf as [W1 W2]. apply IH; [exact He|apply J3_step; assumption|exact W2].
Qed.

Lemma wf3x_run_split b e vs : forall M, wf3x_run b e M vs <-> wf2_run e (m_g M) (map fst vs) /\ msg_run b e M vs.
Proof.
  induction vs as [|v r IH]; intros M; cbn [wf3x_run wf2_run msg_run map]; [tauto|].
  rewrite IH. unfold wf3x_ev. cbn [mstep m_g]. tauto.
Qed.

Lemma wf3_run_app e vs : forall M ws, wf3_run e M (vs ++ ws) <-> wf3_run e M vs /\ wf3_run e (mrun e M vs) ws.
Proof.
  unfold wf3_run. induction vs as [|v r IH]; intros M ws; cbn [app wf3x_run mrun fold_left]; [tauto|].
  rewrite IH. unfold mrun. tauto.
Qed.

Lemma J3_with_B S K M b :
  c_bf_pkt b = c_bf_pkt (nB (g_net (m_g M))) -> c_bf_msg b = c_bf_msg (nB (g_net (m_g M))) ->
  J3 S K M -> J3 S K (with_B M b).
Proof.
  intros E1 E2 [[HA HAB HND HABw HB Hacc HBA HBAw] HI [HN HP HC HWi] [HW Hrec HD Hacc2]].
  constructor; [constructor|exact HI|constructor|constructor]; cbn; try assumption.
  - unfold GI in *. rewrite E1. exact HB.
  - rewrite E2. exact HW.
Qed.

Lemma J3_with_B_status S K M st : J3 S K M -> J3 S K (with_B M ((nB (g_net (m_g M))) <| c_status := st |>)).
Proof. apply J3_with_B; reflexivity. Qed.

Lemma pre_recv_pcbs c x c0 d : pre_recv c x = Some (c0, d) -> c_pcbs c0 = c_pcbs c.
Proof.
  intros H. destruct (pre_recv_facts _ _ _ _ H) as (_ & _ & _ & now & orcs & [[_ ->]|[_ ->]]); [reflexivity|].
  exact (wr_keeps W_update c_pcbs (fun _ _ => eq_refl) (client_update_wr (surjective_pairing _))).
Qed.

Definition PFInv (e : env) (M : mnet) : Prop := forall id, FU (nA (g_net (m_g M))) id -> big_id e (m_sent M) id.

Lemma PFInv_mnet0 e : PFInv e mnet0.
Proof. intros id (fid & fs & H & _). discriminate H. Qed.

Lemma big_id_mono e S S' id : (forall y, In y S -> In y S') -> big_id e S id -> big_id e S' id.
Proof. intros H (p & A & B). exists p. auto. Qed.

Theorem PFInv_step e M vj : PFInv e M -> PFInv e (mstep e M vj).
Proof.
  intros HP. destruct vj as [[v l] js]. destruct v as [x|x]; unfold mstep, PFInv; cbn [fst snd gstep m_g m_sent m_st].
  - destruct (step e (nA (g_net (m_g M))) x) as [a' o] eqn:E. cbn [m_g m_sent g_net nstep]. rewrite ?E. cbn [nA].
    intros id H. destruct (step_FU _ _ _ _ _ E id H) as [H0|(p & r & -> & Hl)].
    + eapply big_id_mono; [|exact (HP id H0)]. intros y Hy. apply in_or_app. right. exact Hy.
    + exists p. split; [cbn; left; reflexivity|exact Hl].
  - destruct (step e (nB (g_net (m_g M))) x) as [b' o] eqn:E. cbn [m_g m_sent g_net nstep]. rewrite ?E. cbn [nA]. exact HP.
Qed.

Theorem PFInv_run e vs : forall M, PFInv e M -> PFInv e (mrun e M vs).
Proof.
  induction vs as [|v r IH]; intros M H; cbn [mrun fold_left]; [exact H|]. apply IH. apply PFInv_step. exact H.
Qed.

(* the payload passed to send() with callback id travelled as an APP message of a datagram of A that B accepted, and
   is in what B's application was handed *)
Definition delivered_as (M : mnet) (id : Z) : Prop :=
  exists p i dA w,
    In (p, id) (m_sent M) /\ In p (dlvB (g_net (m_g M))) /\
    In (i, dA) (g_AB (m_g M)) /\ In dA (wAB (g_net (m_g M))) /\ In dA (g_accB (m_g M)) /\
    In w (dg_msgs dA) /\ w_type w = APP /\ w_payload w = p.

Theorem success_delivered_step e S K M x l js a' o id :
  J3 S K M -> PFInv e M -> wf3_ev e M ((NA x, l), js) ->
  step e (nA (g_net (m_g M))) x = (a', o) -> In (OCallback id true) o ->
  big_id e (m_sent M) id \/ delivered_as M id.
Proof.
  intros [HJ HI [_ _ HC _] [_ _ _ Hacc]] HPF [Hwf2 _] E Hin. cbn [fst] in Hwf2.
  destruct (step_true_src _ _ _ _ _ _ HI E Hin) as (a0 & d & Hpre & Hop & [(s & t & ks & k & Hpend & Hack & Hg & Hk & Hf)|HF]);
    [right|left; exact (HPF id HF)].
  destruct (acked_step _ _ _ _ _ _ _ HJ Hwf2 Hpre Hop s t Hpend Hack) as (i & dA & Hs & Hi & Hrec & _ & HAB & _ & HW & HaccB).
  rewrite (pre_recv_pcbs _ _ _ _ Hpre), Hs in Hg.
  destruct (HC i dA ks k HAB Hrec Hg Hk) as (m & Hq & Hcb & Hm).
  destruct (QmS_user _ _ _ _ Hq Hcb Hf) as [Hu1 Hu2].
  exists (m_payload m), i, dA, (wmsg_of m). repeat split; auto.
  exact (Hacc dA (wmsg_of m) HaccB Hm Hu1).
Qed.

Theorem success_means_delivered e S K M vs x l js a' o id :
  0 <= e_max_payload e -> J3 S K M -> PFInv e M -> wf3_run e M (vs ++ [((NA x, l), js)]) ->
  let M' := mrun e M vs in
  step e (nA (g_net (m_g M'))) x = (a', o) -> In (OCallback id true) o ->
  big_id e (m_sent M') id \/ delivered_as M' id.
Proof.
  intros He HJ HPF Hwf M' E Hin. apply wf3_run_app in Hwf as [W1 [W2 _]].
  eapply success_delivered_step; [eapply J3_run; eassumption|apply PFInv_run; exact HPF|exact W2|exact E|exact Hin].
Qed.

(* callback ids not reused: THE payload passed with id in an unfragmented send has been handed to B's
   application *)
Theorem success_means_delivered_unique e S K M vs x l js a' o id p :
  0 <= e_max_payload e -> J3 S K M -> PFInv e M -> wf3_run e M (vs ++ [((NA x, l), js)]) ->
  let M' := mrun e M vs in
  NoDup (map snd (m_sent M')) -> In (p, id) (m_sent M') -> len p <= e_max_payload e ->
  step e (nA (g_net (m_g M'))) x = (a', o) -> In (OCallback id true) o ->
  In p (dlvB (g_net (m_g M'))).
Proof.
  intros He HJ HPF Hwf M' Hnd Hp Hl E Hin.
  destruct (success_means_delivered e S K M vs x l js a' o id He HJ HPF Hwf E Hin) as [(p0 & H1 & H2)|(p0 & _ & _ & _ & H1 & H2 & _)];
    fold M' in H1, H2.
  - exfalso. rewrite (NoDup_snd_inj _ _ _ _ Hnd H1 Hp) in Hl. lia.
  - rewrite (NoDup_snd_inj _ _ _ _ Hnd H1 Hp). exact H2.
Qed.
