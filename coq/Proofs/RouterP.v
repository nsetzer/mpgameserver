(* Model/Router.v: the text built by patternToRegex is the printed syntax tree (and when it is a
   ValueError); the backtracking matcher on that syntax tree computes the documented rule [spec],
   which is also the relation [matches]; route tables keep registration order, first match, 404. *)
From Coq Require Import Lia.
From Model Require Import Base PathJoin Router.
From Proofs Require Import ListP PathJoinP.
Open Scope Z_scope.

Definition txt_piece (p : piece) : str :=
  match p with
  | PLit l => T_SL ++ re_escape l
  | POne _ => T_ONE
  | POpt _ => T_OPT
  | PStar _ => T_STAR
  | PPlus _ => T_PLUS
  end.

(* a literal piece that comes out of pattern.split("/") : not empty, no '/' *)
Definition piece_ok (p : piece) : Prop :=
  match p with PLit l => l <> [] /\ slash_free l | _ => True end.

Lemma names_app a b : names (a ++ b) = names a ++ names b.
Proof. induction a as [|[] a IH]; cbn; congruence. Qed.

Lemma ptr_loop_spec parts : forall final re toks,
  ptr_loop parts final re toks =
  if ((if final then 1 else 0) + nwild (map classify parts) <=? 1)%nat
  then Ok (re ++ flat_map txt_piece (map classify parts), toks ++ names (map classify parts))
  else Err EValue.
Proof.
  induction parts as [|p ps IH]; intros final re toks; cbn [ptr_loop map flat_map nwild names].
  - destruct final; rewrite !app_nil_r; reflexivity.
  - (* a wildcard after [final] is refused by computation; otherwise the loop goes on *)
    destruct (classify p), final; cbn [is_wild txt_piece names]; try reflexivity;
      rewrite IH, <- !app_assoc; reflexivity.
Qed.

Lemma pr_lit l : slash_free l -> flat_map pr_node (map (fun c => NAtom (AChar c)) l) = re_escape l.
Proof.
  induction l as [|c l IH]; intro H; [reflexivity|]. apply notin_cons in H as [Hc Hl].
  cbn [map flat_map re_escape pr_node pr_atom]. unfold pr_char.
  rewrite (proj2 (Z.eqb_neq c SL) Hc), (IH Hl). reflexivity.
Qed.

Lemma pr_ast_pieces ps : Forall piece_ok ps -> forall i,
  flat_map pr_node (ast_pieces i ps) = flat_map txt_piece ps.
Proof.
  induction 1 as [|p ps Hp _ IH]; intro i; [reflexivity|].
  destruct p; cbn [ast_pieces flat_map txt_piece]; rewrite ?flat_map_app, ?pr_lit, IH by apply Hp;
    reflexivity.
Qed.

(* the test  re_str != "^\/"  of patternToRegex always holds: with no piece the text is "^",
   and the text of a piece is longer than "\/" *)
Lemma re_not_bare ps : Forall piece_ok ps ->
  str_eqb ([94] ++ flat_map txt_piece ps) [94;92;47] = false.
Proof.
  intros [|[[|c l]| | | |] ps' Hp _]; try reflexivity; [destruct Hp; congruence|].
  cbn [flat_map txt_piece re_escape]. destruct (special c); reflexivity.
Qed.

Lemma classify_ok part : part <> [] -> slash_free part -> piece_ok (classify part).
Proof.
  intros Hne Hsf. destruct part as [|c rest]; [congruence|]. unfold classify.
  destruct (c =? COLON); [|split; assumption].
  destruct (_ =? QM); [exact I|]. destruct (_ =? STAR); [exact I|]. destruct (_ =? PLUS); exact I.
Qed.

Lemma parse_pattern_ok pat : Forall piece_ok (parse_pattern pat).
Proof.
  apply Forall_forall. intros p Hin.
  apply in_map_iff in Hin as [part [<- Hin]]. apply filter_In in Hin as [Hin Hne].
  apply classify_ok; [intros ->; discriminate|].
  exact (proj1 (Forall_forall _ _) (split_sl_slash_free pat) _ Hin).
Qed.

Lemma pattern_to_regex_spec pat :
  pattern_to_regex pat =
  if (nwild (parse_pattern pat) <=? 1)%nat
  then Ok (pr_regex (ast_of_pieces (parse_pattern pat)), names (parse_pattern pat))
  else Err EValue.
Proof.
  unfold pattern_to_regex. rewrite ptr_loop_spec. fold (parse_pattern pat). cbn [Nat.add].
  destruct (nwild (parse_pattern pat) <=? 1)%nat; [|reflexivity].
  pose proof (parse_pattern_ok pat) as Hok. rewrite (re_not_bare _ Hok).
  unfold pr_regex, ast_of_pieces. rewrite flat_map_app, (pr_ast_pieces _ Hok), <- !app_assoc. reflexivity.
Qed.

Lemma compile_route_spec pat :
  compile_route pat =
  if (nwild (parse_pattern pat) <=? 1)%nat
  then Ok (ast_of_pieces (parse_pattern pat), names (parse_pattern pat))
  else Err EValue.
Proof.
  unfold compile_route. rewrite pattern_to_regex_spec. destruct (_ <=? _)%nat; reflexivity.
Qed.

Lemma render_cons g segs : render (g :: segs) = SL :: g ++ render segs.
Proof. reflexivity. Qed.

Lemma join_render g segs : join_sl (g :: segs) = g ++ render segs.
Proof.
  revert g. induction segs as [|h segs IH]; intro g; [symmetry; apply app_nil_r|].
  change (join_sl (g :: h :: segs)) with (g ++ SL :: join_sl (h :: segs)). rewrite IH. reflexivity.
Qed.

Lemma render_nil_iff segs : render segs = [] <-> segs = [].
Proof. destruct segs; cbn; split; congruence. Qed.

Lemma render_split t : render (split_sl t) = SL :: t.
Proof.
  induction t as [|c t IH]; [reflexivity|].
  cbn [split_sl]. destruct (Z.eqb_spec c SL) as [->|_].
  - rewrite render_cons, IH. reflexivity.
  - destruct (split_sl t) as [|h tl]; [discriminate|]. injection IH as <-. reflexivity.
Qed.

Lemma k_end_nonl s cp : no_nl s -> k_end s cp = if is_empty s then Some cp else None.
Proof.
  destruct s as [|x [|y t]]; try reflexivity. intro H. apply notin_cons in H as [Hx _].
  cbn. rewrite (proj2 (Z.eqb_neq x NL) Hx). reflexivity.
Qed.

Lemma m_char_neq c k x t cp : x <> c -> m_char c k (x :: t) cp = None.
Proof. intro H. cbn. rewrite (proj2 (Z.eqb_neq x c) H). reflexivity. Qed.

Lemma m_slash l k g segs cp :
  m_atoms (AChar SL :: l) k (render (g :: segs)) cp = m_atoms l k (g ++ render segs) cp.
Proof. reflexivity. Qed.

Lemma m_atoms_nil k s cp : m_atoms [] k s cp = k s cp.
Proof. reflexivity. Qed.

(* a class that accepts the whole rest of the string: the longest run is tried first *)
Lemma rep_all c k s : forall acc r,
  Forall (fun x => cls_ok c x = true) s -> k (rev acc ++ s) [] = Some r -> rep c k acc s = Some r.
Proof.
  induction s as [|x s IH]; intros acc r HF Hk.
  - cbn. rewrite app_nil_r in Hk. exact Hk.
  - apply Forall_cons_iff in HF as [Hx HF]. cbn [rep]. rewrite Hx, (IH (x :: acc) r); auto.
    cbn [rev]. rewrite <- app_assoc. exact Hk.
Qed.

(* [^\/]* in front of a continuation that cannot go on in the middle of a segment: it takes
   exactly the segment *)
Lemma rep_seg k g segs : forall acc,
  slash_free g -> no_nl (g ++ render segs) ->
  (forall v x t, x <> SL -> no_nl (x :: t) -> k v (x :: t) = None) ->
  rep CNotSlash k acc (g ++ render segs) = k (rev acc ++ g) (render segs).
Proof.
  induction g as [|x g IH]; intros acc Hsf Hnl Hk.
  - rewrite app_nil_r. destruct segs; reflexivity.
  - apply notin_cons in Hsf as [Hx Hg]. cbn [app rep cls_ok].
    rewrite (proj2 (Z.eqb_neq x SL) Hx), (Hk _ x _ Hx Hnl). cbn [negb].
    apply notin_cons in Hnl as [_ Hnl]. rewrite IH by assumption.
    cbn [rev]. rewrite <- app_assoc. destruct (k _ _); reflexivity.
Qed.

(* continuations that can only go on with a '/' or stop at the end of the path: they fail in the
   middle of a segment *)
Definition at_boundary (f : K) : Prop :=
  forall x t cp, x <> SL -> no_nl (x :: t) -> f (x :: t) cp = None.

Lemma at_boundary_tail : at_boundary (m_nodes tail_nodes k_end).
Proof.
  intros x t cp Hx H. cbn [m_nodes tail_nodes m_atoms].
  rewrite m_char_neq by exact Hx. apply (k_end_nonl _ _ H).
Qed.

Lemma at_boundary_ast ps : forall i, at_boundary (m_nodes (ast_pieces i ps ++ tail_nodes) k_end).
Proof.
  induction ps as [|p ps IH]; intro i; [exact at_boundary_tail|].
  intros x t cp Hx H.
  destruct p; cbn [ast_pieces app m_nodes m_atoms]; rewrite !m_char_neq by exact Hx;
    try reflexivity; apply IH; assumption.
Qed.

Lemma cap_seg i min1 k g segs cp :
  slash_free g -> no_nl (g ++ render segs) -> at_boundary k ->
  m_atoms [ACap i CNotSlash min1] k (g ++ render segs) cp =
  if min1 && is_empty g then None else k (render segs) ((i, g) :: cp).
Proof.
  intros Hg Hnl Hk. cbn [m_atoms]. rewrite rep_seg; [reflexivity|assumption..|].
  intros v x t Hx Ht. destruct (_ && _); [reflexivity | apply Hk; assumption].
Qed.

Lemma cap_all i min1 k s cp r : no_nl s -> k [] ((i, s) :: cp) = Some r ->
  m_atoms [ACap i CAny min1] k s cp = if min1 && is_empty s then None else Some r.
Proof.
  intros Hnl Hk. cbn [m_atoms]. destruct s as [|c s]; [destruct min1; [reflexivity|exact Hk]|].
  rewrite andb_false_r. apply rep_all; cbn [rev app andb]; [|rewrite andb_false_r; exact Hk].
  apply Forall_forall. intros x Hx. apply negb_true_iff, Z.eqb_neq. intros ->. exact (Hnl Hx).
Qed.

Lemma m_lit l : forall g r k segs cp,
  slash_free g -> slash_free l -> no_nl (g ++ render segs) -> at_boundary (m_nodes r k) ->
  m_nodes (map (fun c => NAtom (AChar c)) l ++ r) k (g ++ render segs) cp =
  if str_eqb g l then m_nodes r k (render segs) cp else None.
Proof.
  induction l as [|y l IH]; intros g r k segs cp Hg Hl Hnl Hk.
  - destruct g as [|x g]; [reflexivity|]. apply notin_cons in Hg as [Hx _]. exact (Hk x _ cp Hx Hnl).
  - apply notin_cons in Hl as [Hy Hl]. cbn [map app m_nodes m_atoms]. destruct g as [|x g].
    + destruct segs; [reflexivity|]. apply m_char_neq. congruence.
    + apply notin_cons in Hg as [_ Hg]. apply notin_cons in Hnl as [_ Hnl]. cbn [app str_eqb m_char].
      destruct (x =? y); [apply IH; assumption | reflexivity].
Qed.

(* what may follow the last piece: nothing, or one trailing slash *)
Definition slash_only (segs : list str) : bool :=
  match segs with [] => true | [e] => is_empty e | _ => false end.

Lemma spec_nil segs : spec [] segs = if slash_only segs then Some [] else None.
Proof. destruct segs as [|e [|f t]]; reflexivity. Qed.

Lemma spec_opt n ps g segs :
  spec (POpt n :: ps) (g :: segs) = if slash_only segs then Some [Some g] else None.
Proof. destruct segs as [|e [|f t]]; reflexivity. Qed.

Lemma spec_plus n ps segs : spec (PPlus n :: ps) segs =
  if is_empty (join_sl segs) then None else Some [Some (join_sl segs)].
Proof. destruct segs as [|g [|h t]]; try reflexivity; destruct g; reflexivity. Qed.

Lemma tail_spec segs cp : no_nl (render segs) ->
  m_nodes tail_nodes k_end (render segs) cp = if slash_only segs then Some cp else None.
Proof.
  destruct segs as [|e segs]; [reflexivity|]. intro H.
  cbn [m_nodes tail_nodes m_atoms]. rewrite render_cons at 1. cbn [m_char]. rewrite Z.eqb_refl.
  rewrite !k_end_nonl; [|exact H|apply notin_cons in H; apply H].
  destruct e, segs; reflexivity.
Qed.

(* capture assignments made by a successful match, group numbers from i upwards *)
Fixpoint bind_caps (i : nat) (vals : list (option str)) (cp : caps) : caps :=
  match vals with
  | [] => cp
  | Some v :: vs => bind_caps (S i) vs ((i, v) :: cp)
  | None :: vs => bind_caps (S i) vs cp
  end.

Definition spec_caps (i : nat) (o : option (list (option str))) (cp : caps) : option caps :=
  match o with Some vals => Some (bind_caps i vals cp) | None => None end.

Lemma wf_pieces_tl p ps : wf_pieces (p :: ps) = true -> wf_pieces ps = true.
Proof. destruct ps; [reflexivity|]. cbn. intro H. apply andb_true_iff in H. apply H. Qed.

Lemma wf_pieces_wild_last p ps : wf_pieces (p :: ps) = true -> is_wild p = true -> ps = [].
Proof. destruct ps; [reflexivity|]. cbn. intros H W. rewrite W in H. discriminate. Qed.

Lemma match_spec ps : wf_pieces ps = true -> Forall piece_ok ps ->
  forall i segs cp, Forall slash_free segs -> no_nl (render segs) ->
  m_nodes (ast_pieces i ps ++ tail_nodes) k_end (render segs) cp = spec_caps i (spec ps segs) cp.
Proof.
  induction ps as [|p ps IH]; intros Hwf Hok i segs cp Hsf Hnl.
  - rewrite spec_nil, (tail_spec _ _ Hnl). destruct (slash_only segs); reflexivity.
  - apply Forall_cons_iff in Hok as [Hp Hok]. specialize (IH (wf_pieces_tl _ _ Hwf) Hok).
    destruct segs as [|g segs].
    { (* the empty path: a piece that starts with '/' fails at once; ? and * may be skipped, are
         last, and leave the tail *)
      destruct p; try reflexivity; rewrite (wf_pieces_wild_last _ _ Hwf eq_refl); reflexivity. }
    apply Forall_cons_iff in Hsf as [Hg Hsf].
    assert (Hnl1 : no_nl (g ++ render segs)) by (apply notin_cons in Hnl; apply Hnl).
    assert (Hnl2 : no_nl (render segs)) by (apply notin_app in Hnl1; apply Hnl1).
    destruct p as [l|n|n|n|n].
    + cbn [ast_pieces app spec m_nodes]. rewrite <- app_assoc, m_slash, m_atoms_nil.
      rewrite m_lit by (auto using at_boundary_ast; apply Hp).
      destruct (str_eqb g l); [apply IH; assumption | reflexivity].
    + cbn [ast_pieces app spec m_nodes]. rewrite m_slash, m_atoms_nil.
      rewrite cap_seg by auto using at_boundary_ast. cbn [andb]. destruct (is_empty g); [reflexivity|].
      rewrite IH by assumption. destruct (spec ps segs); reflexivity.
    + (* the optional group tries '/' with the capture, then '/' alone, then nothing.  The capture
         takes all of g (cap_seg) and the tail must accept what follows; if it does not, the two
         fallbacks put the same tail in front of g ++ ... and of the whole path, and it refuses
         both *)
      rewrite (wf_pieces_wild_last _ _ Hwf eq_refl) in *. rewrite spec_opt.
      cbn [ast_pieces app m_nodes]. rewrite !m_slash, !m_atoms_nil.
      rewrite cap_seg by auto using at_boundary_tail. cbn [andb]. rewrite tail_spec by exact Hnl2.
      destruct (slash_only segs) eqn:T; [reflexivity|].
      rewrite (tail_spec (g :: segs)) by exact Hnl.
      destruct segs as [|e segs]; [discriminate|]. destruct g as [|x g]; cbn [app].
      * rewrite tail_spec, T by exact Hnl2. reflexivity.
      * apply notin_cons in Hg as [Hx _]. rewrite at_boundary_tail by assumption. reflexivity.
    + rewrite (wf_pieces_wild_last _ _ Hwf eq_refl). cbn [ast_pieces app spec m_nodes].
      rewrite m_slash, join_render.
      rewrite (cap_all _ _ _ _ _ _ Hnl1 eq_refl). reflexivity.
    + rewrite (wf_pieces_wild_last _ _ Hwf eq_refl), spec_plus, join_render.
      cbn [ast_pieces app m_nodes]. rewrite m_slash, m_atoms_nil.
      rewrite (cap_all _ _ _ _ _ _ Hnl1 eq_refl). cbn [andb]. destruct (is_empty _); reflexivity.
Qed.

Lemma matches_spec ps segs vals : matches ps segs vals -> spec ps segs = Some vals.
Proof.
  induction 1; cbn [spec]; try reflexivity.
  - rewrite str_eqb_refl. exact IHmatches.
  - destruct g; [congruence|]. cbn [is_empty]. rewrite IHmatches. reflexivity.
  - destruct segs; [congruence|reflexivity].
  - destruct segs as [|[|] [|]]; try reflexivity; congruence.
Qed.

Lemma spec_matches ps : wf_pieces ps = true -> forall segs vals,
  spec ps segs = Some vals -> matches ps segs vals.
Proof.
  induction ps as [|p ps IH]; intros Hwf segs vals H.
  - destruct segs as [|[|] [|]]; inversion H; constructor.
  - specialize (IH (wf_pieces_tl _ _ Hwf)).
    destruct p as [l|n|n|n|n]; try rewrite (wf_pieces_wild_last _ _ Hwf eq_refl) in *; cbn [spec] in H.
    + destruct segs as [|g segs]; [discriminate|].
      destruct (str_eqb_spec g l) as [->|]; [|discriminate]. constructor. apply IH, H.
    + destruct segs as [|[|c g] segs]; try discriminate. cbn [is_empty] in H.
      destruct (spec ps segs) eqn:E; [|discriminate]. injection H as <-.
      constructor; [discriminate | apply IH, E].
    + destruct segs as [|g [|[|] [|]]]; inversion H; constructor.
    + destruct segs; inversion H; constructor. discriminate.
    + destruct segs as [|[|] [|]]; inversion H; constructor; discriminate.
Qed.

Lemma matches_length ps segs vals : matches ps segs vals -> length vals = length (names ps).
Proof. induction 1; cbn; congruence. Qed.

Definition caps_lt (i : nat) (cp : caps) : Prop := Forall (fun p => (fst p < i)%nat) cp.

Lemma lookup_lt i cp j : caps_lt i cp -> (i <= j)%nat -> lookup j cp = None.
Proof.
  induction 1 as [|[k v] cp Hk _ IH]; intro Hj; [reflexivity|]. cbn in *.
  rewrite (proj2 (Nat.eqb_neq j k)) by lia. exact (IH Hj).
Qed.

Lemma lookup_bind_lt vals : forall i cp j, (j < i)%nat -> lookup j (bind_caps i vals cp) = lookup j cp.
Proof.
  induction vals as [|[v|] vs IH]; intros i cp j H; cbn [bind_caps]; [reflexivity|rewrite IH by lia..].
  - cbn. rewrite (proj2 (Nat.eqb_neq j i)) by lia. reflexivity.
  - reflexivity.
Qed.

Lemma groups_bind vals : forall i cp, caps_lt i cp ->
  map (fun j => lookup j (bind_caps i vals cp)) (seq i (length vals)) = vals.
Proof.
  induction vals as [|v vs IH]; intros i cp H; [reflexivity|].
  assert (H' : caps_lt (S i) cp) by (eapply Forall_impl; [|exact H]; cbn; lia).
  cbn [length seq map]. f_equal; destruct v as [v|]; cbn [bind_caps].
  - rewrite lookup_bind_lt by lia. cbn. rewrite Nat.eqb_refl. reflexivity.
  - rewrite lookup_bind_lt by lia. apply (lookup_lt i); [exact H | lia].
  - apply IH. constructor; [cbn; lia | exact H'].
  - apply IH, H'.
Qed.

Lemma ncaps_cons n r : ncaps (n :: r) = (ncaps_node n + ncaps r)%nat.
Proof. reflexivity. Qed.

Lemma ncaps_lit l r : ncaps (map (fun c => NAtom (AChar c)) l ++ r) = ncaps r.
Proof. induction l as [|c l IH]; [reflexivity | exact IH]. Qed.

Lemma ncaps_ast ps : forall i, ncaps (ast_pieces i ps ++ tail_nodes) = length (names ps).
Proof.
  induction ps as [|p ps IH]; intro i; [reflexivity|].
  destruct p; cbn [ast_pieces names app length]; rewrite ?ncaps_cons, <- ?app_assoc, ?ncaps_lit, IH;
    reflexivity.
Qed.

Lemma re_groups_render ps segs :
  wf_pieces ps = true -> Forall piece_ok ps -> Forall slash_free segs -> no_nl (render segs) ->
  re_groups (ast_of_pieces ps) (render segs) = spec ps segs.
Proof.
  intros Hwf Hok Hsf Hnl. unfold re_groups, re_match, ast_of_pieces.
  rewrite match_spec by assumption.
  destruct (spec ps segs) as [vals|] eqn:E; [|reflexivity]. cbn [spec_caps option_map].
  rewrite ncaps_ast, <- (matches_length _ _ _ (spec_matches ps Hwf _ _ E)). unfold groups.
  rewrite groups_bind by constructor. reflexivity.
Qed.

(* the regular expression and the documented rule agree, bindings included *)
Lemma re_groups_spec ps path : wf_pieces ps = true -> Forall piece_ok ps -> no_nl path ->
  re_groups (ast_of_pieces ps) path = spec_path ps path.
Proof.
  intros Hwf Hok Hnl. unfold spec_path, path_segs. destruct path as [|c t].
  - apply (re_groups_render ps []); auto.
  - destruct (Z.eqb_spec c SL) as [->|Hc].
    + rewrite <- render_split in *. apply re_groups_render; auto using split_sl_slash_free.
    + unfold re_groups, re_match, ast_of_pieces. rewrite at_boundary_ast by assumption. reflexivity.
Qed.

Lemma wf_nwild ps : wf_pieces ps = true -> (nwild ps <= 1)%nat.
Proof.
  induction ps as [|p [|q ps] IH]; cbn [nwild wf_pieces] in *; [lia|destruct (is_wild p); lia|].
  intro H. apply andb_true_iff in H as [H1 H2]. destruct (is_wild p); [discriminate|].
  specialize (IH H2). lia.
Qed.

Lemma compile_route_wf pat : wf_pat pat = true ->
  compile_route pat = Ok (ast_of_pieces (parse_pattern pat), names (parse_pattern pat)).
Proof.
  intro H. rewrite compile_route_spec, (proj2 (Nat.leb_le _ _) (wf_nwild _ H)). reflexivity.
Qed.

Lemma route_match_spec pat path : wf_pat pat = true -> no_nl path ->
  route_match pat path = spec_route_match pat path.
Proof.
  intros Hwf Hnl. unfold route_match, spec_route_match.
  rewrite compile_route_wf, re_groups_spec by auto using parse_pattern_ok. reflexivity.
Qed.

Lemma compile_route_error pat :
  compile_route pat = Err EValue <-> (2 <= nwild (parse_pattern pat))%nat.
Proof.
  rewrite compile_route_spec.
  destruct (Nat.leb_spec (nwild (parse_pattern pat)) 1); split; (discriminate || lia || reflexivity).
Qed.

Lemma compile_route_total pat : (exists r, compile_route pat = Ok r) \/ compile_route pat = Err EValue.
Proof.
  rewrite compile_route_spec. destruct (_ <=? _)%nat; [left; eexists|right]; reflexivity.
Qed.

Definition entry_of (r : route) : entry :=
  {| e_re := ast_of_pieces (parse_pattern (r_pattern r));
     e_toks := names (parse_pattern (r_pattern r));
     e_id := r_id r |}.
Definition entries_of (rs : list route) (m : str) : list entry :=
  map entry_of (filter (fun r => str_eqb m (r_method r)) rs).
Definition tbl_ok (t : table) (rs : list route) : Prop :=
  forall m, tbl_get t m = if supported_method m then Some (entries_of rs m) else None.

Lemma tbl_get_append t m e m' :
  tbl_get (tbl_append t m e) m' =
  if str_eqb m' m then option_map (fun es => es ++ [e]) (tbl_get t m') else tbl_get t m'.
Proof.
  induction t as [|[k es] t IH]; cbn [tbl_append tbl_get]; [destruct (str_eqb m' m); reflexivity|].
  destruct (str_eqb_spec m k) as [->|Hmk]; cbn [tbl_get].
  - destruct (str_eqb m' k); reflexivity.
  - destruct (str_eqb_spec m' k) as [->|]; [|exact IH].
    destruct (str_eqb_spec k m); [congruence|reflexivity].
Qed.

Lemma empty_table_ok : tbl_ok empty_table [].
Proof.
  intro m. unfold empty_table, supported_method. cbn [tbl_get].
  repeat (destruct (str_eqb m _); [reflexivity|]). reflexivity.
Qed.

Definition routes_ok (rs : list route) : Prop :=
  forall r, In r rs -> wf_pat (r_pattern r) = true /\ supported_method (r_method r) = true.

Lemma routes_ok_tl r rs : routes_ok (r :: rs) -> routes_ok rs.
Proof. intros H r' Hin. apply H. right. exact Hin. Qed.

Lemma register_ok rs : forall t rs0, tbl_ok t rs0 -> routes_ok rs ->
  exists t', register_routes t rs = (t', Ok tt) /\ tbl_ok t' (rs0 ++ rs).
Proof.
  induction rs as [|r rs IH]; intros t rs0 Ht Hrs.
  - exists t. rewrite app_nil_r. split; [reflexivity|exact Ht].
  - destruct (Hrs r (or_introl eq_refl)) as [Hwf Hm].
    cbn [register_routes]. rewrite (compile_route_wf _ Hwf), (Ht (r_method r)), Hm.
    replace (rs0 ++ r :: rs) with ((rs0 ++ [r]) ++ rs) by (rewrite <- app_assoc; reflexivity).
    apply IH; [|exact (routes_ok_tl _ _ Hrs)].
    intro m. rewrite tbl_get_append, (Ht m). unfold entries_of. rewrite filter_app, map_app. cbn [filter].
    destruct (str_eqb_spec m (r_method r)) as [->|_]; [rewrite Hm; reflexivity|].
    cbn [map]. rewrite app_nil_r. reflexivity.
Qed.

Lemma entry_match_spec r path : wf_pat (r_pattern r) = true -> no_nl path ->
  entry_match (entry_of r) path = option_map mkdict (spec_route_match (r_pattern r) path).
Proof.
  intros Hwf Hnl. unfold entry_match, spec_route_match. cbn [entry_of e_re e_toks].
  rewrite <- (re_groups_spec _ _ Hwf (parse_pattern_ok _) Hnl). unfold re_groups.
  destruct (re_match _ path); reflexivity.
Qed.

Lemma first_match_spec rs m path : routes_ok rs -> no_nl path ->
  first_match (entries_of rs m) path = spec_get_route rs m path.
Proof.
  intros Hrs Hnl. induction rs as [|r rs IH]; [reflexivity|].
  specialize (IH (routes_ok_tl _ _ Hrs)). destruct (Hrs r (or_introl eq_refl)) as [Hwf _].
  unfold entries_of in *. cbn [filter spec_get_route].
  destruct (str_eqb m (r_method r)); [|exact IH].
  cbn [map first_match]. rewrite entry_match_spec by assumption.
  destruct (spec_route_match (r_pattern r) path); [reflexivity | exact IH].
Qed.

Lemma spec_get_route_none rs m path :
  spec_get_route rs m path = None <->
  forall r, In r rs -> r_method r = m -> spec_route_match (r_pattern r) path = None.
Proof.
  rewrite <- Forall_forall. induction rs as [|r rs IH]; cbn [spec_get_route]; [split; constructor|].
  rewrite Forall_cons_iff, <- IH. destruct (str_eqb_spec m (r_method r)) as [->|Hm].
  - destruct (spec_route_match (r_pattern r) path); intuition congruence.
  - intuition congruence.
Qed.

(* getRoute after registerRoutes on a fresh router = the documented rule over the
   registration order *)
Lemma get_route_spec rs m path : routes_ok rs -> no_nl path ->
  exists t, register_routes empty_table rs = (t, Ok tt) /\
            get_route t m path = spec_get_route rs m path.
Proof.
  intros Hrs Hnl.
  destruct (register_ok rs empty_table [] empty_table_ok Hrs) as [t [Hreg Hok]].
  exists t. split; [exact Hreg|]. unfold get_route. rewrite (Hok m).
  destruct (supported_method m) eqn:Hm; [apply first_match_spec; assumption|].
  symmetry. apply spec_get_route_none. intros r Hin <-. destruct (Hrs r Hin). congruence.
Qed.

Lemma dispatch_404_iff t limited m path :
  router_dispatch t limited m path = D404 <-> limited = false /\ get_route t m path = None.
Proof.
  unfold router_dispatch. destruct limited, (get_route t m path) as [[id d]|]; intuition congruence.
Qed.

Lemma dispatch_spec rs limited m path : routes_ok rs -> no_nl path ->
  exists t, register_routes empty_table rs = (t, Ok tt) /\
    router_dispatch t limited m path =
    if limited then D429
    else match spec_get_route rs m path with
         | Some (id, d) => DRoute id d
         | None => D404
         end.
Proof.
  intros Hrs Hnl. destruct (get_route_spec rs m path Hrs Hnl) as [t [Hreg Hg]].
  exists t. split; [exact Hreg|]. unfold router_dispatch. rewrite Hg. reflexivity.
Qed.

Lemma spec_get_route_first rs m path id d :
  spec_get_route rs m path = Some (id, d) <->
  exists rs1 r rs2 kvs,
    rs = rs1 ++ r :: rs2 /\ r_id r = id /\ r_method r = m /\
    spec_route_match (r_pattern r) path = Some kvs /\ d = mkdict kvs /\
    forall r', In r' rs1 -> r_method r' = m -> spec_route_match (r_pattern r') path = None.
Proof.
  split.
  - induction rs as [|r rs IH]; cbn [spec_get_route]; [discriminate|].
    destruct (str_eqb_spec m (r_method r)) as [->|Hm];
      [destruct (spec_route_match (r_pattern r) path) as [kvs|] eqn:S|].
    1: { intros [= <- <-]. exists [], r, rs, kvs. repeat split; auto. intros r' []. }
    all: intro H; apply IH in H as (rs1 & r0 & rs2 & kvs0 & -> & Hid & Hm0 & Hs & Hd & Hnone).
    all: exists (r :: rs1), r0, rs2, kvs0; repeat split; auto.
    all: intros r' [<-|Hin] Hm'; auto; congruence.
  - intros (rs1 & r & rs2 & kvs & -> & <- & <- & Hs & -> & Hnone).
    induction rs1 as [|a rs1 IH]; cbn [app spec_get_route].
    + rewrite str_eqb_refl, Hs. reflexivity.
    + specialize (IH (fun r' Hin => Hnone r' (or_intror Hin))).
      destruct (str_eqb_spec (r_method r) (r_method a)) as [E|_]; [|exact IH].
      rewrite (Hnone a (or_introl eq_refl) (eq_sym E)). exact IH.
Qed.
