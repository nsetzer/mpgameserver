(* WsFactoryP.v — the public constructors of WebSocketFrame build well-formed frames, so the theorems
   about encode_frame / parse_frame apply to everything the public API can build. *)
From Model Require Import Base Utf8 WsFrame WsFactory.
From Proofs Require Import Utf8P.
Open Scope Z_scope.

Lemma wf_final op m key p :
  op <> OpOpen -> bit m -> length key = 4%nat -> (m = 0 -> key = zero_key) -> len p < 2 ^ 63 ->
  wf_frame {| f_fin := 1; f_rsv1 := 0; f_rsv2 := 0; f_rsv3 := 0; f_opcode := op; f_mask := m; f_key := key;
              f_plen := len p; f_payload := p |}.
Proof. intros. unfold wf_frame, bit, wire_opcode; cbn. repeat split; auto. Qed.

Lemma ws_text_inv s f : ws_text s = Ok f -> exists b, utf8_encode s = Some b /\ f = factory_frame OpText b.
Proof.
  unfold ws_text. intro H. destruct (utf8_encode s) as [b|] eqn:E; [|discriminate].
  exists b. split; auto. now inversion H.
Qed.

Lemma ws_close_inv st m f : ws_close st m = Ok f -> exists h, pack_H st = Ok h /\ f = factory_frame OpClose (h ++ m).
Proof.
  unfold ws_close, bind. intro H. destruct (pack_H st) as [h|] eqn:E; [|discriminate].
  exists h. split; auto. now inversion H.
Qed.

Lemma built_is_factory_frame f : built_by_factory f -> exists op p, op <> OpOpen /\ f = factory_frame op p.
Proof.
  intros [[m ->]|[[m ->]|[[m ->]|[[st [m H]]|[s H]]]]].
  - exists OpPing, m. split; [discriminate|reflexivity].
  - exists OpPong, m. split; [discriminate|reflexivity].
  - exists OpBinary, m. split; [discriminate|reflexivity].
  - apply ws_close_inv in H. destruct H as [h [_ ->]]. exists OpClose, (h ++ m). split; [discriminate|reflexivity].
  - apply ws_text_inv in H. destruct H as [b [_ ->]]. exists OpText, b. split; [discriminate|reflexivity].
Qed.

Lemma built_wf f : built_by_factory f -> len (f_payload f) < 2 ^ 63 -> wf_frame f.
Proof.
  intros Hb Hl. destruct (built_is_factory_frame f Hb) as (op & p & Hop & ->).
  apply wf_final; [exact Hop | left | | | exact Hl]; reflexivity.
Qed.

(* Text(s): the payload is the UTF-8 encoding of s — it decodes back to s — and the length field counts its BYTES *)
Lemma ws_text_spec s f : ws_text s = Ok f ->
  f_opcode f = OpText /\ utf8_decode (f_payload f) = Some s /\ f_plen f = len (f_payload f).
Proof.
  intro H. apply ws_text_inv in H. destruct H as [b [E ->]]. cbn.
  repeat split. now apply utf8_roundtrip.
Qed.

(* Text(s) exists for every str without lone surrogates *)
Lemma ws_text_total s :
  Forall (fun c => cp_ok c = true /\ is_surrogate c = false) s -> exists f, ws_text s = Ok f.
Proof. intro H. unfold ws_text. destruct (utf8_encode_total s H) as [b ->]. eexists; reflexivity. Qed.

(* handler.send(s) writes the Text frame *)
Lemma ws_send_inv s b : ws_send s = Ok b -> exists f, ws_text s = Ok f /\ encode_frame f = Ok b.
Proof. unfold ws_send, bind. intro H. destruct (ws_text s) as [f|]; [eauto | discriminate]. Qed.
