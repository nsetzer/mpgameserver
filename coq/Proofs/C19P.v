(* C19P.v — verify_password on arbitrary strings and on well-formed ones (statements:
   Properties/C19.v; what hash_password produces is in AuthCfgP.v).
   sha256, base64 decoding and scrypt are arbitrary functions; what is assumed of them is an
   explicit premise of each theorem (predicates defined at the end of Model/Auth.v). *)
From Coq Require Import Lia ZifyBool.
From Model Require Import Base Base64 Auth.
From Proofs Require Import BytesP Base64P AuthP.
Open Scope Z_scope.

Section C19.
  Variable sha : list byte -> list byte.
  Variable b64d : list byte -> res (list byte).
  Variable kdf : list byte -> Z -> Z -> Z -> Z -> list byte -> res (list byte).

  Notation verify := (verify_password sha b64d kdf).

  (* exact behaviour on EVERY well-formed string, whatever parameters it embeds (a hash made by
     a past or future hash_password with other N, r, p, salt and digest lengths) *)
  Theorem verify_wellformed : b64_roundtrip b64d ->
    forall q k salt dg, params_in_range k -> k_sl k = len salt -> k_len k = len dg -> 1 <= len dg ->
    verify (PBytes q) (PStr (Ok (hash_string (b64e (pack_params k)) (b64e (salt ++ dg))))) =
    (do d <- kdf salt (k_len k) (k_N k) (k_r k) (k_p k) (sha q); Ok (bytes_eqb d dg)).
  Proof.
    intros HB q k salt dg Hr Hs Hl H1. unfold verify_password. cbn [bind].
    rewrite (prepare_hash_string b64d _ _ (pack_params k) (salt ++ dg) k
               (b64e_no_colon _) (b64e_no_colon _) (HB _) (HB _) (unpack_pack k Hr)).
    assert (C : (k_len k <? 1) || negb (k_sl k + k_len k =? len (salt ++ dg)) = false)
      by (rewrite len_app; lia).
    rewrite C. cbn [bind prepared_of q_salt q_len q_N q_r q_p q_expected].
    rewrite Hs. unfold len. rewrite Nat2Z.id.
    rewrite firstn_app_exact, skipn_app_exact. reflexivity.
  Qed.

  (* every truncation of such a string, under any password: the fourth field, if it is reached at
     all, decodes to fewer bytes than the embedded lengths announce *)
  Theorem verify_truncated : b64_roundtrip b64d -> b64_prefix_shorter b64d -> b64_err_value b64d ->
    forall q k data n, params_in_range k -> k_sl k + k_len k = len data ->
    (n < length (hash_string (b64e (pack_params k)) (b64e data)))%nat ->
    verify (PBytes q) (PStr (Ok (firstn n (hash_string (b64e (pack_params k)) (b64e data))))) = Err EValue.
  Proof.
    intros HB HP HE q k data n Hr Hl Hn. unfold verify_password. cbn [bind].
    destruct (split_truncated _ _ n (b64e_no_colon _) (b64e_no_colon _) Hn) as [L|[m [Hm Es]]].
    - rewrite prepare_not_four by exact L. reflexivity.
    - rewrite (prepare_four _ _ _ _ _ _ Es), HB. cbn [bind].
      destruct (b64d (firstn m (b64e data))) as [y|e] eqn:Ey; cbn [bind];
        [|rewrite (HE _ _ Ey); reflexivity].
      rewrite !bytes_eqb_refl. cbn [negb orb]. rewrite unpack_pack by exact Hr. cbn [bind].
      pose proof (HP _ _ _ Hm Ey) as Hy.
      assert (C : (k_len k <? 1) || negb (k_sl k + k_len k =? len y) = true) by (unfold len in *; lia).
      rewrite C. reflexivity.
  Qed.

  (* what a True answer means, for ARBITRARY oracles (no hypothesis at all) *)
  Theorem verify_true_inv : forall pw hs,
    verify pw hs = Ok true ->
    exists p h f2 f3 params data k,
      pw = PBytes p /\ hs = PStr (Ok h) /\
      h = hash_string f2 f3 /\ ~ In colon f2 /\ ~ In colon f3 /\
      split_on colon h = [lit_scrypt; lit_1; f2; f3] /\
      b64d f2 = Ok params /\ b64d f3 = Ok data /\ unpack_params params = Ok k /\
      1 <= k_len k /\ len data = k_sl k + k_len k /\
      len (skipn (Z.to_nat (k_sl k)) data) = k_len k /\
      kdf (firstn (Z.to_nat (k_sl k)) data) (k_len k) (k_N k) (k_r k) (k_p k) (sha p)
        = Ok (skipn (Z.to_nat (k_sl k)) data).
  Proof.
    intros pw hs H. unfold verify_password in H.
    destruct pw as [p|?|]; try discriminate H. destruct hs as [?|[h|]|]; try discriminate H.
    cbn [bind] in H. pose proof (prepare_result b64d h) as R.
    destruct (prepare b64d h) as [q|]; cbn [bind] in H; [|discriminate].
    destruct R as [f2 [f3 [params [data [k [Es [E2 [E3 [Ek [Hl [Hc ->]]]]]]]]]]].
    cbn [prepared_of q_salt q_len q_N q_r q_p q_expected] in H.
    destruct (kdf _ _ _ _ _ _) as [d|] eqn:Ed; cbn [bind] in H; [|discriminate].
    inversion H as [B]. apply bytes_eqb_eq in B. subst d.
    destruct (split_on_inv colon h) as [J F]. rewrite Es in J, F.
    symmetry in J. change (h = hash_string f2 f3) in J.
    rewrite !Forall_cons_iff in F. destruct F as [_ [_ [N2 [N3 _]]]].
    pose proof (unpack_result params) as U. rewrite Ek in U. unfold params_in_range in U.
    exists p, h, f2, f3, params, data, k. repeat split; auto.
    unfold len in *. rewrite skipn_length. lia.
  Qed.

  Theorem verify_error_kinds : b64_err_value b64d -> kdf_err_value kdf ->
    forall pw hs, (forall e, hs = PStr (Err e) -> e = EUnicode) ->
    match verify pw hs with
    | Ok _ => True
    | Err e => value_or_type e
    end.
  Proof.
    intros HB HK pw hs Hu. unfold verify_password, value_or_type.
    destruct pw as [p|?|]; auto. destruct hs as [?|[h|e]|]; auto; cbn [bind];
      [|right; right; apply Hu; reflexivity].
    pose proof (prepare_result b64d h) as R.
    destruct (prepare b64d h) as [q|e]; cbn [bind]; [|left; exact (R HB)].
    destruct (kdf _ _ _ _ _ _) as [d|e] eqn:Ed; cbn [bind]; [exact I|].
    left. eapply HK; eassumption.
  Qed.

  Theorem verify_bad_lengths : forall p h f0 f1 f2 f3 params data k,
    split_on colon h = [f0; f1; f2; f3] ->
    b64d f2 = Ok params -> b64d f3 = Ok data -> unpack_params params = Ok k ->
    k_len k < 1 \/ k_sl k + k_len k <> len data ->
    verify (PBytes p) (PStr (Ok h)) = Err EValue.
  Proof.
    intros p h f0 f1 f2 f3 params data k Es E2 E3 Ek Hc. unfold verify_password. cbn [bind].
    rewrite (prepare_four _ _ _ _ _ _ Es), E2, E3. cbn [bind].
    destruct (negb (bytes_eqb f0 lit_scrypt) || negb (bytes_eqb f1 lit_1)); [reflexivity|].
    rewrite Ek. cbn [bind].
    assert (C : (k_len k <? 1) || negb (k_sl k + k_len k =? len data) = true) by lia.
    rewrite C. reflexivity.
  Qed.

  Theorem verify_method_version : forall p h f0 f1 f2 f3,
    split_on colon h = [f0; f1; f2; f3] -> f0 <> lit_scrypt \/ f1 <> lit_1 ->
    b64_err_value b64d ->
    verify (PBytes p) (PStr (Ok h)) = Err EValue.
  Proof.
    intros p h f0 f1 f2 f3 Es Hm HB. unfold verify_password. cbn [bind].
    rewrite (prepare_four _ _ _ _ _ _ Es).
    destruct (b64d f2) as [params|e] eqn:E2; cbn [bind]; [|rewrite (HB _ _ E2); reflexivity].
    destruct (b64d f3) as [data|e] eqn:E3; cbn [bind]; [|rewrite (HB _ _ E3); reflexivity].
    destruct Hm as [Hm|Hm]; rewrite (bytes_eqb_neq _ _ Hm); cbn [negb orb]; [reflexivity|].
    rewrite orb_true_r. reflexivity.
  Qed.
End C19.
