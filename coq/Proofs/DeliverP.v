(* C05, progress half: what send accepts fits a datagram of its own, the head of the
   queue leaves with the next packet, and a timed-out datagram gives its guaranteed messages back
   to the queue. *)
From Coq Require Import Lia.
From RecordUpdate Require Import RecordUpdate.
From Model Require Import Base SeqNum Wire Conn.
From Proofs Require Import WireP ConnSpecP PackP AckP CustodyP.
From Proofs Require FragP.
Import RecordSetNotations.
Open Scope Z_scope.

(* the constants Packet.setMTU produces satisfy this (FragP.env_of_mtu_ok, for every MTU >= 512);
   here it is a premise on the environment *)
Definition env_ok (e : env) : Prop := 0 < e_max_frag e /\ e_max_frag e + 6 <= e_max_payload e.

Lemma send_type_msgs c ty p r k m : In m (c_outgoing (send_type c ty p r k)) ->
  In m (c_outgoing c) \/ m_payload m = p.
Proof. rewrite send_type_out_eq. intros H. apply in_app_or in H as [H|[<-|[]]]; [left; exact H|right; reflexivity]. Qed.

Lemma send_frags_msgs e frags : forall c fid n r i m,
  (forall f, In f frags -> len f + 6 <= e_max_payload e) ->
  In m (c_outgoing (send_frags c fid n r i frags)) -> In m (c_outgoing c) \/ len (m_payload m) <= e_max_payload e.
Proof.
  induction frags as [|f rest IH]; intros c fid n r i m Hf Hin; cbn [send_frags] in Hin; [left; exact Hin|].
  destruct (IH _ _ _ _ _ _ (fun g Hg => Hf g (or_intror Hg)) Hin) as [H|H]; [|right; exact H].
  apply send_type_msgs in H as [H|H]; [left; exact H|right]. rewrite H.
  pose proof (Hf f (or_introl eq_refl)). unfold len in *. rewrite !app_length, !be_length. lia.
Qed.

Definition all_fit (e : env) (c : conn) : Prop :=
  forall m, In m (c_outgoing c) -> fits e (len (m_payload m)) 0 0 = true.

(* whatever send appends to the queue fits a datagram of its own — for every payload length from 0
   to the fragmentation limit *)
Theorem send_all_fit e c p r k c' o : env_ok e -> all_fit e c -> send e c p r k = (c', o) -> all_fit e c'.
Proof.
  intros He Hall E. destruct (send_inv E) as [_|_ Hl|_ _ _|_ _]; [exact Hall| |exact Hall|].
  2:{ intros m Hm. unfold send_fragmented in Hm.
    set (frags := split_frags (S (length p)) e p) in *.
    set (c0 := c <| c_seq_frag := seq_succ (c_seq_frag c) |>) in *.
    assert (Hm' : In m (c_outgoing (send_frags c0 (seq_succ (c_seq_frag c)) (len frags) r 0 frags))) by exact Hm.
    assert (Hfr : forall f, In f frags -> len f + 6 <= e_max_payload e).
    { assert (He' : FragP.env_ok e) by (destruct He; split; lia).
      destruct (FragP.split_frags_spec e He' (S (length p)) p ltac:(lia)) as (_ & F & _).
      rewrite Forall_forall in F. intros f Hf. exact (proj2 (F f Hf)). }
    destruct (send_frags_msgs e frags c0 _ _ _ _ m Hfr Hm') as [H|H].
    + apply Hall. exact H.
    + apply fits_alone. exact H. }
  intros m Hm. apply send_type_msgs in Hm as [Hm|Hm]; [apply Hall; exact Hm|].
  apply fits_alone. rewrite Hm. lia.
Qed.

(* the head of the queue leaves with the next packet: nothing waits for re-sending, the head fits, the
   rate gate is open *)
Theorem queue_head_leaves e c now m q c' r :
  NU c -> c_pretry_msg c = [] -> c_outgoing c = m :: q -> fits e (len (m_payload m)) 0 0 = true ->
  c_send_interval c <= now - c_last_send c ->
  build_packet e c now = (c', r) ->
  exists h ms, r = Some (h, stamp now m :: ms).
Proof.
  intros HN Hp Ho Hf Hg E. apply (build_packet_open _ _ _ _ _ Hg) in E as (c1 & E1 & _).
  rewrite build_impl_eq in E1. unfold select in E1. rewrite Hp, Ho in E1. cbn [out_pass] in E1.
  assert (Hf' : fits e (len (m_payload m)) (len (@nil pmsg)) 0 = true) by exact Hf. rewrite Hf' in E1.
  destruct (out_pass e q ([] ++ [m]) (0 + len (m_payload m))) as [[rem msgs] cu] eqn:E2.
  destruct (out_pass_prefix _ _ _ _ _ _ _ E2) as (ch & ->). cbn [app] in E1.
  assert (Hu : m_type m <> UNKNOWN).
  { destruct HN as [A _ _]. rewrite Ho in A. inversion A as [|? ? [H _] _]; subst. exact H. }
  cbn [map packet_type] in E1.
  destruct (ptype_eqb (m_type m) UNKNOWN) eqn:Ht; [exfalso; destruct (m_type m); try discriminate; apply Hu; reflexivity|].
  injection E1 as _ <-. eexists. eexists. reflexivity.
Qed.

(* a guaranteed message never sits in a datagram older than the message time-out *)
Theorem custody_is_fresh e S Ka K c n now c' o :
  rid_of K <> -1 -> NU c -> AInv S Ka c n -> Custody K c ->
  c_send_interval c < now - c_last_send c -> server_tick e c now = (c', o) ->
  is_done K c' \/ queued K c' \/
  exists s ks t, dget s (c_pcbs c') = Some ks /\ In K ks /\ In (s, t) (c_packs c') /\ now - t <= c_out_timeout c.
Proof.
  intros Hr HN HA HC Hg E.
  assert (HW : W S Ka c) by (split; [exact HN|exists n; exact HA]).
  destruct (step_Custody e S Ka K c (EServerTick now) c' o Hr I HW HC E) as [_ [H|[H|(s & ks & H1 & H2 & H3)]]]; auto.
  right. right. apply in_map_iff in H3 as ([s' t] & Hs & Hin). cbn in Hs. subst s'.
  exists s, ks, t. repeat split; auto. eapply server_tick_deadline; eassumption.
Qed.
