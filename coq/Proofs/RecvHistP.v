(* The two receive windows of a connection refine the abstract window over true
   indices along arbitrary receive histories (C04). *)
From Coq Require Import Lia.
From RecordUpdate Require Import RecordUpdate.
From Model Require Import Base SeqNum Wire Conn RecvSpec RecvHist.
From Proofs Require Import ListP SeqNumP ConnSpecP.
Import RecordSetNotations.
Open Scope Z_scope.

(* the bitfield f of width nb refines the abstract window st: fresh before the first arrival, SeqNumP.R afterwards *)
Definition W (nb : Z) (f : bitfield) (st : wstate) : Prop :=
  match st with
  | None => f = bf_new nb
  | Some (m, acc) => R f m acc /\ bf_nbits f = nb
  end.

Lemma W_step nb f st n : 1 <= nb -> W nb f st -> w_ok st n ->
  if w_dup nb st n
  then bf_insert f (wire n) = Err EDup /\ W nb f (w_next nb st n)
  else exists f', bf_insert f (wire n) = Ok f' /\ W nb f' (w_next nb st n).
Proof.
  intros Hnb HW [Hn Hh]. destruct st as [[m acc]|]; cbn [w_dup w_next W] in *.
  - destruct HW as [HR <-]. pose proof (R_step f m acc n HR Hh) as Hs.
    destruct (spec_dup _ m acc n) eqn:Hd.
    + apply spec_dup_true in Hd. replace (Z.max m n) with m by lia. auto.
    + destruct Hs as (f' & Hi & Hnb' & HR'). eauto.
  - subst f. destruct (R_first nb n Hnb Hn) as [Hi HR]. eauto.
Qed.

Lemma w_hist_app nb h1 : forall st h2,
  w_hist nb st (h1 ++ h2) = w_hist nb st h1 ++ w_hist nb (w_final nb st h1) h2.
Proof. induction h1 as [|n h IH]; intros st h2; cbn; [reflexivity|]. rewrite IH. reflexivity. Qed.

Lemma w_final_app nb h1 : forall st h2, w_final nb st (h1 ++ h2) = w_final nb (w_final nb st h1) h2.
Proof. induction h1 as [|n h IH]; intros st h2; cbn; [reflexivity|]. apply IH. Qed.

Lemma w_half_app nb h1 : forall st h2,
  w_half nb st (h1 ++ h2) <-> w_half nb st h1 /\ w_half nb (w_final nb st h1) h2.
Proof.
  induction h1 as [|n h IH]; intros st h2; cbn; [tauto|]. rewrite IH. tauto.
Qed.

Lemma w_inwin_app nb h1 : forall st h2,
  w_inwin nb st (h1 ++ h2) <-> w_inwin nb st h1 /\ w_inwin nb (w_final nb st h1) h2.
Proof.
  induction h1 as [|n h IH]; intros st h2; cbn; [tauto|]. rewrite IH. tauto.
Qed.

Lemma w_hist_length nb h : forall st, length (w_hist nb st h) = length h.
Proof. induction h as [|n h IH]; intros st; cbn; [reflexivity|]. rewrite IH. reflexivity. Qed.

Lemma fresh_of_app f1 : forall h1 f2 h2, length f1 = length h1 ->
  fresh_of (f1 ++ f2) (h1 ++ h2) = fresh_of f1 h1 ++ fresh_of f2 h2.
Proof.
  induction f1 as [|f fs IH]; intros [|n h1] f2 h2 Hl; cbn in *; try discriminate; [reflexivity|].
  destruct f; rewrite IH by lia; reflexivity.
Qed.

Lemma w_hist_spec nb h : forall m acc, w_hist nb (Some (m, acc)) h = spec_hist nb m acc h.
Proof. induction h as [|n h IH]; intros m acc; cbn; [reflexivity|]. rewrite IH. reflexivity. Qed.

Lemma w_half_spec nb h : forall m acc, w_half nb (Some (m, acc)) h <-> half_range m h.
Proof.
  induction h as [|n h IH]; intros m acc; cbn; [tauto|]. rewrite IH. unfold w_ok. tauto.
Qed.

Definition wf_w (st : wstate) : Prop :=
  match st with None => True | Some (m, acc) => NoDup acc /\ forall x, In x acc -> x <= m end.
Definition acc_of (st : wstate) : list Z := match st with None => [] | Some (_, acc) => acc end.

Lemma w_next_wf nb st n : wf_w st ->
  match st with None => True | Some (m, acc) => In n acc -> m - n <= nb end ->
  wf_w (w_next nb st n)
  /\ if w_dup nb st n then acc_of (w_next nb st n) = acc_of st
     else acc_of (w_next nb st n) = n :: acc_of st /\ ~ In n (acc_of st).
Proof.
  destruct st as [[m acc]|]; cbn [wf_w w_next w_dup acc_of].
  - intros [Hnd Hle] Hn. destruct (spec_dup nb m acc n) eqn:Hd.
    + apply spec_dup_true in Hd. replace (Z.max m n) with m by lia. auto.
    + assert (Hnot : ~ In n acc).
      { intros Hi. rewrite (proj2 (spec_dup_true nb m acc n)) in Hd by auto. discriminate. }
      repeat split; [constructor; assumption| |exact Hnot].
      intros x [<-|Hx]; [lia|]. apply Hle in Hx. lia.
  - intros _ _. repeat split; [repeat constructor; intros []| |intros []]. intros x [<-|[]]. lia.
Qed.

Lemma w_nodup nb h : forall st, wf_w st -> w_inwin nb st h ->
  NoDup (fresh_of (w_hist nb st h) h)
  /\ forall x, In x (fresh_of (w_hist nb st h) h) -> ~ In x (acc_of st).
Proof.
  induction h as [|n h IH]; intros st Hwf Hin; cbn [w_hist fresh_of].
  - split; [constructor|intros x []].
  - destruct Hin as [Hn Hrest]. destruct (w_next_wf nb st n Hwf Hn) as [Hwf' Hacc].
    destruct (IH _ Hwf' Hrest) as [H1 H2].
    destruct (w_dup nb st n); [rewrite Hacc in H2; auto|]. destruct Hacc as [Hacc Hnot]. rewrite Hacc in H2. split.
    + constructor; [|exact H1]. intros Hx. apply (H2 n Hx). left. reflexivity.
    + intros x [<-|Hx]; [exact Hnot|]. intros Hi. apply (H2 x Hx). right. exact Hi.
Qed.

Lemma recv_msgs_g_cons c now m j r orcs :
  recv_msgs_g c now ((m, j) :: r) orcs =
  match bf_insert (c_bf_msg c) (w_seq m) with
  | Err _ => recv_msgs_g c now r (if is_hs (w_type m) then tl orcs else orcs)
  | Ok bf =>
      let '(c1, o1, orcs') := dispatch (c <| c_bf_msg := bf |>) now m orcs in
      if raised o1 then (c1, o1, [j])
      else let '(c2, o2, p2) := recv_msgs_g c1 now r orcs' in (c2, o1 ++ o2, j :: p2)
  end.
Proof. reflexivity. Qed.

Lemma recv_msgs_g_erase now : forall ms js c orcs, length js = length ms ->
  let '(c', o, _) := recv_msgs_g c now (combine ms js) orcs in recv_msgs c now ms orcs = (c', o).
Proof.
  induction ms as [|m r IH]; intros [|j js] c orcs Hl; cbn in Hl; try discriminate; [reflexivity|].
  cbn [combine]. rewrite recv_msgs_g_cons, recv_msgs_cons.
  destruct (bf_insert (c_bf_msg c) (w_seq m)) as [bf|e]; [|apply IH; lia].
  destruct (dispatch _ now m orcs) as [[c1 o1] orcs']. destruct (raised o1); [reflexivity|].
  specialize (IH js c1 orcs' ltac:(lia)).
  destruct (recv_msgs_g c1 now (combine r js) orcs') as [[c2 o2] p2]. rewrite IH. reflexivity.
Qed.

Lemma dispatch_data c now m orcs : data_msg m = true ->
  is_hs (w_type m) = false
  /\ exists c1, dispatch c now m orcs = (c1, [], orcs)
       /\ c_key c1 = c_key c /\ c_bf_pkt c1 = c_bf_pkt c /\ c_bf_msg c1 = c_bf_msg c.
Proof.
  unfold data_msg, dispatch. intros Hd. apply andb_prop in Hd as [Ht Hf].
  destruct (w_type m); try discriminate; (split; [reflexivity|]); try (eexists; repeat split; reflexivity).
  cbn in Hf. unfold recv_fragment, len in *. replace (length (w_payload m) <? 6)%nat with false by lia.
  cbv zeta. eexists. split; [reflexivity|]. destruct (fr_complete _); repeat split.
Qed.

Lemma map_length_eq {A B C} (f : A -> C) (g : B -> C) l1 l2 : map f l1 = map g l2 -> length l2 = length l1.
Proof. intros H. apply (f_equal (@length C)) in H. rewrite !map_length in H. lia. Qed.

Lemma bump_fields c : c_key (bump c) = c_key c /\ c_bf_pkt (bump c) = c_bf_pkt c /\ c_bf_msg (bump c) = c_bf_msg c.
Proof. repeat split. Qed.

(* The datagram window has width nbp and the message window width nbm; that these are 32 and
   256 plays no part below. *)
Section Widths.
Variables nbp nbm : Z.
Hypothesis Hnbp : 1 <= nbp.
Hypothesis Hnbm : 1 <= nbm.

Lemma msgs_g_W now : forall ms js c orcs st,
  W nbm (c_bf_msg c) st -> w_half nbm st js ->
  map w_seq ms = map wire js -> forallb data_msg ms = true ->
  let '(c', o, p) := recv_msgs_g c now (combine ms js) orcs in
  W nbm (c_bf_msg c') (w_final nbm st js) /\ p = fresh_of (w_hist nbm st js) js
  /\ raised o = false /\ c_key c' = c_key c /\ c_bf_pkt c' = c_bf_pkt c.
Proof.
  induction ms as [|m r IH]; intros [|j js] c orcs st HW Hh Hmap Hd; cbn in Hmap; try discriminate.
  - cbn. auto.
  - injection Hmap as Hseq Hmap. cbn [forallb] in Hd. apply andb_prop in Hd as [Hdm Hd].
    destruct Hh as [Hok Hh]. cbn [combine w_hist w_final fresh_of]. rewrite recv_msgs_g_cons, Hseq.
    pose proof (W_step nbm (c_bf_msg c) st j Hnbm HW Hok) as Hs.
    destruct (w_dup nbm st j).
    + destruct Hs as [-> HW']. rewrite (proj1 (dispatch_data c now m orcs Hdm)). apply IH; assumption.
    + destruct Hs as (f' & -> & HW').
      destruct (dispatch_data (c <| c_bf_msg := f' |>) now m orcs Hdm) as (_ & c1 & -> & Hk & Hp & Hm).
      cbn [raised existsb]. cbn in Hk, Hp.
      assert (HW1 : W nbm (c_bf_msg c1) (w_next nbm st j)) by (rewrite Hm; exact HW').
      specialize (IH js c1 orcs _ HW1 Hh Hmap Hd).
      destruct (recv_msgs_g c1 now (combine r js) orcs) as [[c2 o2] p2].
      destruct IH as (A & B & C & D & E). cbn [app]. repeat split; congruence.
Qed.

Lemma recv_g_erase k c a : c_key c = Some k -> good k a ->
  let '(c', o, _, _) := recv_g c a in recv c (a_now a) (a_d a) (a_orcs a) = (c', o).
Proof.
  intros Hk (Hn & Hseq & ms & Hop & Hmap & Hjs & Hdata). unfold recv_g, recv.
  destruct (keyless_refuses c (d_hdr (a_d a))); [reflexivity|].
  rewrite Hk, Hop. destruct (bf_insert (c_bf_pkt c) (h_seq (d_hdr (a_d a)))) as [bf|e]; [|reflexivity].
  destruct (handle_ack_bits _ _) as [c1 o1].
  pose proof (recv_msgs_g_erase (a_now a) ms (a_js a) c1 (a_orcs a) (map_length_eq _ _ _ _ Hmap)) as He.
  destruct (recv_msgs_g c1 (a_now a) (combine ms (a_js a)) (a_orcs a)) as [[c2 o2] p]. rewrite He. reflexivity.
Qed.

Lemma recv_g_W k c a stp stm :
  c_key c = Some k -> good k a -> W nbp (c_bf_pkt c) stp -> W nbm (c_bf_msg c) stm ->
  w_ok stp (a_n a) ->
  (w_dup nbp stp (a_n a) = false -> w_half nbm stm (a_js a)) ->
  let '(c', o, acc, p) := recv_g c a in
  c_key c' = Some k /\ W nbp (c_bf_pkt c') (w_next nbp stp (a_n a))
  /\ if w_dup nbp stp (a_n a)
     then c' = bump c /\ o = [ORet false] /\ acc = false /\ p = [] /\ W nbm (c_bf_msg c') stm
     else acc = true /\ p = fresh_of (w_hist nbm stm (a_js a)) (a_js a)
          /\ W nbm (c_bf_msg c') (w_final nbm stm (a_js a)) /\ exists o', o = o' ++ [ORet true].
Proof.
  intros Hk (Hn & Hseq & ms & Hop & Hmap & Hjs & Hdata) HWp HWm Hok Hhalf. unfold recv_g.
  rewrite keyless_refuses_eq, Hk, Hop, Hseq.
  pose proof (W_step nbp (c_bf_pkt c) stp (a_n a) Hnbp HWp Hok) as Hs.
  destruct (w_dup nbp stp (a_n a)).
  - destruct Hs as [-> HW']. auto 8.
  - destruct Hs as (f' & -> & HW').
    destruct (handle_ack_bits _ (d_hdr (a_d a))) as [c1 o1] eqn:E1.
    pose proof (wr_keeps W_resolve (fun a => (c_key a, c_bf_pkt a, c_bf_msg a)) (fun _ _ => eq_refl) (handle_ack_bits_wr E1)) as K.
    cbn in K. injection K as Hkey Hbp Hbm.
    rewrite <- Hbm in HWm.
    pose proof (msgs_g_W (a_now a) ms (a_js a) c1 (a_orcs a) stm HWm (Hhalf eq_refl) Hmap Hdata) as Hm.
    destruct (recv_msgs_g c1 (a_now a) (combine ms (a_js a)) (a_orcs a)) as [[c2 o2] p].
    destruct Hm as (A & B & C & D & E).
    split; [congruence|]. split; [rewrite E, Hbp; exact HW'|].
    split; [reflexivity|]. split; [exact B|]. split; [exact A|].
    rewrite C. exists (o1 ++ o2). rewrite <- app_assoc. reflexivity.
Qed.

End Widths.

Lemma Zlist_eqb_eq a b : Zlist_eqb a b = true -> a = b.
Proof. exact (proj1 (list_eqb_eq Z.eqb Z.eqb_spec a b)). Qed.

Lemma goodb_sound k a : goodb k a = true -> good k a.
Proof.
  unfold goodb, good. intros H. apply andb_prop in H as [H H3]. apply andb_prop in H as [H1 H2].
  split; [lia|]. split; [lia|].
  destruct (open_dgram (Some k) (a_d a)) as [ms|e]; [|discriminate].
  apply andb_prop in H3 as [H3 H5]. apply andb_prop in H3 as [H3 H4].
  exists ms. split; [reflexivity|]. split; [apply Zlist_eqb_eq; exact H3|]. split; [|exact H5].
  apply Forall_forall. intros j Hj. rewrite forallb_forall in H4. specialize (H4 j Hj). lia.
Qed.

Lemma goodb_all k l : forallb (goodb k) l = true -> Forall (good k) l.
Proof.
  intros H. apply Forall_forall. intros a Ha. rewrite forallb_forall in H. apply goodb_sound. apply H. exact Ha.
Qed.

Lemma w_halfb_sound nb h : forall st, w_halfb nb st h = true -> w_half nb st h.
Proof.
  induction h as [|n h IH]; intros st H; cbn in *; [exact I|].
  apply andb_prop in H as [H1 H2]. split; [|apply IH; exact H2].
  unfold w_okb in H1. unfold w_ok. apply andb_prop in H1 as [A B]. split; [lia|].
  destruct st as [[m acc]|]; [lia|exact I].
Qed.

Lemma w_inwinb_sound nb h : forall st, w_inwinb nb st h = true -> w_inwin nb st h.
Proof.
  induction h as [|n h IH]; intros st H; cbn in *; [exact I|].
  apply andb_prop in H as [H1 H2]. split; [|apply IH; exact H2].
  destruct st as [[m acc]|]; [|exact I]. intros Hin.
  apply InB_In in Hin. unfold InB in Hin. rewrite Hin in H1. cbn in H1. lia.
Qed.
