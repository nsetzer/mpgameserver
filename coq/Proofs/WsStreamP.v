(* WsStreamP.v — readFrame / _frameAvailable / the __call__ loop on ARBITRARY buffers (not only
   well-formed streams): the parser is local (it reads exactly the frame that _frameAvailable
   measured), the loop's fuel is never exhausted, and the loop does not depend on how the bytes
   were cut into reads.  Facts about the loop are proved on run (the loop with the fuel of ws_call) by
   run_ind, which follows one iteration (step_result). *)
From Coq Require Import Lia.
From Model Require Import Base WsFrame.
From Proofs Require Import WsFrameP.
Open Scope Z_scope.

Lemma parse_local buf D :
  frame_available buf = true ->
  parse_frame (buf ++ D) = (fst (parse_frame buf), snd (parse_frame buf) ++ D).
Proof.
  intro H. destruct (available_inv buf H) as (b0 & b1 & x & k & p & rest & -> & Hf).
  cbn [app]. rewrite <- !app_assoc, !parse_framed by exact Hf.
  destruct (opcode_of_Z _); cbn [fst snd]; rewrite <- ?app_assoc; reflexivity.
Qed.

(* readFrame raises ValueError (opcode) or IndexError (masking) only *)
Lemma parse_error_kind buf e :
  frame_available buf = true -> fst (parse_frame buf) = Err e -> e = EValue \/ e = EIndex.
Proof.
  intro H. destruct (available_inv buf H) as (b0 & b1 & x & k & p & rest & -> & Hf).
  rewrite parse_framed by exact Hf. destruct (opcode_of_Z _) eqn:Eo; cbn [fst].
  - unfold parsed, mask_payload. destruct (mask_of b1 =? 0); [discriminate|].
    destruct (_ || _); [discriminate | intros [= <-]; auto].
  - intros [= <-]. left. unfold opcode_of_Z in Eo.
    repeat match type of Eo with (if ?c then _ else _) = _ => destruct c; [discriminate|] end. congruence.
Qed.

Definition out0 (e : option err) : wsout := {| o_delivered := []; o_written := []; o_error := e |}.
Definition out_app (a b : wsout) : wsout :=
  {| o_delivered := o_delivered a ++ o_delivered b; o_written := o_written a ++ o_written b; o_error := o_error b |}.

Lemma out_app_0 o : out_app (out0 None) o = o.
Proof. destruct o; reflexivity. Qed.

(* what __call__ does with the frame readFrame returned: raise, or deliver and go on *)
Definition verdict (r : res frame) : err + frame :=
  match r with
  | Err e => inl e
  | Ok f => if f_mask f =? 0 then inl EOther
            else if opcode_eqb (f_opcode f) OpText && negb (utf8_valid (f_payload f)) then inl EUnicode
            else inr f
  end.
Definition stop (st : ws) (e : err) : ws * wsout :=
  ({| w_buf := snd (parse_frame (w_buf st)); w_closed := w_closed st |}, out0 (Some e)).
Definition next (st : ws) (f : frame) : ws :=
  {| w_buf := snd (parse_frame (w_buf st)); w_closed := w_closed st || is_close f |}.
(* f delivered (and a first Close answered) in front of the run r of the rest *)
Definition out_cons (c : bool) (f : frame) (r : ws * wsout) : ws * wsout :=
  let '(st, o) := r in
  (st, {| o_delivered := delivery f :: o_delivered o;
          o_written := (if is_close f && negb c then close_bytes else []) ++ o_written o;
          o_error := o_error o |}).
Definition step_result (k : ws -> ws * wsout) (st : ws) : ws * wsout :=
  match verdict (fst (parse_frame (w_buf st))) with
  | inl e => stop st e
  | inr f => out_cons (w_closed st) f (k (next st f))
  end.

Lemma drain_S fuel st : frame_available (w_buf st) = true -> drain (S fuel) st = step_result (drain fuel) st.
Proof.
  intro H. cbn [drain]. rewrite H. unfold step_result, stop, next, verdict.
  destruct (parse_frame (w_buf st)) as [[f|e] rest]; cbn [fst snd]; [|reflexivity].
  destruct (f_mask f =? 0); [reflexivity|]. destruct (_ && _); reflexivity.
Qed.

Lemma drain_idle fuel st : frame_available (w_buf st) = false -> drain fuel st = (st, out0 None).
Proof. intro H. destruct fuel; cbn [drain]; rewrite H; reflexivity. Qed.

(* the exceptions of one iteration are Python's, never the model's fuel marker *)
Lemma verdict_not_recursion buf e :
  frame_available buf = true -> verdict (fst (parse_frame buf)) = inl e -> e <> ERecursion.
Proof.
  intro Ea. unfold verdict. destruct (fst (parse_frame buf)) as [f|e'] eqn:Ep.
  - destruct (f_mask f =? 0); [intros [= <-]; discriminate|]. destruct (_ && _); [intros [= <-]|]; discriminate.
  - intros [= <-]. destruct (parse_error_kind _ _ Ea Ep) as [-> | ->]; discriminate.
Qed.

Lemma next_shorter st f : frame_available (w_buf st) = true -> (length (w_buf (next st f)) + 2 <= length (w_buf st))%nat.
Proof.
  cbn [next w_buf]. generalize (w_buf st). intros buf H.
  destruct (available_inv buf H) as (b0 & b1 & x & k & p & rest & -> & Hf).
  rewrite parse_framed by exact Hf. destruct (opcode_of_Z _); cbn [snd length]; rewrite ?app_length; lia.
Qed.

Lemma drain_fuel_irrelevant f1 : forall f2 st,
  (length (w_buf st) < f1)%nat -> (length (w_buf st) < f2)%nat -> drain f1 st = drain f2 st.
Proof.
  induction f1 as [|f1 IH]; intros [|f2] st H1 H2; try lia.
  destruct (frame_available (w_buf st)) eqn:Ea; [|rewrite !drain_idle by exact Ea; reflexivity].
  rewrite !drain_S by exact Ea. unfold step_result. destruct (verdict _) as [e|f]; [reflexivity|].
  pose proof (next_shorter st f Ea). rewrite (IH f2) by lia. reflexivity.
Qed.

Definition run (st : ws) : ws * wsout := drain (S (length (w_buf st))) st.
Definition more (st : ws) (D : list byte) : ws := {| w_buf := w_buf st ++ D; w_closed := w_closed st |}.

Lemma more_app st a b : more st (a ++ b) = more (more st a) b.
Proof. unfold more. cbn [w_buf w_closed]. rewrite app_assoc. reflexivity. Qed.

Lemma ws_call_run st data : ws_call st data = run (more st data).
Proof. reflexivity. Qed.

Lemma run_idle st : frame_available (w_buf st) = false -> run st = (st, out0 None).
Proof. apply drain_idle. Qed.

Lemma run_step st : frame_available (w_buf st) = true -> run st = step_result run st.
Proof.
  intro Ea. unfold run at 1. rewrite drain_S by exact Ea. unfold step_result.
  destruct (verdict _) as [e|f]; [reflexivity|]. pose proof (next_shorter st f Ea).
  rewrite (drain_fuel_irrelevant _ (S (length (w_buf (next st f))))) by lia. reflexivity.
Qed.

Lemma run_ind (R : ws -> ws * wsout -> Prop) :
  (forall st, frame_available (w_buf st) = false -> R st (st, out0 None)) ->
  (forall st e, frame_available (w_buf st) = true -> verdict (fst (parse_frame (w_buf st))) = inl e ->
                R st (stop st e)) ->
  (forall st f r, frame_available (w_buf st) = true -> verdict (fst (parse_frame (w_buf st))) = inr f ->
                  R (next st f) r -> R st (out_cons (w_closed st) f r)) ->
  forall st, R st (run st).
Proof.
  intros Hi Hs Hn st. remember (length (w_buf st)) as n eqn:E. revert st E.
  induction n as [n IH] using lt_wf_ind. intros st ->.
  destruct (frame_available (w_buf st)) eqn:Ea; [|rewrite run_idle by exact Ea; apply Hi, Ea].
  rewrite run_step by exact Ea. unfold step_result.
  destruct (verdict _) as [e|f] eqn:Ev; [apply Hs; assumption|].
  apply Hn; [assumption..|]. apply (IH (length (w_buf (next st f)))); [|reflexivity].
  pose proof (next_shorter st f Ea). lia.
Qed.

Lemma run_post st :
  o_error (snd (run st)) <> Some ERecursion /\
  (o_error (snd (run st)) = None -> frame_available (w_buf (fst (run st))) = false).
Proof.
  pattern st, (run st). apply run_ind; clear st.
  - intros s Ea. split; [discriminate | intros _; exact Ea].
  - intros s e Ea Ev. split; [intros [= ->]; exact (verdict_not_recursion _ _ Ea Ev eq_refl) | discriminate].
  - intros s f [st3 o] _ _ IH. exact IH.
Qed.

(* more bytes behind the buffer do not change what the loop does with the buffer *)
Lemma run_app D st :
  run (more st D) =
  let '(st1, o1) := run st in
  match o_error o1 with
  | Some _ => (more st1 D, o1)
  | None => let '(st2, o2) := run (more st1 D) in (st2, out_app o1 o2)
  end.
Proof.
  pattern st, (run st). apply run_ind; clear st.
  - intros s Ea. cbn [out0 o_error]. destruct (run _). rewrite out_app_0. reflexivity.
  - intros s e Ea Ev. rewrite run_step by (apply available_app, Ea).
    unfold step_result, stop, more. cbn [w_buf w_closed]. rewrite (parse_local _ D Ea). cbn [fst snd]. rewrite Ev.
    reflexivity.
  - intros s f [st1 [d1 w1 e1]] Ea Ev IH. rewrite run_step by (apply available_app, Ea).
    unfold step_result, next, more in *. cbn [w_buf w_closed] in *. rewrite (parse_local _ D Ea). cbn [fst snd].
    rewrite Ev, IH. clear IH. cbn [out_cons o_error]. destruct e1; [reflexivity|]. destruct (run _) as [st2 o2].
    unfold out_cons, out_app. cbn [o_error o_delivered o_written app]. rewrite app_assoc. reflexivity.
Qed.

Lemma ws_call_idle st data : frame_available (w_buf st ++ data) = false -> ws_call st data = (more st data, out0 None).
Proof. exact (run_idle (more st data)). Qed.

Lemma chunking_irrelevant chunks : forall st,
  frame_available (w_buf st) = false ->
  let '(s1, o1) := ws_feed st chunks in
  let '(s2, o2) := ws_call st (concat chunks) in
  o1 = o2 /\ (o_error o1 = None -> s1 = s2).
Proof.
  induction chunks as [|c cs IH]; intros st Hst.
  - cbn [ws_feed concat]. rewrite ws_call_idle by (rewrite app_nil_r; exact Hst).
    unfold more. rewrite app_nil_r. destruct st. split; reflexivity.
  - cbn [ws_feed concat]. rewrite !ws_call_run, more_app, (run_app (concat cs)).
    destruct (run_post (more st c)) as (_ & Hs).
    destruct (run (more st c)) as [st1 o1]. cbn [fst snd] in Hs.
    destruct (o_error o1) eqn:Ee.
    + split; [reflexivity|]. intro X. congruence.
    + specialize (IH st1 (Hs eq_refl)). rewrite ws_call_run in IH.
      destruct (ws_feed st1 cs) as [s2 o2]. destruct (run (more st1 (concat cs))) as [s2' o2'].
      destruct IH as [-> Hst2]. split; [reflexivity|]. cbn [o_error]. exact Hst2.
Qed.

Lemma ws_feed_no_recursion chunks : forall st, o_error (snd (ws_feed st chunks)) <> Some ERecursion.
Proof.
  induction chunks as [|c cs IH]; intro st; cbn [ws_feed]; [cbn; discriminate|]. rewrite ws_call_run.
  destruct (run_post (more st c)) as (H & _). destruct (run _) as [st1 o1]. cbn [snd] in H.
  destruct (o_error o1) eqn:E; [cbn [snd]; congruence|].
  specialize (IH st1). destruct (ws_feed st1 cs) as [st2 o2]. exact IH.
Qed.
