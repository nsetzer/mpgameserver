(* Base64P.v — facts about the modelled encoder Model/Base64.v (b64e): its output uses only the 64
   alphabet characters and '=', so it contains no ':' and is ASCII; its length; and the reference
   decoder b64d_strict inverts it, fails with ValueError only and decodes 4*ceil(n/3) characters to n
   bytes (so that the hypotheses made about Python's decoder are jointly satisfiable). *)
From Coq Require Import Lia Nnat.
From Model Require Import Base Base64.
From Proofs Require Import ListP.

Definition b64_char (c : byte) : Prop := In c (b64_pad :: b64_alphabet).

Lemma b64c_char : forall n, b64_char (b64c n).
Proof.
  intro n. right. unfold b64c. destruct (Nat.lt_ge_cases (N.to_nat n) (length b64_alphabet)) as [H|H].
  - apply nth_In; exact H.
  - rewrite nth_overflow by exact H. left; reflexivity.
Qed.

Lemma b64e_chars : forall x, Forall b64_char (b64e x).
Proof.
  assert (HP : b64_char b64_pad) by (left; reflexivity).
  induction x as [|a|a b|a b c r IH] using list_ind3; cbn [b64e]; cbv zeta;
    repeat (apply Forall_cons; [first [apply b64c_char | exact HP]|]); [constructor ..|exact IH].
Qed.

(* one pass over the 65 characters *)
Lemma b64_char_plain : forall c, b64_char c -> c <> ":"%byte /\ (Byte.to_N c < 128)%N.
Proof.
  assert (T : forallb (fun c => negb (Byte.eqb c ":") && (Byte.to_N c <? 128)%N) (b64_pad :: b64_alphabet) = true)
    by reflexivity.
  intros c H. apply (proj1 (forallb_forall _ _) T), andb_true_iff in H. destruct H as [H1 H2].
  split; [apply Byte.eqb_false, negb_true_iff, H1 | apply N.ltb_lt, H2].
Qed.

Lemma b64e_no_colon : forall x, ~ In ":"%byte (b64e x).
Proof.
  intros x H. pose proof (b64e_chars x) as F. rewrite Forall_forall in F.
  exact (proj1 (b64_char_plain _ (F _ H)) eq_refl).
Qed.

Lemma b64e_ascii : forall x, Forall (fun c => (Byte.to_N c < 128)%N) (b64e x).
Proof.
  intro x. eapply Forall_impl; [|apply b64e_chars]. intros c H. apply b64_char_plain, H.
Qed.

Lemma div3_step : forall r : nat, ((S (S (S r)) + 2) / 3 = 1 + (r + 2) / 3)%nat.
Proof.
  intro r. replace (S (S (S r)) + 2)%nat with (1 * 3 + (r + 2))%nat by lia.
  rewrite Nat.div_add_l by lia. reflexivity.
Qed.

Lemma b64e_length : forall x, length (b64e x) = (4 * ((length x + 2) / 3))%nat.
Proof.
  induction x as [|a|a b|a b c r IH] using list_ind3; cbn [b64e length]; try reflexivity.
  rewrite IH, div3_step. lia.
Qed.

(* one pass over the table: the alphabet has no repetition and does not contain '=' *)
Lemma b64i_b64c : forall n, (n < 64)%N -> b64i (b64c n) = Some n /\ Byte.eqb (b64c n) b64_pad = false.
Proof.
  assert (T : forallb (fun k => match b64i (b64c (N.of_nat k)) with Some m => (m =? N.of_nat k)%N | None => false end
                                && negb (Byte.eqb (b64c (N.of_nat k)) b64_pad)) (seq 0 64) = true)
    by reflexivity.
  intros n H. rewrite forallb_forall in T. specialize (T (N.to_nat n)). rewrite N2Nat.id in T.
  destruct (andb_prop _ _ (T ltac:(apply in_seq; lia))) as [T1 T2].
  destruct (b64i (b64c n)) as [m|]; [|discriminate]. apply N.eqb_eq in T1. apply negb_true_iff in T2. subst m. auto.
Qed.

Lemma byte_of_to_N : forall a n, n = Byte.to_N a -> byte_of_N n = a.
Proof.
  intros a n ->. unfold byte_of_N. pose proof (Byte.to_N_bounded a).
  rewrite N.mod_small by lia. rewrite Byte.of_to_N. reflexivity.
Qed.

(* The encoder cuts each byte at 4, 16 or 64 and glues neighbouring pieces as q * d + r with r < d; the
   decoder's / d and mod d give q and r back.  With the pieces as atoms the rest is linear. *)
Lemma div_add_small : forall q r d, (r < d)%N -> ((q * d + r) / d = q /\ (q * d + r) mod d = r)%N.
Proof.
  intros q r d H. assert (E : (q * d + r = d * q + r)%N) by lia.
  split; symmetry; [apply (N.div_unique _ _ _ r H E) | apply (N.mod_unique _ _ q _ H E)].
Qed.

Lemma byte_cut : forall a d, d <> 0%N -> exists q r,
  ((Byte.to_N a / d = q /\ Byte.to_N a mod d = r) /\ Byte.to_N a = d * q + r /\ r < d /\ Byte.to_N a <= 255)%N.
Proof.
  intros a d H. exists (Byte.to_N a / d)%N, (Byte.to_N a mod d)%N.
  repeat split; [apply N.div_mod' | apply N.mod_lt, H | apply Byte.to_N_bounded].
Qed.

Lemma b64d_strict_roundtrip : forall x, b64d_strict (b64e x) = Ok x.
Proof.
  assert (I : forall n, (n < 64)%N -> b64i (b64c n) = Some n) by (intros; apply b64i_b64c; assumption).
  assert (P : forall n, (n < 64)%N -> Byte.eqb (b64c n) b64_pad = false) by (intros; apply b64i_b64c; assumption).
  induction x as [|a|a b|a b c r IH] using list_ind3.
  - reflexivity.
  - cbn [b64e b64d_strict]. destruct (byte_cut a 4) as [a1 [a0 [[-> ->] Ha]]]; [discriminate|].
    rewrite !I by lia. change (Byte.eqb b64_pad b64_pad) with true. cbv iota.
    rewrite N.div_mul by discriminate. f_equal. f_equal. apply byte_of_to_N. lia.
  - cbn [b64e b64d_strict]. destruct (byte_cut a 4) as [a1 [a0 [[-> ->] Ha]]]; [discriminate|].
    destruct (byte_cut b 16) as [b1 [b0 [[-> ->] Hb]]]; [discriminate|].
    rewrite !I by lia. change (Byte.eqb b64_pad b64_pad) with true. cbv iota. rewrite P by lia.
    destruct (div_add_small a0 b1 16) as [-> ->]; [lia|].
    rewrite N.div_mul by discriminate. f_equal. f_equal; [|f_equal]; apply byte_of_to_N; lia.
  - cbn [b64e]. cbv zeta. cbn [b64d_strict]. destruct (byte_cut a 4) as [a1 [a0 [[-> ->] Ha]]]; [discriminate|].
    destruct (byte_cut b 16) as [b1 [b0 [[-> ->] Hb]]]; [discriminate|].
    destruct (byte_cut c 64) as [c1 [c0 [[-> ->] Hc]]]; [discriminate|].
    rewrite !I by lia. rewrite (P c0) by lia. rewrite IH.
    destruct (div_add_small a0 b1 16) as [-> ->]; [lia|].
    destruct (div_add_small b0 c1 4) as [-> ->]; [lia|].
    f_equal. f_equal; [|f_equal; [|f_equal]]; apply byte_of_to_N; lia.
Qed.

Lemma b64e_inj : forall x y, b64e x = b64e y -> x = y.
Proof.
  intros x y E. pose proof (b64d_strict_roundtrip x) as R. rewrite E, b64d_strict_roundtrip in R. congruence.
Qed.

Lemma b64d_strict_result : forall l,
  match b64d_strict l with
  | Ok y => length l = (4 * ((length y + 2) / 3))%nat
  | Err e => e = EValue
  end.
Proof.
  induction l as [|a|a b|a b c|a b c d r IH] using list_ind4; cbn [b64d_strict]; try reflexivity.
  destruct (b64i a); [|reflexivity]. destruct (b64i b); [|reflexivity].
  destruct (Byte.eqb d b64_pad).
  - destruct r; [|reflexivity]. destruct (Byte.eqb c b64_pad); [reflexivity|]. destruct (b64i c); reflexivity.
  - destruct (b64i c); [|reflexivity]. destruct (b64i d); [|reflexivity].
    destruct (b64d_strict r); [|exact IH]. cbn [length]. rewrite IH, div3_step. lia.
Qed.

Lemma b64d_strict_err : forall l e, b64d_strict l = Err e -> e = EValue.
Proof. intros l e H. pose proof (b64d_strict_result l) as R. rewrite H in R. exact R. Qed.

Lemma b64d_strict_prefix : forall x m y,
  (m < length (b64e x))%nat -> b64d_strict (firstn m (b64e x)) = Ok y -> (length y < length x)%nat.
Proof.
  intros x m y Hm H. pose proof (b64d_strict_result (firstn m (b64e x))) as R. rewrite H in R.
  rewrite firstn_length_le in R by lia. rewrite b64e_length in Hm.
  apply Nat.nle_gt. intro G.
  assert ((length x + 2) / 3 <= (length y + 2) / 3)%nat by (apply Nat.div_le_mono; lia). lia.
Qed.
