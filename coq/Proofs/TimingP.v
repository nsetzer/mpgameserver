(* C12, one endpoint: keep-alive cadence, liveness clock, DROPPED / connect time-out, and the
   configuration glue (UdpClient setters, ServerContext settings). *)
From Coq Require Import Lia ZifyBool.
From RecordUpdate Require Import RecordUpdate.
From Model Require Import Base Wire Conn Client.
From Proofs Require Import ConnFrameP PackP AssemblyP.
Import RecordSetNotations.
Open Scope Z_scope.

Lemma tick_tail_keepalive strict e c now c' o2 o3 :
  c_status c = CONNECTED -> c_outgoing c = [] -> c_pretry_msg c = [] ->
  c_send_interval c < now - c_last_send c -> c_ka_interval c < now - c_last_ka c ->
  tick_tail strict e c now = (c', o2, o3) ->
  (exists h, In (OEmit h (c_key c) []) o2 /\ h_type h = KEEP_ALIVE) /\ c_last_ka c' = now /\ c_last_send c' = now.
Proof.
  intros Hs Ho Hp Hsi Hka E. destruct (tick_tail_idle _ _ _ _ _ _ _ Hs Ho Hp Hsi E) as (_ & _ & H).
  replace (now - c_last_ka c >? c_ka_interval c) with true in H by lia. destruct H as (-> & _ & L1 & L2).
  split; [eexists; split; [left; reflexivity|reflexivity]|auto].
Qed.

Theorem server_tick_keepalive e c now c' o :
  c_status c = CONNECTED -> c_outgoing c = [] -> c_pretry_msg c = [] ->
  c_send_interval c < now - c_last_send c -> c_ka_interval c < now - c_last_ka c ->
  server_tick e c now = (c', o) ->
  (exists h, In (OEmit h (c_key c) []) o /\ h_type h = KEEP_ALIVE) /\ c_last_ka c' = now /\ c_last_send c' = now.
Proof.
  intros Hs Ho Hp Hsi Hka. rewrite server_tick_eq. replace (now - c_last_send c >? c_send_interval c) with true by lia.
  destruct (tick_tail true e c now) as [[c2 o2] o3] eqn:E2. intros E; injection E as <- <-.
  destruct (tick_tail_keepalive _ _ _ _ _ _ _ Hs Ho Hp Hsi Hka E2) as ((h & Hin & Ht) & L).
  split; [exists h; split; [apply in_or_app; right; exact Hin|exact Ht]|exact L].
Qed.

(* the client-side tick (UdpClient.update with nothing to read) *)
Theorem client_tick_keepalive e c now c' o :
  c_status c = CONNECTED -> c_outgoing c = [] -> c_pretry_msg c = [] -> c_hello_sent c = 0 ->
  (c_last_recv c <= 0 \/ now <= c_last_recv c + 5 * TICKS) ->
  c_send_interval c < now - c_last_send c -> c_ka_interval c < now - c_last_ka c ->
  client_tick e c now RxNone = (c', o) ->
  (exists h, In (OEmit h (c_key c) []) o /\ h_type h = KEEP_ALIVE) /\ c_last_ka c' = now /\ c_last_send c' = now.
Proof.
  intros Hs Ho Hp Hh Hr Hsi Hka. rewrite (client_tick_up _ _ _ _ Hh Hs) by lia. cbn [rx_recv raised existsb app].
  replace (now - c_last_send c >? c_send_interval c) with true by lia.
  destruct (tick_tail false e c now) as [[c2 o2] o3] eqn:E2. intros E; injection E as <- <-.
  destruct (tick_tail_keepalive _ _ _ _ _ _ _ Hs Ho Hp Hsi Hka E2) as ((h & Hin & Ht) & L).
  split; [exists h; split; [apply in_or_app; left; exact Hin|exact Ht]|exact L].
Qed.

Lemma build_packet_due e c now c' r :
  c_status c = CONNECTED -> no_unknown c ->
  c_send_interval c <= now - c_last_send c -> c_ka_interval c < now - c_last_ka c ->
  build_packet e c now = (c', r) -> r <> None /\ c_last_send c' = now /\ c_last_ka c' = now.
Proof.
  intros Hs Hnu Hsi Hka E. destruct (build_packet_open e c now c' r Hsi E) as (c1 & E1 & ->).
  replace (now - c_last_ka c >? c_ka_interval c) with true in E1 by lia. rewrite build_impl_eq in E1.
  destruct (select e c now (c_ka_interval c)) as [[prm rem] msgs] eqn:Es.
  (* with nothing selected a keep-alive is built, and nothing of type UNKNOWN is ever selected *)
  assert (Hty : ptype_eqb (packet_type true c msgs) UNKNOWN = false).
  { unfold packet_type. destruct msgs as [|m0 msgs']; [rewrite Hs; reflexivity|].
    pose proof (Hnu m0 (select_from _ _ _ _ _ _ _ Es m0 (or_introl eq_refl))) as Hu.
    destruct (m_type m0); try reflexivity. destruct Hu. reflexivity. }
  rewrite Hty in E1. injection E1 as <- <-. cbn. repeat split; auto. discriminate.
Qed.

(* any CONNECTED connection, whatever is queued: after a tick, either a packet was assembled at
   this tick or the last assembly is at most max(keep-alive interval, send interval) old *)
Theorem server_tick_cadence e c now c' o :
  c_status c = CONNECTED -> no_unknown c -> c_last_send c = c_last_ka c ->
  server_tick e c now = (c', o) ->
  c_last_send c' = c_last_ka c' /\
  (c_last_ka c' = now \/
   (c_last_ka c' = c_last_ka c /\ now - c_last_ka c <= Z.max (c_ka_interval c) (c_send_interval c))).
Proof.
  intros Hs Hnu Heq. rewrite server_tick_eq. destruct (now - c_last_send c >? c_send_interval c) eqn:Hg.
  2:{ intros E; injection E as <- <-. split; [exact Heq|right; split; [reflexivity|lia]]. }
  destruct (tick_tail true e c now) as [[c2 o2] o3] eqn:E2. intros E; injection E as <- <-.
  apply tick_tail_cases in E2 as (c1 & pk & E1 & E2 & _). apply check_timeout_wr, wr_resolve_sess in E2 as [S2 _].
  rewrite (sc_last_ka _ _ S2), (sc_last_send _ _ S2).
  destruct (c_ka_interval c <? now - c_last_ka c) eqn:Hk.
  - destruct (build_packet_due e c now c1 pk Hs Hnu ltac:(lia) ltac:(lia) E1) as (_ & L1 & L2).
    split; [congruence|left; exact L2].
  - destruct (build_packet_open e c now c1 pk ltac:(lia) E1) as (c1' & E3 & ->). apply build_impl_wr in E3.
    pose proof (wr_keeps W_impl c_last_send (fun _ _ => eq_refl) E3) as L. pose proof (wr_keeps W_impl c_last_ka (fun _ _ => eq_refl) E3) as Lk.
    destruct pk; cbn; [auto|]. split; [congruence|right; split; [exact Lk|lia]].
Qed.

Definition accepted (o : list out) : Prop := In (ORet true) o.

Theorem recv_clock c now d orcs c' o :
  recv c now d orcs = (c', o) ->
  (accepted o -> c_last_recv c' = now) /\ (~ accepted o -> ~ raised o = true -> c_last_recv c' = c_last_recv c).
Proof.
  unfold accepted. intros E.
  apply recv_cases in E as [(-> & -> & _)|(ms & bf & c1 & o1 & o2 & _ & _ & _ & E1 & E2 & ->)].
  { split; [intros [H|[]]; discriminate|intros; reflexivity]. }
  apply handle_ack_bits_wr, wr_resolve_sess in E1 as S1. apply recv_msgs_wr, (wr_keeps W_msgs c_last_recv (fun _ _ => eq_refl)) in E2 as R2.
  assert (Hc : c_last_recv c' = now) by (rewrite R2, (ss_last_recv _ _ S1); reflexivity).
  split; [intros _; exact Hc|]. intros Hna Hnr. exfalso. rewrite !raised_app in Hnr.
  destruct (raised o2); [apply Hnr; rewrite !orb_true_r; reflexivity|].
  apply Hna. apply in_or_app. right. apply in_or_app. right. left. reflexivity.
Qed.

Theorem sweep_drops_spec timeout c now :
  sweep_drops timeout c now = true <-> (c_status c = DISCONNECTED \/ timeout <= now - c_last_recv c).
Proof.
  unfold sweep_drops, timedout. rewrite orb_true_iff. split.
  - intros [H|H]; [left; destruct (c_status c); try discriminate; reflexivity|right; lia].
  - intros [H|H]; [left; rewrite H; reflexivity|right; lia].
Qed.

Theorem client_update_spec c now c' o :
  client_update c now = (c', o) ->
  let silent := (c_last_recv c >? 0) && (now >? c_last_recv c + 5 * TICKS) in
  let expired := negb (c_hello_sent c =? 0) && (now - c_hello_sent c >? c_temp_timeout c) in
  c_status c' = (if expired then DISCONNECTED else if silent then DROPPED else c_status c) /\
  c_hello_sent c' = (if expired then 0 else c_hello_sent c) /\
  o = (if expired && c_conn_cb c then [OConnCb false] else []) /\
  c_conn_cb c' = c_conn_cb c /\ c_key c' = c_key c /\ c_last_recv c' = c_last_recv c.
Proof.
  unfold client_update. intros E. cbn zeta.
  destruct ((c_last_recv c >? 0) && (now >? c_last_recv c + 5 * TICKS)); cbn in E;
    destruct (negb (c_hello_sent c =? 0) && (now - c_hello_sent c >? c_temp_timeout c));
    injection E as <- <-; cbn; destruct (c_conn_cb c); repeat split; reflexivity.
Qed.

Record same_cfg (c c' : conn) : Prop := {
  cf_ka : c_ka_interval c' = c_ka_interval c;
  cf_ot : c_out_timeout c' = c_out_timeout c;
  cf_tt : c_temp_timeout c' = c_temp_timeout c;
  cf_si : c_send_interval c' = c_send_interval c }.
Lemma wr_cfg m : (forall c d, same_cfg c (over m c d)) -> forall c c', wr m c c' -> same_cfg c c'.
Proof. intros H c c' [d ->]. apply H. Qed.

Definition is_setcfg (x : ev) : bool := match x with ESetCfg _ _ => true | _ => false end.

Definition W_nocfg : mask := fun f => negb (W_cfg f).

Lemma step_cfg e c x c' o : is_setcfg x = false -> step e c x = (c', o) -> same_cfg c c'.
Proof.
  intros Hx E. apply (wr_cfg W_nocfg); [intros; constructor; reflexivity|].
  apply step_acts in E as (c1 & o1 & ot & H1 & Ht & _). apply (wr_trans _ _ c1).
  - apply (star_rel (atom e x) (fun a b _ => wr W_nocfg a b)) in H1; [exact H1|intros; apply wr_refl|intros a b d _ _; apply wr_trans|].
    intros a b o0 H. destruct (atom_cases H) as [W|[(h & Ea)|[(k & _ & ->)|(w & v & -> & _)]]]; [| | |discriminate Hx].
    + revert W. apply wr_sub. reflexivity.
    + apply (wr_sub W_resolve); [reflexivity|eapply handle_ack_bits_wr, Ea].
    + apply (wr_sub W_disc); [reflexivity|apply disconnect_wr].
  - destruct Ht as [|strict c2 o2 o3 _ T]; [apply wr_refl|]. apply (wr_sub W_tail); [reflexivity|eapply tick_tail_wr, T].
Qed.

(* UdpClient: the connection always has the settings last made *)
Definition ucfg_inv (u : uclient) : Prop :=
  match u_conn u with
  | Some c => c_ka_interval c = u_ka u /\ c_temp_timeout c = u_tt u /\ c_out_timeout c = u_ot u
  | None => True
  end.

Definition uop_ok (op : uop) : Prop := match op with UConn x => is_setcfg x = false | _ => True end.

Lemma ustep_cfg e u op u' o : ucfg_inv u -> uop_ok op -> ustep e u op = (u', o) -> ucfg_inv u'.
Proof.
  unfold ucfg_inv. intros I Hok E. destruct op; cbn [ustep] in E.
  1-3: injection E as <- <-; unfold on_conn; cbn; destruct (u_conn u) as [c|]; [cbn; tauto|exact I].
  - injection E as <- <-. cbn. unfold client_hello, send_type. cbn. auto.
  - destruct (u_conn u) as [c|] eqn:Ec; [|injection E as <- <-; rewrite Ec; exact I].
    destruct (step e c x) as [c' o'] eqn:Es. injection E as <- <-. cbn.
    destruct (step_cfg _ _ _ _ _ Hok Es) as [A B C D]. destruct I as (I1 & I2 & I3). repeat split; congruence.
Qed.

(* the last value given to each setter, in any order relative to connect *)
Definition last_ka (ops : list uop) (d : Z) : Z :=
  fold_left (fun acc op => match op with USetKeepAlive v => v | _ => acc end) ops d.
Definition last_tt (ops : list uop) (d : Z) : Z :=
  fold_left (fun acc op => match op with USetConnTimeout v => v | _ => acc end) ops d.
Definition last_ot (ops : list uop) (d : Z) : Z :=
  fold_left (fun acc op => match op with USetMsgTimeout v => v | _ => acc end) ops d.

Lemma ustep_fields e u op u' o : ustep e u op = (u', o) ->
  u_ka u' = match op with USetKeepAlive v => v | _ => u_ka u end /\
  u_tt u' = match op with USetConnTimeout v => v | _ => u_tt u end /\
  u_ot u' = match op with USetMsgTimeout v => v | _ => u_ot u end.
Proof.
  intros E. destruct op; cbn [ustep] in E; try (injection E as <- <-; unfold on_conn; cbn; auto).
  destruct (u_conn u); [destruct (step e c x)|]; injection E as <- <-; cbn; auto.
Qed.

Theorem setters_effective e ops : forall u u' os,
  ucfg_inv u -> Forall uop_ok ops -> urun e u ops = (u', os) ->
  ucfg_inv u' /\ u_ka u' = last_ka ops (u_ka u) /\ u_tt u' = last_tt ops (u_tt u) /\ u_ot u' = last_ot ops (u_ot u).
Proof.
  induction ops as [|op r IH]; intros u u' os I Hok E; cbn [urun] in E.
  - injection E as <- <-. cbn. auto.
  - inversion Hok as [|? ? H1 H2]; subst.
    destruct (ustep e u op) as [u1 o] eqn:E1. destruct (urun e u1 r) as [u2 os'] eqn:E2. injection E as <- <-.
    pose proof (ustep_cfg _ _ _ _ _ I H1 E1) as I1. destruct (ustep_fields _ _ _ _ _ E1) as (F1 & F2 & F3).
    destruct (IH _ _ _ I1 H2 E2) as (I2 & G1 & G2 & G3).
    unfold last_ka, last_tt, last_ot in *. cbn [fold_left]. rewrite <- F1, <- F2, <- F3. auto.
Qed.

Definition slast (f : sop -> option Z) (ops : list sop) (d : Z) : Z :=
  fold_left (fun acc op => match f op with Some v => v | None => acc end) ops d.

Theorem server_settings_effective ops : forall s,
  let s' := fold_left sstep ops s in
  s_ka s' = slast (fun op => match op with SSetKeepAlive v => Some v | _ => None end) ops (s_ka s) /\
  s_conn_timeout s' = slast (fun op => match op with SSetConnTimeout v => Some v | _ => None end) ops (s_conn_timeout s) /\
  s_temp_timeout s' = slast (fun op => match op with SSetTempTimeout v => Some v | _ => None end) ops (s_temp_timeout s) /\
  s_ot s' = slast (fun op => match op with SSetMsgTimeout v => Some v | _ => None end) ops (s_ot s) /\
  c_ka_interval (new_server_conn s') = s_ka s' /\ c_out_timeout (new_server_conn s') = s_ot s'.
Proof.
  induction ops as [|op r IH]; intros s; cbn [fold_left]; [cbn; auto 10|].
  specialize (IH (sstep s op)). cbn zeta in IH. unfold slast in *. cbn [fold_left].
  destruct op; cbn in *; exact IH.
Qed.

(* the connect callback reports failure at most once per connect *)
Definition nocf (o : list out) : Prop := ~ In (OConnCb false) o.

Lemma nocf_app a b : nocf a -> nocf b -> nocf (a ++ b).
Proof. intros A B H. apply in_app_or in H as [H|H]; auto. Qed.
Lemma cb_only_nocf o : cb_only o -> nocf o.
Proof. intros H Hin. unfold cb_only in H. rewrite Forall_forall in H. apply H in Hin. exact Hin. Qed.
Lemma nocf_nil : nocf []. Proof. intros []. Qed.
Lemma nocf_one x : x <> OConnCb false -> nocf [x].
Proof. intros H [E|[]]. exact (H E). Qed.

Lemma emit_nocf c pk : nocf (emit c pk).
Proof.
  destruct pk as [h ms]. destruct (emit_cases c h ms) as [(er & _ & ->)|(p & _ & ->)]; apply nocf_one; discriminate.
Qed.

Definition is_hello_ev (x : ev) : bool := match x with EClientHello _ _ => true | _ => false end.

(* once the hello timer is clear (answered, timed out, or never started) it stays clear and the
   callback does not report failure *)
Definition clear_hello (c c' : conn) (o : list out) : Prop := c_hello_sent c = 0 -> c_hello_sent c' = 0 /\ nocf o.

Lemma clear_hello_refl c : clear_hello c c []. Proof. intros H. split; [exact H|apply nocf_nil]. Qed.
Lemma clear_hello_trans a b c o1 o2 : clear_hello a b o1 -> clear_hello b c o2 -> clear_hello a c (o1 ++ o2).
Proof. intros H1 H2 Ha. destruct (H1 Ha) as [Hb N1]. destruct (H2 Hb) as [Hc N2]. split; [exact Hc|apply nocf_app; assumption]. Qed.
Lemma clear_hello_same c c' o : c_hello_sent c' = c_hello_sent c -> nocf o -> clear_hello c c' o.
Proof. intros E N H. split; [congruence|exact N]. Qed.

Lemma atom_clear_hello e x c c' o : is_hello_ev x = false -> atom e x c c' o -> clear_hello c c' o.
Proof.
  (* one case per atom, in the order of catom, datom, matom.  Only a_update (client_update, 7th) and a_hs
     (recv_handshake, last) write c_hello_sent, and from 0 both leave 0 and report no failure; a_hello would
     start the timer and is excluded by Hx (4th); the rest keep the field (clear_hello_same) *)
  intros Hx H. destruct H as [H|H|H];
    [destruct H as [p r k c1 o1 Ex E|k Ex|w v Ex|now hello Ex|Ex|b Ex|now r c1 o1 Ex E|now er Ex]
    |destruct H as [o1 Ho|s bf Eb|h c1 o1 Hl E|o1 Ho]
    |destruct H as [s bf Eb|s p|s p c1 o1 E| |ty oo c1 os Hty Hk E]].
  - apply clear_hello_same; [exact (wr_keeps W_send c_hello_sent (fun _ _ => eq_refl) (send_wr E))|].
    destruct (send_out E) as [->| ->]; [apply nocf_nil|apply nocf_one; discriminate].
  - apply clear_hello_same; [exact (wr_keeps W_disc c_hello_sent (fun _ _ => eq_refl) (disconnect_wr c k))|apply nocf_nil].
  - apply clear_hello_same; [|apply nocf_nil]. subst x. exact (wr_keeps W_cfg c_hello_sent (fun _ _ => eq_refl) (setcfg_wr e c w v)).
  - subst x. discriminate Hx.
  - apply clear_hello_same; [reflexivity|apply nocf_nil].
  - apply clear_hello_same; [reflexivity|apply nocf_nil].
  - intros H0. destruct (client_update_spec _ _ _ _ E) as (_ & Hh & -> & _). rewrite H0 in *. cbn in *. split; [exact Hh|apply nocf_nil].
  - apply clear_hello_same; [reflexivity|apply nocf_one; discriminate].
  - apply clear_hello_same; [reflexivity|]. destruct Ho as [->| ->]; [apply nocf_nil|apply nocf_one; discriminate].
  - apply clear_hello_same; [reflexivity|apply nocf_nil].
  - apply clear_hello_same; [exact (wr_keeps W_resolve c_hello_sent (fun _ _ => eq_refl) (handle_ack_bits_wr E))|].
    apply cb_only_nocf. eapply ack_loop_cb_only; exact E.
  - apply clear_hello_same; [reflexivity|]. destruct Ho as [->| ->]; [apply nocf_nil|apply nocf_one; discriminate].
  - apply clear_hello_same; [reflexivity|apply nocf_nil].
  - apply clear_hello_same; [reflexivity|apply nocf_nil].
  - apply clear_hello_same; [exact (wr_keeps W_frag c_hello_sent (fun _ _ => eq_refl) (recv_fragment_wr E))|].
    destruct (recv_fragment_out E) as [->| ->]; [apply nocf_nil|apply nocf_one; discriminate].
  - apply clear_hello_same; [reflexivity|apply nocf_nil].
  - intros H0. destruct (recv_handshake_inv _ _ _ _ _ E) as [os' _ _ [->|(er & ->)]|_ _ _ _|_ _ _ _|_ _ _|_ _ _];
      (split; [try exact H0; reflexivity|]); try apply nocf_nil; try (apply nocf_one; discriminate).
    destruct (c_conn_cb c); [apply nocf_one; discriminate|apply nocf_nil].
Qed.

Lemma tick_tail_clear_hello strict e c now c' o2 o3 : tick_tail strict e c now = (c', o2, o3) ->
  clear_hello c c' (if strict then o3 ++ o2 else o2 ++ o3).
Proof.
  intros E. pose proof (wr_keeps W_tail c_hello_sent (fun _ _ => eq_refl) (tick_tail_wr E)) as Hh.
  apply tick_tail_cases in E as (c1 & pk & E1 & E2 & ->).
  pose proof (cb_only_nocf _ (timeout_loop_cb_only E2)) as N3.
  assert (N2 : nocf (match pk with Some p => emit c1 p | None => [] end)) by (destruct pk; [apply emit_nocf|apply nocf_nil]).
  apply clear_hello_same; [exact Hh|destruct strict; apply nocf_app; assumption].
Qed.

Lemma step_nocf e c x c' o :
  c_hello_sent c = 0 -> is_hello_ev x = false -> step e c x = (c', o) -> c_hello_sent c' = 0 /\ nocf o.
Proof.
  intros H0 Hx E. revert H0. change (clear_hello c c' o). apply step_acts in E as (c1 & o1 & ot & H1 & Ht & ->).
  apply (clear_hello_trans _ c1).
  - revert H1. apply star_rel; [apply clear_hello_refl|apply clear_hello_trans|]. intros a b o0. apply atom_clear_hello, Hx.
  - destruct Ht as [|strict c2 o2 o3 _ T]; [apply clear_hello_refl|eapply tick_tail_clear_hello, T].
Qed.

Theorem connect_failure_once e xs : forall c c' oss,
  c_hello_sent c = 0 -> forallb (fun x => negb (is_hello_ev x)) xs = true -> run e c xs = (c', oss) ->
  c_hello_sent c' = 0 /\ Forall nocf oss.
Proof.
  induction xs as [|x r IH]; intros c c' oss H0 Hx E; cbn [run] in E.
  - injection E as <- <-. auto.
  - cbn [forallb] in Hx. apply andb_prop in Hx as [Hx Hr]. apply negb_true_iff in Hx.
    destruct (step e c x) as [c1 o] eqn:E1. destruct (run e c1 r) as [c2 os] eqn:E2. injection E as <- <-.
    destruct (step_nocf _ _ _ _ _ H0 Hx E1) as [H1 N1]. destruct (IH _ _ _ H1 Hr E2) as [H2 N2]. auto.
Qed.
