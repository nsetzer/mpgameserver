(* The wire codecs invert: header, message list, datagram framing (C09). *)
From Coq Require Import Lia ZifyBool.
From Model Require Import Base Wire.
From Proofs Require Export BytesP.
Open Scope Z_scope.

(* Wire.be / Wire.unbe are Ser.be_enc / Ser.be_dec by conversion (BytesP.wire_be, wire_unbe); these are BytesP's
   lemmas under Wire's names, so that rewriting finds them in terms written with [be] and [unbe] *)
Lemma be_length n z : length (be n z) = n.
Proof. exact (be_enc_length n z). Qed.
Lemma unbe_be n z : 0 <= z < 256 ^ Z.of_nat n -> unbe (be n z) = z.
Proof. intros H. rewrite <- (Z.mod_small _ _ H) at 2. exact (be_dec_enc n z). Qed.
Lemma unbe_range l : 0 <= unbe l < 256 ^ len l.
Proof. exact (be_dec_range l). Qed.

Lemma be_unbe l : be (length l) (unbe l) = l.
Proof.
  rewrite wire_unbe. induction l as [|b l IH] using rev_ind; [reflexivity|].
  rewrite app_length, Nat.add_comm. cbn [length Nat.add be]. rewrite be_dec_app1. pose proof (Z_of_byte_range b).
  rewrite Z.div_add_l, Z.div_small, Z.add_0_r, IH by lia. f_equal. f_equal.
  rewrite <- (byte_of_Z_of_byte b) at 2. unfold byte_of_Z. rewrite Z.add_comm, Z.mod_add by lia. reflexivity.
Qed.

(* the fields the decoders read, once the slices are computed *)
Lemma unbe1 z : 0 <= z < 2 ^ 8 -> unbe [byte_of_Z z] = z.
Proof. exact (unbe_be 1 z). Qed.
Lemma unbe2 z : 0 <= z < 2 ^ 16 -> unbe [byte_of_Z (z / 256); byte_of_Z z] = z.
Proof. exact (unbe_be 2 z). Qed.
Lemma unbe4 z : 0 <= z < 2 ^ 32 ->
  unbe [byte_of_Z (z / 256 / 256 / 256); byte_of_Z (z / 256 / 256); byte_of_Z (z / 256); byte_of_Z z] = z.
Proof. exact (unbe_be 4 z). Qed.

Lemma ptype_code_roundtrip t : ptype_of_code (ptype_code t) = Some t.
Proof. destruct t; reflexivity. Qed.
Lemma ptype_code_range t : 0 <= ptype_code t < 8.
Proof. destruct t; cbn; lia. Qed.

Lemma sub_mid a x r from n : length a = from -> length x = n -> sub (a ++ x ++ r) from n = x.
Proof. intros <- <-. unfold sub. rewrite skipn_app_exact. apply firstn_app_exact. Qed.

Lemma in_range_spec bits z : in_range bits z = true <-> 0 <= z < 2 ^ bits.
Proof. intros. unfold in_range. lia. Qed.

Lemma encode_header_ok h bs : encode_header h = Ok bs -> header_ok h = true.
Proof. unfold encode_header. destruct (header_ok h); [reflexivity|discriminate]. Qed.

Lemma encode_header_length h bs : encode_header h = Ok bs -> length bs = 20%nat.
Proof.
  unfold encode_header. destruct (header_ok h); [|discriminate]. intros E. injection E as <-.
  rewrite app_length. destruct (h_to_server h); reflexivity.
Qed.

Lemma hdr_roundtrip h : header_ok h = true ->
  exists bs, encode_header h = Ok bs /\ length bs = 20%nat
             /\ forall rest, decode_header (h_to_server h) (bs ++ rest) = Ok h.
Proof.
  intros Hok. destruct (encode_header h) as [bs|] eqn:E; [|unfold encode_header in E; rewrite Hok in E; discriminate].
  exists bs. split; [reflexivity|]. split; [exact (encode_header_length _ _ E)|].
  intros rest. unfold encode_header in E. rewrite Hok in E. injection E as <-.
  unfold header_ok in Hok. repeat (apply andb_prop in Hok as [Hok ?]).
  repeat match goal with H : in_range _ _ = true |- _ => apply in_range_spec in H end.
  destruct h as [ts ct sq ak ty ln cn ab]. cbn [h_to_server h_ctime h_seq h_ack h_type h_len h_count h_ackbits] in *.
  pose proof (ptype_code_range ty).
  (* the slices of the 20 bytes are computed; each is the encoding of its field again *)
  unfold decode_header.
  destruct ts; cbn [MAGIC_TO_SERVER MAGIC_TO_CLIENT map be app firstn skipn sub length Nat.eqb negb];
    rewrite !unbe4, !unbe2, !unbe1, ptype_code_roundtrip by lia;
    repeat (match goal with |- context [bytes_eqb ?a ?b] =>
              let v := eval vm_compute in (bytes_eqb a b) in change (bytes_eqb a b) with v end);
    reflexivity.
Qed.

Definition enc_multi (ms : list wmsg) : res (list byte) :=
  fold_right (fun m acc =>
        do rest <- acc;
        if in_range 16 (len (w_payload m)) && in_range 16 (w_seq m)
        then Ok (be 2 (len (w_payload m)) ++ be 2 (w_seq m) ++ [byte_of_Z (ptype_code (w_type m))]
                 ++ w_payload m ++ rest)
        else Err EStruct) (Ok []) ms.

Lemma encode_msgs_multi m1 m2 r : encode_msgs (m1 :: m2 :: r) = enc_multi (m1 :: m2 :: r).
Proof. reflexivity. Qed.

Definition msg_fits (m : wmsg) : bool := in_range 16 (len (w_payload m)) && in_range 16 (w_seq m).
Definition enc_msg (m : wmsg) : list byte :=
  be 2 (len (w_payload m)) ++ be 2 (w_seq m) ++ [byte_of_Z (ptype_code (w_type m))] ++ w_payload m.

(* Packet.create for several messages, in closed form: struct.error as soon as one length or sequence
   number does not fit 16 bits, else the concatenation of the framed messages *)
Lemma enc_multi_eq ms : enc_multi ms = if forallb msg_fits ms then Ok (flat_map enc_msg ms) else Err EStruct.
Proof.
  induction ms as [|m ms IH]; [reflexivity|]. cbn [enc_multi fold_right forallb flat_map].
  fold (enc_multi ms). fold (msg_fits m). rewrite IH. unfold enc_msg. rewrite <- !app_assoc.
  destruct (forallb msg_fits ms); [rewrite andb_true_r|rewrite andb_false_r]; reflexivity.
Qed.

Lemma msg_fits_spec m : msg_fits m = true <-> len (w_payload m) < 2 ^ 16 /\ 0 <= w_seq m < 2 ^ 16.
Proof. unfold msg_fits, in_range. pose proof (len_nonneg (w_payload m)). lia. Qed.

Lemma decode_enc_multi ms : forall p rest, enc_multi ms = Ok p ->
  decode_multi (length ms) (p ++ rest) = Ok ms.
Proof.
  intros p rest E. rewrite enc_multi_eq in E. destruct (forallb msg_fits ms) eqn:Hf; [|discriminate].
  injection E as <-. induction ms as [|m ms IH]; [reflexivity|].
  cbn [forallb] in Hf. apply andb_prop in Hf as [Hm Hf]. apply msg_fits_spec in Hm as [Hl Hs].
  pose proof (len_nonneg (w_payload m)). pose proof (ptype_code_range (w_type m)).
  cbn [flat_map]. unfold enc_msg at 1. cbn [length decode_multi].
  cbn [be app length Nat.ltb Nat.leb sub firstn skipn].
  rewrite !unbe2, unbe1, ptype_code_roundtrip by lia.
  unfold len. rewrite Nat2Z.id, <- !app_assoc. unfold sub. cbn [Nat.add skipn].
  rewrite firstn_app_exact, skipn_app_exact, (IH Hf). cbn [bind]. destruct m; reflexivity.
Qed.

Lemma msgs_roundtrip ms p t : encode_msgs ms = Ok p ->
  (forall m, ms = [m] -> w_type m = t) ->
  decode_msgs t (len ms) p = Ok ms.
Proof.
  intros E Ht. destruct ms as [|m1 [|m2 r]].
  - reflexivity.
  - cbn [encode_msgs] in E. destruct (in_range 16 (w_seq m1)) eqn:Hs; [|discriminate].
    injection E as <-. apply in_range_spec in Hs.
    unfold decode_msgs. cbn [len length Z.of_nat Pos.of_succ_nat Z.eqb Pos.eqb].
    cbn [be app length Nat.ltb Nat.leb sub firstn skipn]. rewrite unbe2 by exact Hs.
    rewrite <- (Ht m1 eq_refl). destruct m1; reflexivity.
  - rewrite encode_msgs_multi in E. unfold decode_msgs.
    assert (Hc : len (m1 :: m2 :: r) >= 2) by (unfold len; cbn [length]; lia).
    replace (len (m1 :: m2 :: r) =? 1) with false by lia.
    replace (len (m1 :: m2 :: r) >? 1) with true by lia.
    unfold len. rewrite Nat2Z.id.
    rewrite <- (app_nil_r p). apply decode_enc_multi. exact E.
Qed.

(* datagram framing, for any crc and any correct AEAD *)
Section FramingP.
  Variable crc : list byte -> Z.
  Variable seal : Z -> list byte -> list byte -> list byte -> list byte.
  Variable open : Z -> list byte -> list byte -> list byte -> option (list byte).
  Hypothesis crc_range : forall l, 0 <= crc l < 2 ^ 32.
  Hypothesis open_seal : forall k iv aad p, open k iv aad (seal k iv aad p) = Some p.
  Hypothesis seal_length : forall k iv aad p, length (seal k iv aad p) = (length p + 16)%nat.

  Definition built_header (h0 : header) (ms : list wmsg) (payload : list byte) : header :=
    {| h_to_server := h_to_server h0; h_ctime := h_ctime h0; h_seq := h_seq h0; h_ack := h_ack h0;
       h_type := h_type h0; h_len := len payload; h_count := len ms; h_ackbits := h_ackbits h0 |}.

  (* which key the receiver must hold to decode what `to_bytes key` produced *)
  Definition rx_key (key : option Z) (t : ptype) : option Z :=
    match key with Some k => if negb (ptype_eqb t SERVER_HELLO) then Some k else None | None => None end.

  Theorem pkt_roundtrip key h0 ms d extra :
    to_bytes crc seal key h0 ms = Ok d ->
    (forall m, ms = [m] -> w_type m = h_type h0) ->
    exists payload,
      encode_msgs ms = Ok payload /\
      len d = 20 + len payload + (match rx_key key (h_type h0) with Some _ => 16 | None => 4 end) /\
      decode_header (h_to_server h0) (d ++ extra) = Ok (built_header h0 ms payload) /\
      from_bytes crc open (rx_key key (h_type h0)) (built_header h0 ms payload) (d ++ extra) = Ok ms.
  Proof.
    intros E Ht. unfold to_bytes in E.
    destruct (encode_msgs ms) as [payload|] eqn:Ep; cbn [bind] in E; [|discriminate].
    fold (built_header h0 ms payload) in E. set (h := built_header h0 ms payload) in *.
    destruct (encode_header h) as [hb|] eqn:Eh; cbn [bind] in E; [|discriminate].
    exists payload. split; [reflexivity|].
    destruct (hdr_roundtrip h (encode_header_ok _ _ Eh)) as (bs & Eb & Lb & Db). rewrite Eh in Eb. injection Eb as <-.
    assert (Hdec : decode_msgs (h_type h) (h_count h) payload = Ok ms) by (apply msgs_roundtrip; assumption).
    (* the datagram is the header followed by a body; the two framings differ in the body only *)
    assert (Hlen : forall body, len (hb ++ body) = 20 + len body) by (intros; unfold len; rewrite app_length, Lb; lia).
    assert (Hhdr : forall body, decode_header (h_to_server h0) ((hb ++ body) ++ extra) = Ok h)
      by (intros; rewrite <- app_assoc; exact (Db _)).
    assert (Hclear : from_bytes crc open None h ((hb ++ payload ++ be 4 (crc (hb ++ payload))) ++ extra) = Ok ms).
    { unfold from_bytes. change (h_len h) with (len payload).
      replace (20 + len payload >? _) with false by (unfold len; rewrite !app_length, be_length, Lb; lia).
      rewrite <- !app_assoc, (app_assoc hb payload).
      replace (Z.to_nat (20 + len payload)) with (length (hb ++ payload)) by (unfold len; rewrite app_length, Lb; lia).
      rewrite firstn_app_exact, (sub_mid (hb ++ payload) (be 4 (crc (hb ++ payload))) extra _ 4 eq_refl (be_length _ _)).
      rewrite be_length, unbe_be, Z.eqb_refl by (pose proof (crc_range (hb ++ payload)); cbn; lia).
      cbn [Nat.ltb Nat.leb negb bind]. rewrite <- Lb, skipn_app_exact. exact Hdec. }
    assert (Hseal : forall k, from_bytes crc open (Some k) h ((hb ++ seal k (firstn 12 hb) hb payload) ++ extra) = Ok ms).
    { intros k. unfold from_bytes. change (h_len h) with (len payload).
      replace (20 + len payload >? _) with false by (unfold len; rewrite !app_length, seal_length, Lb; lia).
      rewrite <- app_assoc.
      replace (firstn 12 (hb ++ _)) with (firstn 12 hb) by (rewrite firstn_app, Lb; cbn [Nat.sub firstn]; rewrite app_nil_r; reflexivity).
      rewrite (sub_mid hb (seal k (firstn 12 hb) hb payload) extra 20 _ Lb) by (rewrite seal_length; unfold len; lia).
      rewrite <- Lb, firstn_app_exact, open_seal. exact Hdec. }
    unfold rx_key. change (h_type h) with (h_type h0) in E.
    destruct key as [k|]; [destruct (negb _)|]; injection E as <-; cbv beta iota;
      (split; [|split; [apply Hhdr|auto]]); rewrite Hlen, ?len_app; unfold len; rewrite ?seal_length; cbn [length]; lia.
  Qed.
End FramingP.
