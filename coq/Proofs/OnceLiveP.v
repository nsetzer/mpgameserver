(* A user callback attached to a pending datagram is not lost while the connection
   stays open: it stays attached to that pending datagram or it is reported; hence (with the
   resolution deadline of AckP) it has been reported at the latest at the server's first rate-gated
   tick more than the message time-out after the datagram was assembled.  (C07, the at-least-once half
   for the stage "assembled -> reported" of unretried sends.) *)
From Coq Require Import Lia.
From Model Require Import Base SeqNum Conn.
From Proofs Require Import DictP ConnFrameP AckP AssemblyP OnceP.
Open Scope Z_scope.

Definition Pending (c : conn) (id s t : Z) : Prop :=
  exists ks, dget s (c_pcbs c) = Some ks /\ In (Plain (IUser id)) ks /\ In (s, t) (c_packs c).
Definition Keep (c c' : conn) (o : list out) : Prop :=
  forall id s t, Pending c id s t -> In id (fired o) \/ Pending c' id s t.

Lemma Keep_refl c : Keep c c []. Proof. intros id s t H. right. exact H. Qed.
Lemma Keep_trans a b c o1 o2 : Keep a b o1 -> Keep b c o2 -> Keep a c (o1 ++ o2).
Proof.
  intros H1 H2 id s t H. rewrite fired_app. destruct (H1 id s t H) as [F|P]; [left; apply in_or_app; left; exact F|].
  destruct (H2 id s t P) as [F|P']; [left; apply in_or_app; right; exact F|right; exact P'].
Qed.
Lemma Keep_same c c' o : c_pcbs c' = c_pcbs c -> c_packs c' = c_packs c -> Keep c c' o.
Proof. intros H1 H2 id s t (ks & A & B & C). right. exists ks. rewrite H1, H2. auto. Qed.
Lemma wr_Keep m c c' o : (forall a d, c_pcbs (over m a d) = c_pcbs a /\ c_packs (over m a d) = c_packs a) -> wr m c c' -> Keep c c' o.
Proof. intros H [d ->]. destruct (H c d). apply Keep_same; assumption. Qed.
Lemma Keep_out a b o o' : fired o' = fired o -> Keep a b o -> Keep a b o'.
Proof. intros Hf H id s t P. rewrite Hf. exact (H id s t P). Qed.

Lemma fire_all_reports id ks : forall c ok c' o, In (Plain (IUser id)) ks -> fire_all c ks ok = (c', o) -> In id (fired o).
Proof.
  induction ks as [|k ks IH]; intros c ok c' o Hin E; [destruct Hin|]. cbn [fire_all] in E.
  destruct (fire_cb c k ok) as [c1 o1] eqn:E1. destruct (fire_all c1 ks ok) as [c2 o2] eqn:E2. injection E as <- <-.
  rewrite fired_app. apply in_or_app. destruct Hin as [->|Hin].
  - left. cbn in E1. injection E1 as <- <-. left. reflexivity.
  - right. eapply IH; eassumption.
Qed.

(* the datagram resolved reports its callbacks; the others keep theirs *)
Lemma resolve_Keep ok c s0 c' o : resolve ok c s0 = (c', o) -> Keep c c' o.
Proof.
  intros E id s t (ks & A & B & C). destruct (Z.eq_dec s s0) as [->|Hne].
  - left. rewrite resolve_eq, A in E. destruct (fire_all _ ks ok) as [c1 o1] eqn:E1. injection E as _ <-. exact (fire_all_reports _ _ _ _ _ _ B E1).
  - right. exists ks. destruct (resolve_reg E) as [P R]. rewrite R, P. assert (s =? s0 = false) as -> by lia.
    split; [exact A|]. split; [exact B|apply In_ddel; [exact C|exact Hne]].
Qed.

Lemma sweep_Keep verdict snap c c' o : sweep verdict c snap = (c', o) -> Keep c c' o.
Proof. apply (sweep_walk Keep Keep_refl Keep_trans). intros; eapply resolve_Keep; eassumption. Qed.

(* assembly registers callbacks under the next sequence number only, which no pending datagram has *)
Lemma build_packet_Keep e c now c' r :
  ~ In (seq_succ (c_seq_send c)) (map fst (c_packs c)) -> build_packet e c now = (c', r) -> Keep c c' [].
Proof.
  intros Hf E. apply build_packet_spec in E as [(-> & _)|(c1 & msgs & Bs & _ & _ & Pc & Pa & _)]; [apply Keep_refl|].
  pose proof (bs_res _ _ _ _ _ Bs) as B. intros id s t (ks & A & Bk & C). right. exists ks. rewrite Pc, Pa.
  assert (Hne : s <> seq_succ (c_seq_send c)) by (intros ->; apply Hf; apply in_map_iff; exists (seq_succ (c_seq_send c), t); auto).
  destruct r as [[h ms]|]; [destruct B as (_ & _ & _ & -> & ->)|destruct B as (-> & -> & _); auto].
  split; [destruct (opt_list _); [exact A|rewrite dget_dset_other by exact Hne; exact A]|]. split; [exact Bk|apply In_dset; [exact C|exact Hne]].
Qed.

Lemma tick_tail_Keep strict e c now c' o2 o3 :
  ~ In (seq_succ (c_seq_send c)) (map fst (c_packs c)) -> tick_tail strict e c now = (c', o2, o3) ->
  Keep c c' (if strict then o3 ++ o2 else o2 ++ o3).
Proof.
  intros Hf E. apply tick_tail_cases in E as (c1 & pk & E1 & E2 & ->).
  apply Keep_out with (o := [] ++ o3); [apply fired_tail|]. unfold check_timeout in E2. rewrite timeout_loop_sweep in E2.
  exact (Keep_trans _ _ _ _ _ (build_packet_Keep _ _ _ _ _ Hf E1) (sweep_Keep _ _ _ _ _ E2)).
Qed.

(* an atom is an ack sweep or leaves pending_callbacks and pending_acks alone; an open connection is not disconnected *)
Lemma atom_Keep e x c c' o : ev_open x -> atom e x c c' o -> Keep c c' o.
Proof.
  intros Hop H. destruct (atom_cases H) as [W|[(h & E)|[(k & -> & _)|(w & v & -> & ->)]]]; [| |destruct Hop|].
  - revert W. apply wr_Keep. split; reflexivity.
  - unfold handle_ack_bits in E. rewrite ack_loop_sweep in E. eapply sweep_Keep, E.
  - apply (wr_Keep W_cfg); [split; reflexivity|apply setcfg_wr].
Qed.

(* AInv (AckP) is carried along for next_seq_fresh at the assembly: the next sequence number is that of no
   pending datagram *)
Theorem step_Keep e S K c n x c' o : ev_open x -> AInv S K c n -> step e c x = (c', o) -> Keep c c' o.
Proof.
  intros Hop HI E. apply step_acts in E as (c1 & o1 & ot & H & Ht & ->).
  assert (HI1 : AInv S K c1 n).
  { apply (star_rel _ _ (keeps_AInv_refl S K) (keeps_AInv_trans S K) (fun a b oo => atom_AInv e S K x a b oo Hop)) in H. apply (H n HI). }
  apply (Keep_trans c c1).
  - revert H. apply (star_rel (atom e x) Keep); [exact Keep_refl|exact Keep_trans|intros a b oo; apply atom_Keep, Hop].
  - destruct Ht as [_|strict c2 o2 o3 _ T]; [apply Keep_refl|]. exact (tick_tail_Keep _ _ _ _ _ _ _ (next_seq_fresh _ _ _ _ HI1) T).
Qed.

Theorem run_Keep e S K xs : forall c n c' oss, all_open xs -> AInv S K c n -> run e c xs = (c', oss) -> Keep c c' (concat oss).
Proof.
  induction xs as [|x r IH]; intros c n c' oss Hop HI E; cbn [run] in E.
  - injection E as <- <-. apply Keep_refl.
  - destruct Hop as [Hx Hr]. destruct (step e c x) as [c1 o] eqn:E1. destruct (run e c1 r) as [c2 os] eqn:E2.
    injection E as <- <-. destruct (step_AInv _ _ _ _ _ _ _ _ Hx HI E1) as (n1 & H1). cbn [concat].
    eapply Keep_trans; [exact (step_Keep _ _ _ _ _ _ _ _ Hx HI E1)|exact (IH _ _ _ _ Hr H1 E2)].
Qed.

Theorem pending_reported_by_deadline e S K xs c n c1 oss now c2 o id s t :
  all_open xs -> AInv S K c n -> Pending c id s t ->
  run e c xs = (c1, oss) ->
  c_send_interval c1 < now - c_last_send c1 -> server_tick e c1 now = (c2, o) ->
  c_out_timeout c1 < now - t ->
  In id (fired (concat oss ++ o)).
Proof.
  intros Hop HI HP E Hg Et Hd. rewrite fired_app. apply in_or_app.
  destruct (run_Keep _ _ _ _ _ _ _ _ Hop HI E id s t HP) as [F|P1]; [left; exact F|right].
  destruct (run_AInv _ _ _ _ _ _ _ _ Hop HI E) as (n1 & HI1).
  destruct (step_Keep e S K c1 n1 (EServerTick now) c2 o Logic.I HI1 Et id s t P1) as [F|(ks & _ & _ & C)]; [exact F|exfalso].
  pose proof (server_tick_deadline _ _ _ _ _ _ _ _ HI1 Hg Et s t C). lia.
Qed.
