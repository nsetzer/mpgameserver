(* One frame: writeFrame produces the RFC 6455 form, readFrame inverts it, and _frameAvailable
   accepts an encoded frame and none of its strict prefixes.  _frameAvailable and readFrame read the
   two header bytes the same way.  A buffer cut into extended length, key and payload of the lengths
   so announced is `framed`; both readers are characterised on framed buffers, and the RFC form of a
   frame is shown to be one. *)
From Coq Require Import Lia ZifyBool.
From Model Require Import Base WsFrame.
From Proofs Require Import BytesP.
Open Scope Z_scope.

(* WsFrame.be_enc and be_dec are Ser's codecs (BytesP.ws_be_enc, ws_be_dec): what is known of them
   is stated in BytesP on Ser's names, and brought over here by rewriting with these two. *)
Lemma len_be_enc n z : len (be_enc n z) = Z.of_nat n.
Proof. exact (be_enc_len n z). Qed.

Lemma be_dec_enc_small n z : 0 <= z < 256 ^ Z.of_nat n -> be_dec (be_enc n z) = z.
Proof. intro H. rewrite ws_be_enc, ws_be_dec, be_dec_enc. apply Z.mod_small, H. Qed.

Lemma xor_byte_invol a k : xor_byte (xor_byte a k) k = a.
Proof.
  unfold xor_byte.
  destruct (Byte.to_bits a) as (a0 & a1 & a2 & a3 & a4 & a5 & a6 & a7) eqn:Ea.
  destruct (Byte.to_bits k) as (k0 & k1 & k2 & k3 & k4 & k5 & k6 & k7) eqn:Ek.
  rewrite Byte.to_bits_of_bits.
  rewrite !xorb_assoc, !xorb_nilpotent, !xorb_false_r.
  rewrite <- Ea. apply Byte.of_bits_to_bits.
Qed.

Lemma xor_cycle_invol p : forall k0 k1 k2 k3,
  xor_cycle k0 k1 k2 k3 (xor_cycle k0 k1 k2 k3 p) = p.
Proof. induction p as [|a p IH]; intros; cbn; [reflexivity|]. rewrite xor_byte_invol, IH. reflexivity. Qed.

Lemma xor_cycle_length p : forall k0 k1 k2 k3, length (xor_cycle k0 k1 k2 k3 p) = length p.
Proof. induction p as [|a p IH]; intros; cbn; [reflexivity|]. rewrite IH. reflexivity. Qed.

Definition key_cycle (key p : list byte) : list byte :=
  xor_cycle (nth 0 key x00) (nth 1 key x00) (nth 2 key x00) (nth 3 key x00) p.

Lemma mask_payload_4 key p : length key = 4%nat -> mask_payload key p = Ok (key_cycle key p).
Proof. intro H. unfold mask_payload, len. rewrite H. reflexivity. Qed.

Lemma takeZ_firstn {A} (l : list A) : forall n, takeZ n l = firstn (Z.to_nat n) l.
Proof.
  induction l as [|a l IH]; intro n; cbn [takeZ]; [rewrite firstn_nil; reflexivity|].
  destruct (n <=? 0) eqn:E.
  - replace (Z.to_nat n) with 0%nat by lia. reflexivity.
  - replace (Z.to_nat n) with (S (Z.to_nat (n - 1))) by lia. rewrite IH. reflexivity.
Qed.

Lemma dropZ_skipn {A} (l : list A) : forall n, dropZ n l = skipn (Z.to_nat n) l.
Proof.
  induction l as [|a l IH]; intro n; cbn [dropZ]; [rewrite skipn_nil; reflexivity|].
  destruct (n <=? 0) eqn:E.
  - replace (Z.to_nat n) with 0%nat by lia. reflexivity.
  - replace (Z.to_nat n) with (S (Z.to_nat (n - 1))) by lia. apply IH.
Qed.

Lemma takeZ_le_app {A} n (a b : list A) : n <= len a -> takeZ n (a ++ b) = takeZ n a.
Proof.
  intro H. rewrite !takeZ_firstn, firstn_app.
  replace (Z.to_nat n - length a)%nat with 0%nat by (unfold len in H; lia). apply app_nil_r.
Qed.

Lemma takeZ_all {A} n (l : list A) : len l <= n -> takeZ n l = l.
Proof. intro H. rewrite takeZ_firstn. apply firstn_all2. unfold len in H. lia. Qed.

Lemma takeZ_app_n {A} n (a b : list A) : n = len a -> takeZ n (a ++ b) = a.
Proof. intros ->. rewrite takeZ_le_app by lia. apply takeZ_all. lia. Qed.

Lemma dropZ_app_n {A} n (a b : list A) : n = len a -> dropZ n (a ++ b) = b.
Proof. intros ->. unfold len. rewrite dropZ_skipn, Nat2Z.id. apply skipn_app_exact. Qed.

Lemma len_takeZ {A} n (l : list A) : 0 <= n <= len l -> len (takeZ n l) = n.
Proof. intro H. unfold len in *. rewrite takeZ_firstn, firstn_length. lia. Qed.

Lemma len_dropZ {A} n (l : list A) : 0 <= n <= len l -> len (dropZ n l) = len l - n.
Proof. intro H. unfold len in *. rewrite dropZ_skipn, skipn_length. lia. Qed.

Lemma takeZ_dropZ {A} n (l : list A) : takeZ n l ++ dropZ n l = l.
Proof. rewrite takeZ_firstn, dropZ_skipn. apply firstn_skipn. Qed.

Lemma take2 {A} (x y : A) l : takeZ 2 (x :: y :: l) = [x; y] /\ dropZ 2 (x :: y :: l) = l.
Proof. destruct l; split; reflexivity. Qed.

Definition lcode_of (b1 : byte) : Z := Z.land (Z_of_byte b1) 127.
Definition mask_of (b1 : byte) : Z := if Z.land (Z_of_byte b1) 128 =? 0 then 0 else 1.
Definition ext_len (lcode : Z) : Z := if lcode =? 126 then 2 else if lcode =? 127 then 8 else 0.
Definition plen_of (lcode : Z) (b : list byte) : Z :=
  if lcode =? 126 then be_dec (takeZ 2 b) else if lcode =? 127 then be_dec (takeZ 8 b) else lcode.
(* bytes a frame occupies behind its two header bytes *)
Definition frame_need (b1 : byte) (b : list byte) : Z :=
  ext_len (lcode_of b1) + 4 * mask_of b1 + plen_of (lcode_of b1) b.
Definition framed (b1 : byte) (x k p : list byte) : Prop :=
  len x = ext_len (lcode_of b1) /\ len k = 4 * mask_of b1 /\ len p = plen_of (lcode_of b1) x.

Lemma ext_len_cases l : ext_len l = 0 \/ ext_len l = 2 \/ ext_len l = 8.
Proof. unfold ext_len. destruct (l =? 126); auto. destruct (l =? 127); auto. Qed.

Lemma mask_of_bit b1 : bit (mask_of b1).
Proof. unfold mask_of, bit. destruct (_ =? 0); auto. Qed.

Lemma plen_of_nonneg b1 b : 0 <= plen_of (lcode_of b1) b.
Proof.
  unfold plen_of. rewrite ws_be_dec. destruct (lcode_of b1 =? 126); [apply be_dec_range|].
  destruct (lcode_of b1 =? 127); [apply be_dec_range|].
  apply Z.land_nonneg. left. apply Z_of_byte_range.
Qed.

Lemma plen_of_app lc b D : ext_len lc <= len b -> plen_of lc (b ++ D) = plen_of lc b.
Proof.
  unfold plen_of, ext_len. intro H.
  destruct (lc =? 126); [|destruct (lc =? 127)]; rewrite ?takeZ_le_app by exact H; reflexivity.
Qed.

Lemma available_cons b0 b1 b :
  frame_available (b0 :: b1 :: b) = (ext_len (lcode_of b1) <=? len b) && (frame_need b1 b <=? len b).
Proof.
  unfold frame_available, frame_need, ext_len, plen_of, lcode_of, mask_of. rewrite !len_cons. cbn [nth].
  pose proof (len_nonneg b) as Hb. replace (1 + (1 + len b) <? 2) with false by lia. cbv zeta.
  rewrite (proj2 (take2 b0 b1 b)).
  destruct (Z.land (Z_of_byte b1) 128 =? 0);
    (destruct (Z.land (Z_of_byte b1) 127 =? 126); [|destruct (Z.land (Z_of_byte b1) 127 =? 127)]);
    try (destruct (1 + (1 + len b) <? _) eqn:E); lia.
Qed.

Lemma framed_need b1 x k p rest : framed b1 x k p -> frame_need b1 (x ++ k ++ p ++ rest) = len x + len k + len p.
Proof. intros (Hx & Hk & Hp). unfold frame_need. rewrite plen_of_app by lia. lia. Qed.

Lemma available_framed b0 b1 x k p rest : framed b1 x k p -> frame_available (b0 :: b1 :: x ++ k ++ p ++ rest) = true.
Proof.
  intro H. rewrite available_cons, (framed_need _ _ _ _ rest H), !len_app. destruct H as (Hx & _).
  pose proof (len_nonneg k). pose proof (len_nonneg p). pose proof (len_nonneg rest). lia.
Qed.

Lemma framed_prefix b0 b1 x k p pre q :
  framed b1 x k p -> b0 :: b1 :: x ++ k ++ p = pre ++ q -> q <> [] -> frame_available pre = false.
Proof.
  intros H E Hq. destruct pre as [|c0 [|c1 b]]; [reflexivity..|]. injection E as <- <- E.
  pose proof (framed_need _ _ _ _ [] H) as Hn. rewrite app_nil_r, E in Hn.
  assert (Hl : len (b ++ q) = len x + len k + len p) by (rewrite <- E, !len_app; lia). rewrite len_app in Hl.
  assert (0 < len q) by (destruct q; [congruence | rewrite len_cons; pose proof (len_nonneg q); lia]).
  rewrite available_cons. destruct (_ <=? len b) eqn:E1; [|reflexivity].
  unfold frame_need in *. rewrite plen_of_app in Hn by lia. cbn [andb]. lia.
Qed.

Lemma available_inv buf : frame_available buf = true ->
  exists b0 b1 x k p rest, buf = b0 :: b1 :: x ++ k ++ p ++ rest /\ framed b1 x k p.
Proof.
  destruct buf as [|b0 [|b1 b]]; [discriminate..|]. rewrite available_cons. intro H. exists b0, b1.
  apply andb_true_iff in H. destruct H as [H1 H2]. unfold frame_need in H2.
  pose proof (plen_of_nonneg b1 b) as Hp. pose proof (mask_of_bit b1) as Hm. unfold bit in Hm.
  pose proof (ext_len_cases (lcode_of b1)) as He.
  set (e := ext_len (lcode_of b1)) in *. set (m := mask_of b1) in *.
  assert (Lx : len (takeZ e b) = e) by (apply len_takeZ; lia).
  assert (Hpl : plen_of (lcode_of b1) (takeZ e b) = plen_of (lcode_of b1) b)
    by (rewrite <- (takeZ_dropZ e b) at 2; symmetry; apply plen_of_app; fold e; lia).
  set (pl := plen_of (lcode_of b1) b) in *.
  assert (L2 : len (dropZ e b) = len b - e) by (apply len_dropZ; lia).
  assert (L3 : len (dropZ (4 * m) (dropZ e b)) = len b - e - 4 * m) by (rewrite len_dropZ; lia).
  exists (takeZ e b), (takeZ (4 * m) (dropZ e b)), (takeZ pl (dropZ (4 * m) (dropZ e b))),
         (dropZ pl (dropZ (4 * m) (dropZ e b))).
  rewrite !takeZ_dropZ. unfold framed. fold e m. rewrite Hpl, Lx, !len_takeZ by lia. auto.
Qed.

Lemma available_app B D : frame_available B = true -> frame_available (B ++ D) = true.
Proof.
  intro H. destruct (available_inv B H) as (b0 & b1 & x & k & p & rest & -> & Hf).
  cbn [app]. rewrite <- !app_assoc. apply available_framed, Hf.
Qed.

Definition parsed (b0 b1 : byte) (x k p : list byte) (op : opcode) : res frame :=
  let flags := Z_of_byte b0 in
  match (if mask_of b1 =? 0 then Ok p else mask_payload k p) with
  | Err e => Err e
  | Ok payload =>
      Ok {| f_fin := Z.shiftr (Z.land flags 128) 7; f_rsv1 := Z.shiftr (Z.land flags 64) 6;
            f_rsv2 := Z.shiftr (Z.land flags 32) 5; f_rsv3 := Z.shiftr (Z.land flags 16) 4;
            f_opcode := op; f_mask := mask_of b1; f_key := if mask_of b1 =? 0 then zero_key else k;
            f_plen := plen_of (lcode_of b1) x; f_payload := payload |}
  end.

Lemma parse_framed b0 b1 x k p rest : framed b1 x k p ->
  parse_frame (b0 :: b1 :: x ++ k ++ p ++ rest) =
  match opcode_of_Z (Z.land (Z_of_byte b0) 15) with
  | Err e => (Err e, x ++ k ++ p ++ rest)
  | Ok op => (parsed b0 b1 x k p op, rest)
  end.
Proof.
  intros (Hx & Hk & Hp). unfold parse_frame, parsed.
  destruct (take2 b0 b1 (x ++ k ++ p ++ rest)) as [-> ->].
  destruct (opcode_of_Z (Z.land (Z_of_byte b0) 15)) as [op|e]; [|reflexivity].
  fold (lcode_of b1) (mask_of b1). cbv zeta.
  (* readDataHeader *)
  assert (E : forall y, (if lcode_of b1 =? 126 then (unpack_n 2 (takeZ 2 (x ++ y)), dropZ 2 (x ++ y))
                         else if lcode_of b1 =? 127 then (unpack_n 8 (takeZ 8 (x ++ y)), dropZ 8 (x ++ y))
                         else (Ok (lcode_of b1), x ++ y))
                        = (Ok (plen_of (lcode_of b1) x), y)).
  { intro y. unfold ext_len, plen_of, unpack_n in *.
    destruct (lcode_of b1 =? 126); [|destruct (lcode_of b1 =? 127)].
    - rewrite (takeZ_app_n 2 x), (dropZ_app_n 2 x), (takeZ_all 2 x), Hx by lia. reflexivity.
    - rewrite (takeZ_app_n 8 x), (dropZ_app_n 8 x), (takeZ_all 8 x), Hx by lia. reflexivity.
    - rewrite (len_0_nil x Hx). reflexivity. }
  rewrite E. destruct (mask_of_bit b1) as [Hm | Hm]; rewrite Hm in *; cbn [Z.eqb].
  - rewrite (len_0_nil k Hk). cbn [app]. rewrite takeZ_app_n, dropZ_app_n by (symmetry; exact Hp). reflexivity.
  - rewrite (takeZ_app_n 4 k), (dropZ_app_n 4 k), takeZ_app_n, dropZ_app_n by (symmetry; assumption).
    destruct (mask_payload k p); reflexivity.
Qed.

(* exhaustive facts about the two header bytes: a predicate checked on 0 .. n-1 by evaluation *)
Lemma small_cases (P : Z -> bool) (n : nat) :
  forallb P (map Z.of_nat (seq 0 n)) = true -> forall z, 0 <= z < Z.of_nat n -> P z = true.
Proof.
  intros H z Hz. rewrite forallb_forall in H. apply H. apply in_map_iff.
  exists (Z.to_nat z). split; [lia|]. apply in_seq. lia.
Qed.

(* the second byte: mask bit over a 7-bit length code *)
Lemma lenbyte m c : bit m -> 0 <= c < 128 ->
  Z.lor c (Z.shiftl m 7) = 128 * m + c /\
  lcode_of (byte_of_Z (128 * m + c)) = c /\ mask_of (byte_of_Z (128 * m + c)) = m.
Proof.
  intros Hm Hc.
  set (P m c := (Z.lor c (Z.shiftl m 7) =? 128 * m + c) && (lcode_of (byte_of_Z (128 * m + c)) =? c)
                && (mask_of (byte_of_Z (128 * m + c)) =? m)).
  assert (E : P m c = true)
    by (destruct Hm as [-> | ->]; apply (small_cases (P _) 128); solve [vm_compute; reflexivity | exact Hc]).
  unfold P in E. lia.
Qed.

Lemma flags_facts fin r1 r2 r3 op :
  bit fin -> bit r1 -> bit r2 -> bit r3 -> wire_opcode op ->
  let b0 := 128 * fin + 64 * r1 + 32 * r2 + 16 * r3 + opcode_val op in
  0 <= b0 < 256 /\
  Z.lor (Z.shiftl fin 7) (Z.lor (Z.shiftl r1 6) (Z.lor (Z.shiftl r2 5) (Z.lor (Z.shiftl r3 4) (opcode_val op)))) = b0 /\
  opcode_of_Z (Z.land b0 15) = Ok op /\
  Z.shiftr (Z.land b0 128) 7 = fin /\ Z.shiftr (Z.land b0 64) 6 = r1 /\
  Z.shiftr (Z.land b0 32) 5 = r2 /\ Z.shiftr (Z.land b0 16) 4 = r3.
Proof.
  intros [-> | ->] [-> | ->] [-> | ->] [-> | ->] Hop; destruct op; try (exfalso; apply Hop; reflexivity);
    vm_compute; repeat split; congruence.
Qed.

Lemma opcode_of_Z_val z op : opcode_of_Z z = Ok op -> opcode_val op = z.
Proof.
  unfold opcode_of_Z.
  repeat match goal with |- (if ?c then _ else _) = _ -> _ => destruct c eqn:?; [intros [= <-]; cbn; lia|] end.
  discriminate.
Qed.

Lemma opcode_eqb_eq a b : opcode_eqb a b = true -> a = b.
Proof. destruct a, b; vm_compute; congruence. Qed.

Definition b0_of (f : frame) : Z :=
  128 * f_fin f + 64 * f_rsv1 f + 32 * f_rsv2 f + 16 * f_rsv3 f + opcode_val (f_opcode f).
Definition ext_of (n : Z) : list byte :=
  if n <=? 125 then [] else if n <=? 65535 then be_enc 2 n else be_enc 8 n.
Definition wire_key (f : frame) : list byte := if f_mask f =? 0 then [] else f_key f.
Definition wire_payload (f : frame) : list byte :=
  if f_mask f =? 0 then f_payload f else key_cycle (f_key f) (f_payload f).

Lemma rfc_encode_eq f :
  rfc_encode f = byte_of_Z (b0_of f) :: byte_of_Z (128 * f_mask f + length_code (len (f_payload f)))
                 :: ext_of (len (f_payload f)) ++ wire_key f ++ wire_payload f.
Proof.
  unfold rfc_encode, length_code, ext_of, wire_key, wire_payload, key_cycle, b0_of.
  destruct (len (f_payload f) <=? 125); [|destruct (len (f_payload f) <=? 65535)];
    destruct (f_mask f =? 0); reflexivity.
Qed.

Lemma len_wire_key f : bit (f_mask f) -> length (f_key f) = 4%nat -> len (wire_key f) = 4 * f_mask f.
Proof. unfold wire_key, len. intros [-> | ->] H; cbn [Z.eqb]; [|rewrite H]; reflexivity. Qed.

Lemma len_wire_payload f : len (wire_payload f) = len (f_payload f).
Proof. unfold wire_payload, key_cycle, len. destruct (f_mask f =? 0); [|rewrite xor_cycle_length]; reflexivity. Qed.

Lemma length_code_spec n x : 0 <= n < 2 ^ 64 ->
  0 <= length_code n < 128 /\ ext_len (length_code n) = len (ext_of n) /\
  plen_of (length_code n) (ext_of n ++ x) = n.
Proof.
  intro H. unfold length_code, ext_len, plen_of, ext_of.
  destruct (n <=? 125) eqn:E1; [|destruct (n <=? 65535) eqn:E2]; cbn [Z.eqb Pos.eqb].
  - replace (n =? 126) with false by lia. replace (n =? 127) with false by lia. repeat split; lia.
  - rewrite (takeZ_app_n 2), be_dec_enc_small, len_be_enc by (rewrite ?len_be_enc; cbn; lia). repeat split; lia.
  - rewrite (takeZ_app_n 8), be_dec_enc_small, len_be_enc
      by (rewrite ?len_be_enc; change (256 ^ Z.of_nat 8) with (2 ^ 64); lia).
    repeat split; lia.
Qed.

Lemma rfc_framed f : wf_frame_anykey f ->
  let n := len (f_payload f) in
  let b1 := byte_of_Z (128 * f_mask f + length_code n) in
  framed b1 (ext_of n) (wire_key f) (wire_payload f) /\ mask_of b1 = f_mask f /\ plen_of (lcode_of b1) (ext_of n) = n.
Proof.
  intros (_ & _ & _ & _ & Hmask & _ & Hkey & Hplen & Hlt) n b1. rewrite Hplen in Hlt. fold n in Hlt.
  pose proof (len_nonneg (f_payload f)) as Hnn. fold n in Hnn.
  destruct (length_code_spec n []) as (Hlc & Hext & Hpl); [lia|]. rewrite app_nil_r in Hpl.
  destruct (lenbyte _ _ Hmask Hlc) as (_ & Hcode & Hm). fold b1 in Hcode, Hm.
  unfold framed. rewrite Hcode, Hm, Hpl, len_wire_key, len_wire_payload by assumption. auto.
Qed.

Lemma encode_rfc_anykey f : wf_frame_anykey f -> encode_frame f = Ok (rfc_encode f).
Proof.
  intros (Hfin & Hr1 & Hr2 & Hr3 & Hmask & Hop & Hkey & Hplen & Hlt).
  pose proof (flags_facts _ _ _ _ _ Hfin Hr1 Hr2 Hr3 Hop) as (Hb0 & Hlor & _).
  pose proof (len_nonneg (f_payload f)) as Hnn. rewrite <- Hplen in Hnn.
  destruct (length_code_spec (f_plen f) []) as (Hlc & _); [lia|].
  destruct (lenbyte _ _ Hmask Hlc) as (Hl & _).
  assert (H1 : serialize_header f = Ok [byte_of_Z (b0_of f); byte_of_Z (128 * f_mask f + length_code (f_plen f))]).
  { unfold serialize_header, pack_BB. rewrite Hlor, Hl. fold (b0_of f) in Hb0 |- *.
    replace (_ && _) with true by (destruct Hmask; lia). reflexivity. }
  assert (H2 : serialize_data_header f = Ok (ext_of (f_plen f) ++ wire_key f)).
  { unfold serialize_data_header, ext_of, pack_H, pack_Q, wire_key.
    destruct (f_plen f <=? 125) eqn:E1; [replace (f_plen f >? 125) with false by lia; reflexivity|].
    replace (f_plen f >? 125) with true by lia.
    destruct (f_plen f <=? 65535) eqn:E2; replace (_ && _) with true by lia; reflexivity. }
  assert (H3 : write_data f = Ok (wire_payload f)).
  { unfold write_data, wire_payload. destruct (f_mask f =? 0); [reflexivity | apply mask_payload_4, Hkey]. }
  unfold encode_frame. rewrite H1, H2, H3, rfc_encode_eq, <- Hplen. cbn [bind]. rewrite <- app_assoc. reflexivity.
Qed.

Lemma wf_frame_anykey_of f : wf_frame f -> wf_frame_anykey f.
Proof. unfold wf_frame, wf_frame_anykey. tauto. Qed.

Lemma parse_encode_anykey f rest :
  wf_frame_anykey f -> parse_frame (rfc_encode f ++ rest) = (Ok (canon_key f), rest).
Proof.
  intro Hwf. destruct (rfc_framed f Hwf) as (Hfr & Hm & Hpl).
  destruct Hwf as (Hfin & Hr1 & Hr2 & Hr3 & Hmask & Hop & Hkey & Hplen & _).
  pose proof (flags_facts _ _ _ _ _ Hfin Hr1 Hr2 Hr3 Hop) as (Hb0 & _ & Hopc & Hf & H1 & H2 & H3).
  fold (b0_of f) in Hb0, Hopc, Hf, H1, H2, H3.
  rewrite rfc_encode_eq. cbn [app]. rewrite <- !app_assoc, parse_framed by exact Hfr. unfold parsed.
  rewrite Z_of_byte_of_Z, Z.mod_small, Hopc, Hf, H1, H2, H3, Hm, Hpl by exact Hb0.
  unfold canon_key, wire_key, wire_payload. rewrite <- Hplen.
  destruct Hmask as [Hm0 | Hm1]; [rewrite Hm0 | rewrite Hm1]; cbn [Z.eqb]; [reflexivity|].
  rewrite mask_payload_4 by exact Hkey. unfold key_cycle. rewrite xor_cycle_invol. reflexivity.
Qed.

Lemma available_encode f rest : wf_frame_anykey f -> frame_available (rfc_encode f ++ rest) = true.
Proof.
  intro Hwf. rewrite rfc_encode_eq. cbn [app]. rewrite <- !app_assoc. apply available_framed, rfc_framed, Hwf.
Qed.

Lemma incomplete_prefix f p q :
  wf_frame_anykey f -> rfc_encode f = p ++ q -> q <> [] -> frame_available p = false.
Proof.
  intros Hwf E. rewrite rfc_encode_eq in E. exact (framed_prefix _ _ _ _ _ p q (proj1 (rfc_framed f Hwf)) E).
Qed.
