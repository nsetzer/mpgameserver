(* C12, the two endpoints together (Model/TimedNet.v): an established idle pair over a network that
   shows every datagram to the peer within d (further copies within `life`), both sides ticking at
   least every tau, never times out, and each side emits a KEEP_ALIVE at least every
   max(K, send interval) + tau.  The invariant is stated per direction of the wire (dir_inv); the
   receiver's window is read as a set of true datagram numbers (SeqNumP.R), so that a datagram is
   refused only if a copy of it was accepted before; that reading of one direction of the wire (wire_inv)
   is shared with LiveP.v.  At the end: the executable hypotheses of TimedNet.v imply the stated ones. *)
From Coq Require Import Lia ZifyBool.
From RecordUpdate Require Import RecordUpdate.
From Model Require Import Base SeqNum Wire Conn Client Net TimedNet.
From Proofs Require Import DictP SeqNumP ConnFrameP AssemblyP StoredP.
Import RecordSetNotations.
Open Scope Z_scope.

(* An endpoint that holds no message: nothing queued, nothing to re-send, and no RetrySender registered
   that could queue something again (a pending plain callback, e.g. the handshake's, is fine). *)
Definition nomsg (_ : pmsg) : Prop := False.
Definition plain (k : cb) : Prop := plain_cb k = true.
Definition quiet (c : conn) : Prop := Stored nomsg plain c.

Lemma quiet_nil c : quiet c -> c_outgoing c = [] /\ c_pretry_msg c = [].
Proof.
  intros [A B _]. split; [destruct (c_outgoing c)|destruct (c_pretry_msg c)]; try reflexivity; [inversion A as [|? ? []]|inversion B as [|? ? []]].
Qed.

Lemma quiet_idle c : c_outgoing c = [] -> c_pretry_msg c = [] -> plain_pcbs (c_pcbs c) = true -> quiet c.
Proof.
  intros A B C. constructor; [rewrite A; constructor|rewrite B; constructor|].
  unfold plain_pcbs in C. rewrite forallb_forall in C. apply Forall_forall. intros x Hx.
  apply Forall_forall, forallb_forall, C, Hx.
Qed.

Lemma plain_requeue rid mseq ty p i : plain (Retry rid mseq ty p i) ->
  nomsg {| m_seq := mseq; m_type := ty; m_payload := p; m_cb := Some (Retry rid mseq ty p i); m_retry := RTimeout; m_atime := 0 |}.
Proof. discriminate. Qed.

(* quiet reads nothing but what the endpoint holds *)
Lemma quiet_held c c' : tables c' = tables c -> quiet c -> quiet c'.
Proof. unfold tables. intros E. injection E as A B C. exact (Stored_upd _ _ _ _ A B C). Qed.

Lemma fire_icb_q c i ok c' o : fire_icb c i ok = (c', o) ->
  c_outgoing c' = c_outgoing c /\ c_pretry_msg c' = c_pretry_msg c /\ c_pcbs c' = c_pcbs c.
Proof. intros E. apply fire_icb_wr, (wr_keeps W_icb tables (fun _ _ => eq_refl)) in E. injection E as -> -> ->. auto. Qed.

Lemma fire_all_q ks : forall c ok c' o, forallb plain_cb ks = true -> fire_all c ks ok = (c', o) ->
  c_outgoing c' = c_outgoing c /\ c_pretry_msg c' = c_pretry_msg c /\ c_pcbs c' = c_pcbs c.
Proof.
  induction ks as [|k ks IH]; intros c ok c' o Hp E; cbn [fire_all forallb] in *; [injection E as <- _; auto|].
  apply andb_prop in Hp as [Hk Hp]. destruct k; [|discriminate]. cbn [fire_cb] in E.
  destruct (fire_icb c i ok) as [c1 o1] eqn:E1. destruct (fire_all c1 ks ok) as [c2 o2] eqn:E2. injection E as <- _.
  destruct (IH _ _ _ _ Hp E2) as (-> & -> & ->). exact (fire_icb_q _ _ _ _ _ E1).
Qed.

Lemma plain_pcbs_ddel s l : plain_pcbs l = true -> plain_pcbs (ddel s l) = true.
Proof.
  unfold plain_pcbs. rewrite !forallb_forall. intros H x Hx. apply ddel_In in Hx as [Hx _]. auto.
Qed.

Lemma plain_pcbs_dget s l ks : plain_pcbs l = true -> dget s l = Some ks -> forallb plain_cb ks = true.
Proof.
  unfold plain_pcbs. rewrite forallb_forall. intros H E. exact (H _ (dget_In _ _ _ E)).
Qed.

Lemma fold_ddel_nil {A} (ms : list Z) : fold_left (fun (d : list (Z * A)) m => ddel m d) ms [] = [].
Proof. exact (DictP.fold_ddel_nil ms). Qed.

Lemma resolve_q ok c s c' o : resolve ok c s = (c', o) -> quiet c -> quiet c'.
Proof. apply resolve_Stored, plain_requeue. Qed.

Lemma ack_loop_q h snap c c' o : ack_loop c h snap = (c', o) -> quiet c -> quiet c'.
Proof. apply ack_loop_Stored, plain_requeue. Qed.

Lemma timeout_loop_q strict now snap c c' o : timeout_loop strict c now snap = (c', o) -> quiet c -> quiet c'.
Proof. apply timeout_loop_Stored, plain_requeue. Qed.

Record ep_ok (k K si : Z) (c : conn) : Prop := {
  eo_status : c_status c = CONNECTED;
  eo_key : c_key c = Some k;
  eo_quiet : quiet c;
  eo_hello : c_hello_sent c = 0;
  eo_ls : c_last_send c = c_last_ka c;
  eo_K : c_ka_interval c = K;
  eo_si : c_send_interval c = si }.

Lemma idle_ep_ok k c : idle_ep k c -> ep_ok k (c_ka_interval c) (c_send_interval c) c.
Proof. intros (A & B & C & D & E & F & G). constructor; auto. apply quiet_idle; assumption. Qed.

Lemma ep_ok_sess k K si c c' : same_sess c c' -> quiet c' -> ep_ok k K si c -> ep_ok k K si c'.
Proof. intros [[]] Q []. constructor; congruence. Qed.

(* what an update() may do on the sending side of an idle endpoint whose keep-alive period is M *)
Definition emit_eff (k M : Z) (c : conn) (now : Z) (c' : conn) (dgs : list dgram) : Prop :=
  (now - c_last_ka c <= M /\ dgs = [] /\ c_seq_send c' = c_seq_send c /\ c_last_ka c' = c_last_ka c)
  \/ (M < now - c_last_ka c /\ c_seq_send c' = seq_succ (c_seq_send c) /\ c_last_ka c' = now /\
      exists dg, dgs = [dg] /\ ka_dgram k dg /\ h_seq (d_hdr dg) = seq_succ (c_seq_send c)).

(* ... and on the receiving side *)
Definition rx_post (c : conn) (now : Z) (r : rx) (c' : conn) : Prop :=
  match r with
  | RxDgram d _ =>
      match open_dgram (c_key c) d, bf_insert (c_bf_pkt c) (h_seq (d_hdr d)) with
      | Ok _, Ok bf => c_bf_pkt c' = bf /\ c_last_recv c' = now
      | _, _ => c_bf_pkt c' = c_bf_pkt c /\ c_last_recv c' = c_last_recv c
      end
  | _ => c_bf_pkt c' = c_bf_pkt c /\ c_last_recv c' = c_last_recv c
  end.

(* what a working network hands to an endpoint of the pair: a keep-alive of the peer, or junk *)
Definition peer_dgram (k : Z) (d : dgram) : Prop := ka_dgram k d \/ forall ms, open_dgram (Some k) d <> Ok ms.
Definition rx_good (k : Z) (r : rx) : Prop :=
  match r with RxNone => True | RxBadHeader _ => False | RxDgram d _ => peer_dgram k d end.

Lemma header_eqb_refl h : header_eqb h h = true.
Proof. exact (ConnSpecP.header_eqb_refl h). Qed.

Lemma open_ka k dg : ka_dgram k dg -> open_dgram (Some k) dg = Ok [].
Proof.
  intros (B & T & C & L). unfold open_dgram. rewrite B, T, C, L, Z.eqb_refl, header_eqb_refl. reflexivity.
Qed.

(* the sending half of update() on an idle endpoint; the ack fields of what leaves are its receive window *)
Definition ep_half (k K si : Z) (c : conn) (now : Z) (c' : conn) (dgs : list dgram) : Prop :=
  ep_ok k K si c' /\ same_asm c c' /\ emit_eff k (Z.max K si) c now c' dgs /\
  Forall (fun dg => h_ack (d_hdr dg) = bf_cur (c_bf_pkt c) /\ h_ackbits (d_hdr dg) = bf_bits (c_bf_pkt c)) dgs.

(* the send-rate gate is closed (AssemblyP.SendHalf, Tclosed): nothing leaves *)
Lemma ep_half_closed k K si c now : ep_ok k K si c -> now - c_last_send c <= c_send_interval c -> ep_half k K si c now c [].
Proof.
  intros H Hg. split; [exact H|]. split; [exact (tail_asm _ _ (wr_refl _ _))|]. split; [|constructor]. left.
  rewrite <- (eo_ls _ _ _ _ H). rewrite (eo_si _ _ _ _ H) in Hg. repeat split; auto. lia.
Qed.

Lemma tick_tail_ep e k K si strict c now c2 o2 o3 :
  ep_ok k K si c -> c_send_interval c < now - c_last_send c -> tick_tail strict e c now = (c2, o2, o3) ->
  ep_half k K si c now c2 (flat_map dg_of o2).
Proof.
  intros H Hg E. pose proof H as [Hs Hk Q Hh Hls HK Hsi]. destruct (quiet_nil _ Q) as [Q1 Q2].
  destruct (tick_tail_idle _ _ _ _ _ _ _ Hs Q1 Q2 Hg E) as (A & _ & D).
  destruct (tick_tail_Stored nomsg plain plain_requeue (fun _ _ F => F) (fun _ _ (F : nomsg _) => match F with end)
              _ _ _ _ _ _ _ E Q) as (Q' & _).
  assert (H' : ep_ok k K si c2).
  { destruct A. constructor; try congruence; [exact Q'|]. destruct (_ >? _); destruct D as (_ & _ & D1 & D2); congruence. }
  split; [exact H'|]. split; [exact A|].
  rewrite Hk, HK in D. destruct (now - c_last_ka c >? K) eqn:Hka; destruct D as (-> & D1 & D2 & _); cbn [flat_map dg_of app].
  - split; [|repeat constructor]. right. split; [lia|]. split; [exact D1|]. split; [exact D2|].
    eexists. split; [reflexivity|]. unfold ka_dgram. cbn. auto.
  - split; [|constructor]. left. repeat split; auto. lia.
Qed.

Lemma server_tick_ep e c now k K si c' o :
  ep_ok k K si c -> server_tick e c now = (c', o) -> ep_half k K si c now c' (flat_map dg_of o).
Proof.
  apply (server_tick_half e (ep_ok k K si) (ep_half k K si)); [apply ep_half_closed|apply tick_tail_ep].
Qed.

(* _recv_datagram on an idle endpoint: dropped; or accepted, and then the acknowledgement sweep has left an
   idle endpoint c1 from which the messages are processed *)
Lemma recv_ep_cases c now d orcs k K si c' o : ep_ok k K si c -> recv c now d orcs = (c', o) ->
  (ep_ok k K si c' /\ same_sess c c' /\ o = [ORet false] /\
   ((exists er, open_dgram (Some k) d = Err er) \/ exists er, bf_insert (c_bf_pkt c) (h_seq (d_hdr d)) = Err er))
  \/ exists ms bf c1 o1 o2,
       open_dgram (Some k) d = Ok ms /\ bf_insert (c_bf_pkt c) (h_seq (d_hdr d)) = Ok bf /\ ep_ok k K si c1 /\
       same_sess (c <| c_bf_pkt := bf |> <| c_received := c_received c + 1 |> <| c_last_recv := now |>) c1 /\
       raised o1 = false /\ recv_msgs c1 now ms orcs = (c', o2) /\ o = o1 ++ o2 ++ (if raised o2 then [] else [ORet true]).
Proof.
  intros H E. pose proof (eo_key _ _ _ _ H) as Hk.
  apply recv_cases in E as [(-> & -> & Hwhy)|(ms & bf & c1 & o1 & o2 & _ & Eo & Eb & E1 & E2 & ->)]; rewrite Hk in *.
  - assert (S : same_sess c (c <| c_dropped := c_dropped c + 1 |>)) by sess_triv.
    left. split; [eapply ep_ok_sess; [exact S| |exact H]; eapply quiet_held; [|exact (eo_quiet _ _ _ _ H)]; reflexivity|]. split; [exact S|].
    split; [reflexivity|]. destruct Hwhy as [Hr|Hwhy]; [|exact Hwhy].
    rewrite keyless_refuses_eq, Hk in Hr. discriminate.
  - right. exists ms, bf, c1, o1, o2. split; [exact Eo|]. split; [exact Eb|].
    pose proof (cb_only_not_raised _ (ack_loop_cb_only E1)) as Ra.
    assert (H0 : ep_ok k K si (c <| c_bf_pkt := bf |> <| c_received := c_received c + 1 |> <| c_last_recv := now |>)).
    { destruct H. constructor; try assumption. eapply quiet_held; [|eassumption]. reflexivity. }
    pose proof (ack_loop_q _ _ _ _ _ E1 (eo_quiet _ _ _ _ H0)) as Q1. apply handle_ack_bits_wr, wr_resolve_sess in E1 as S1.
    split; [exact (ep_ok_sess _ _ _ _ _ S1 Q1 H0)|]. auto.
Qed.

Lemma recv_ep c now d orcs k K si c' o :
  ep_ok k K si c -> peer_dgram k d -> recv c now d orcs = (c', o) ->
  ep_ok k K si c' /\ same_core c c' /\ raised o = false /\ no_emit o /\ rx_post c now (RxDgram d orcs) c'.
Proof.
  intros H Hd E. pose proof (wr_recv_core (recv_wr E)) as Sc. pose proof (recv_no_emit E) as Ne. unfold rx_post. rewrite (eo_key _ _ _ _ H).
  apply (recv_ep_cases _ _ _ _ _ _ _ _ _ H) in E
    as [(H' & S & -> & Hwhy)|(ms & bf & c1 & o1 & o2 & Eo & Eb & H1 & S1 & Ra & E2 & ->)].
  - split; [exact H'|]. split; [exact Sc|]. split; [reflexivity|]. split; [exact Ne|].
    rewrite (ss_bfp _ _ S), (ss_last_recv _ _ S).
    destruct Hwhy as [(er & ->)|(er & ->)]; [|destruct (open_dgram _ d)]; auto.
  - destruct Hd as [Hd|Hd]; [|exfalso; exact (Hd _ Eo)]. rewrite (open_ka _ _ Hd) in Eo. injection Eo as <-.
    cbn [recv_msgs] in E2. injection E2 as <- <-. rewrite (open_ka _ _ Hd), Eb.
    split; [exact H1|]. split; [exact Sc|]. split; [rewrite raised_app, Ra; reflexivity|]. split; [exact Ne|].
    rewrite (ss_bfp _ _ S1), (ss_last_recv _ _ S1). auto.
Qed.

Lemma rx_recv_ep c now r k K si c1 o1 : ep_ok k K si c -> rx_good k r -> rx_recv c now r = (c1, o1) ->
  ep_ok k K si c1 /\ same_core c c1 /\ raised o1 = false /\ no_emit o1 /\ rx_post c now r c1.
Proof.
  intros H Hr E. destruct r as [|er|d orcs]; cbn [rx_recv] in E; [|destruct Hr|].
  - injection E as <- <-. cbn. auto 8 with frame.
  - destruct (recv c now d orcs) as [c' o'] eqn:Er. injection E as <- <-. destruct (recv_ep _ _ _ _ _ _ _ _ _ H Hr Er) as (A & B & C & D & F).
    rewrite raised_filter_ret. auto 8 with frame.
Qed.

(* UdpClient.update on an idle client that is not about to report DROPPED *)
Lemma client_tick_ep e c now r k K si c' o :
  ep_ok k K si c -> (c_last_recv c >? 0) && (now >? c_last_recv c + 5 * TICKS) = false -> rx_good k r ->
  client_tick e c now r = (c', o) ->
  ep_ok k K si c' /\ rx_post c now r c' /\ emit_eff k (Z.max K si) c now c' (flat_map dg_of o).
Proof.
  intros H Hl Hr E. destruct (rx_recv c now r) as [c1 o1] eqn:E1.
  destruct (rx_recv_ep _ _ _ _ _ _ _ _ H Hr E1) as (H1 & Sc & Ra & Ne & Rp).
  destruct (client_tick_half e (ep_ok k K si) (ep_half k K si) (ep_half_closed k K si) (tick_tail_ep e k K si)
              _ _ _ _ _ _ _ (eo_hello _ _ _ _ H) (eo_status _ _ _ _ H) Hl E1 Ra Ne H1 E) as (H' & A & Em & _).
  split; [exact H'|]. split.
  - unfold rx_post in *. rewrite (sa_bfp _ _ A), (sa_lr _ _ A). exact Rp.
  - unfold emit_eff in *. rewrite <- (sc_seq _ _ Sc), <- (sc_last_ka _ _ Sc). exact Em.
Qed.

(* SeqNumP.R, extended by the state of a window that has not received anything yet *)
Definition Rx (f : bitfield) (m : Z) (acc : list Z) : Prop :=
  (m = 0 /\ bf_cur f = 0 /\ bf_bits f = 0 /\ 1 <= bf_nbits f /\ acc = []) \/ R f m acc.

Lemma Rx_le f m acc x : Rx f m acc -> In x acc -> x <= m.
Proof. intros [(_ & _ & _ & _ & ->)|H] Hx; [destruct Hx|]. eapply R_le; eassumption. Qed.

Lemma Rx_m f m acc : Rx f m acc -> 0 <= m.
Proof. intros [(-> & _)|H]; [lia|]. pose proof (R_m _ _ _ H). lia. Qed.

Lemma Rx_step f m acc n : Rx f m acc -> 1 <= n -> Z.abs (n - m) <= HALF ->
  match bf_insert f (wire n) with
  | Ok f' => Rx f' (Z.max m n) (n :: acc) /\ bf_nbits f' = bf_nbits f
  | Err _ => In n acc
  end.
Proof.
  intros [(-> & Hc & Hb & Hnb & ->)|HR] Hn Hh.
  - unfold bf_insert. rewrite Hc. cbn [Z.eqb]. split; [|reflexivity]. right. replace (Z.max 0 n) with n by lia. rewrite Hb.
    exact (proj2 (R_first (bf_nbits f) n Hnb Hn)).
  - pose proof (R_step f m acc n HR Hh) as Hs.
    destruct (spec_dup (bf_nbits f) m acc n) eqn:Hd.
    + rewrite Hs. unfold spec_dup in Hd. apply andb_prop in Hd as [Hd _]. apply andb_prop in Hd as [Hd _].
      apply InB_In. exact Hd.
    + destruct Hs as (f' & -> & Hnb & HR'). split; [right; exact HR'|exact Hnb].
Qed.

(* the (ack, ack_bits) fields read off a 32-bit window name accepted numbers only (first half lap) *)
Lemma Rx_names f m acc ack bits i : Rx f m acc -> bf_nbits f = 32 -> ack = bf_cur f -> bits = bf_bits f ->
  m <= HALF -> 1 <= i <= HALF -> hdr_acks ack bits i = true -> In i acc.
Proof.
  intros [(-> & Hc & Hb & _)|HR] Hnb -> -> Hm Hi Ha.
  - rewrite Hc, Hb in Ha. unfold hdr_acks in Ha. cbv zeta in Ha. rewrite Z.land_0_l in Ha. cbn [Z.eqb negb] in Ha.
    rewrite andb_false_r, orb_false_r in Ha. unfold seq_diff, HALF in *. cbv zeta in Ha.
    destruct (0 - i >? 32767) eqn:E1; [lia|]. destruct (0 - i <? - (32767)) eqn:E2; lia.
  - rewrite hdr_acks_contains, <- Hnb in Ha. replace {| bf_nbits := bf_nbits f; bf_bits := bf_bits f; bf_cur := bf_cur f |} with f in Ha by (destruct f; reflexivity).
    rewrite <- (wire_small i) in Ha by (unfold RING, HALF in *; lia). pose proof (R_m _ _ _ HR).
    rewrite (R_contains _ _ _ i HR ltac:(lia)) in Ha. apply spec_dup_true in Ha as [Ha _]. exact Ha.
Qed.

(* whatever its bits, a window whose newest number is m stands for some set of accepted numbers: m and, for each
   bit set, the number that bit is for *)
Lemma R_of_bits f m : 1 <= bf_nbits f -> bf_cur f = wire m -> 1 <= m -> 0 <= bf_bits f < 2 ^ bf_nbits f ->
  exists acc, R f m acc.
Proof.
  intros Hnb Hc Hm Hb. set (nb := bf_nbits f) in *.
  set (ks := filter (Z.testbit (bf_bits f)) (map Z.of_nat (seq 0 (Z.to_nat nb)))).
  assert (Hks : forall k, In k ks <-> (0 <= k < nb /\ Z.testbit (bf_bits f) k = true)).
  { intros k. unfold ks. rewrite filter_In, in_map_iff. split.
    - intros [(j & <- & Hj) Ht]. apply in_seq in Hj. split; [lia|exact Ht].
    - intros [Hk Ht]. split; [|exact Ht]. exists (Z.to_nat k). split; [lia|]. apply in_seq. lia. }
  exists (m :: map (fun k => m - (nb - k)) ks).
  constructor; fold nb; try assumption.
  - rewrite InB_cons, Z.eqb_refl. reflexivity.
  - intros x [<-|Hx]; [lia|]. apply in_map_iff in Hx as (k & <- & Hk). apply Hks in Hk. lia.
  - intros k Hk. rewrite InB_cons. replace (m - (nb - k) =? m) with false by lia. cbn [orb].
    destruct (Z.testbit (bf_bits f) k) eqn:Ht; symmetry.
    + apply InB_In. apply in_map_iff. exists k. split; [reflexivity|]. apply Hks. auto.
    + destruct (InB _ _) eqn:Hi; [|reflexivity]. apply InB_In in Hi. apply in_map_iff in Hi as (k' & Ek & Hk').
      apply Hks in Hk' as [Hr Ht']. assert (k' = k) by lia. subst k'. congruence.
  - intros k Hk. rewrite <- (Z.mod_small (bf_bits f) (2 ^ nb)) by lia.
    apply Z.mod_pow2_bits_high. lia.
Qed.

Lemma in_sync_Rx x y : in_sync x y ->
  exists m acc, Rx (c_bf_pkt y) m acc /\ m = c_seq_send x /\ c_seq_send x = (if m =? 0 then 0 else wire m) /\ 0 <= m.
Proof.
  intros (Hnb & Hc & Hr & Hb & Hz).
  destruct (Z.eq_dec (c_seq_send x) 0) as [E|E].
  - exists 0, []. split; [left; rewrite Hnb; repeat split; auto; try lia; congruence|]. rewrite E. auto with zarith.
  - assert (Hw : wire (c_seq_send x) = c_seq_send x) by (apply wire_small; lia).
    destruct (R_of_bits (c_bf_pkt y) (c_seq_send x)) as (acc & HR); try lia; try congruence; try (rewrite Hnb; lia).
    exists (c_seq_send x), acc. split; [right; exact HR|]. split; [reflexivity|].
    replace (c_seq_send x =? 0) with false by lia. split; [congruence|lia].
Qed.

Lemma wd_lookup_in w i t dg : wd_lookup w i = Some (t, dg) -> In (i, t, dg) (wd_log w).
Proof.
  unfold wd_lookup. destruct (find _ _) as [[[n t'] dg']|] eqn:F; [|discriminate].
  intros E. injection E as <- <-. apply find_some in F as [Hin Hn]. cbn in Hn.
  assert (n = i) by lia. subst. exact Hin.
Qed.

(* One direction of the wire as the two timed compositions read it (this file, LiveP.v): the log is
   numbered, the receiver's window stands for a set of accepted numbers. *)
Section Wire.
  (* Pd: what every datagram of the direction looks like; N0: the sender's datagram number at the start *)
  Variables (Pd : dgram -> Prop) (N0 : Z).

  (* sx: the sender's sequence counter; bfy: the receiver's window; n, log: TimedNet.wd_n, wd_log;
     the window stands for the set acc of accepted numbers, the newest being m.  The log holds one
     datagram for each number N0 + 1 .. n, whose wire sequence number is that of its number. *)
  Record wire_inv (sx : Z) (bfy : bitfield) (n : Z) (log : list (Z * Z * dgram)) (m : Z) (acc : list Z) : Prop := {
    wi_n0 : 0 <= N0 <= n;
    wi_seq : sx = if n =? 0 then 0 else wire n;
    wi_log : forall i t dg, In (i, t, dg) log -> N0 < i <= n /\ h_seq (d_hdr dg) = wire i /\ Pd dg;
    wi_all : forall i, N0 < i <= n -> exists t dg, In (i, t, dg) log;
    wi_fun : forall i t dg t' dg', In (i, t, dg) log -> In (i, t', dg') log -> t = t' /\ dg = dg';
    wi_win : Rx bfy m acc;
    wi_nb : bf_nbits bfy = 32;
    wi_m : m <= n }.

  Lemma wire_emit1 sx bfy n log m acc now dg : wire_inv sx bfy n log m acc ->
    h_seq (d_hdr dg) = seq_succ sx -> Pd dg ->
    wire_inv (seq_succ sx) bfy (n + 1) (log ++ [(n + 1, now, dg)]) m acc.
  Proof.
    intros [A B C D F G Nb H] Hs Hp.
    assert (Hsq : seq_succ sx = wire (n + 1)).
    { rewrite B. destruct (n =? 0) eqn:E0; [assert (n = 0) as -> by lia; reflexivity|apply seq_succ_wire]. }
    assert (Hnew : forall i t dg0, In (i, t, dg0) (log ++ [(n + 1, now, dg)]) ->
                     In (i, t, dg0) log \/ (i = n + 1 /\ t = now /\ dg0 = dg)).
    { intros i t dg0 Hin. apply in_app_or in Hin as [Hin|[Hin|[]]]; [left; exact Hin|right]. injection Hin as <- <- <-. auto. }
    constructor; [lia|replace (n + 1 =? 0) with false by lia; exact Hsq| | | |exact G|exact Nb|lia].
    - intros i t dg0 Hin. destruct (Hnew _ _ _ Hin) as [Hin'|(-> & -> & ->)].
      + destruct (C _ _ _ Hin') as (C1 & C2). split; [lia|exact C2].
      + split; [lia|]. split; [congruence|exact Hp].
    - intros i Hi. destruct (Z.eq_dec i (n + 1)) as [->|Hne]; [exists now, dg; apply in_or_app; right; left; reflexivity|].
      destruct (D i ltac:(lia)) as (t & dg0 & Hin). exists t, dg0. apply in_or_app. left. exact Hin.
    - intros i t dg0 t' dg0' H1 H2.
      destruct (Hnew _ _ _ H1) as [G1|(-> & -> & ->)]; destruct (Hnew _ _ _ H2) as [G2|(E1 & -> & ->)].
      + eapply F; eassumption.
      + destruct (C _ _ _ G1). lia.
      + destruct (C _ _ _ G2). lia.
      + auto.
  Qed.

  Lemma wire_recv sx bfy n log m acc i t dg : wire_inv sx bfy n log m acc -> In (i, t, dg) log ->
    Z.abs (i - m) <= HALF ->
    match bf_insert bfy (h_seq (d_hdr dg)) with
    | Ok bf => wire_inv sx bf n log (Z.max m i) (i :: acc)
    | Err _ => In i acc
    end.
  Proof.
    intros [A B C D F G Nb H] Hin Hh. destruct (C _ _ _ Hin) as (Hi & -> & _).
    pose proof (Rx_step _ _ _ i G ltac:(lia) Hh) as Hs.
    destruct (bf_insert bfy (wire i)); [|exact Hs]. destruct Hs. constructor; auto; lia.
  Qed.
End Wire.

Lemma last_cons_indep {A} (l : list A) : forall a d d', last (a :: l) d = last (a :: l) d'.
Proof. induction l as [|b r IH]; intros a d d'; [reflexivity|]. cbn [last] in *. apply (IH b). Qed.

Lemma gaps_le_snoc G ts : forall prev t, gaps_le G prev ts -> t - last ts prev <= G -> gaps_le G prev (ts ++ [t]).
Proof.
  induction ts as [|x r IH]; intros prev t Hg Hl; cbn [app gaps_le] in *; [auto|].
  destruct Hg as [H1 H2]. split; [exact H1|]. apply IH; [exact H2|].
  destruct r as [|z r]; [exact Hl|]. rewrite (last_cons_indep r z x prev). exact Hl.
Qed.

Lemma last_snoc {A} (l : list A) (x d : A) : last (l ++ [x]) d = x.
Proof. apply last_last. Qed.

Section Direction.
  (* k: session key; M: keep-alive period of the sender X; tau, d, life: the network parameters;
     N0: X's datagram number at the start; v0: the moment X's first keep-alive is counted from *)
  Variables (k M tau d life N0 v0 : Z).
  Hypothesis HM : 0 <= M.
  Hypothesis Hd : 0 <= d.
  Hypothesis Hlife : d <= life.
  Hypothesis Htau : 0 <= tau.
  Hypothesis Hring : life <= (HALF - 1) * (M + 1).

  (* sx, lkx: X's sequence counter and last-packet time; bfy, lry: Y's receive window and liveness
     clock; w: the wire X -> Y; clk: the clock; tickx: X's latest update().
     di_sp: packets of X are more than M apart, so a logged datagram that is still alive (at most
     `life` old) is fewer than HALF numbers behind the newest (count_bound, Hring): the window
     arithmetic of bf_insert never wraps (dir_recv). *)
  Record dir_inv (sx lkx : Z) (bfy : bitfield) (lry : Z) (w : wdir) (clk tickx : Z) : Prop := {
    di_v : lkx <= wd_v w <= clk;
    di_tick : tickx - wd_v w <= M;
    di_tickle : tickx <= clk;
    di_sp : forall n t dg, In (n, t, dg) (wd_log w) -> (wd_n w - n) * (M + 1) <= lkx - t;
    di_win : exists m acc, wire_inv (ka_dgram k) N0 sx bfy (wd_n w) (wd_log w) m acc /\ N0 <= m
               /\ (forall n t dg, In (n, t, dg) (wd_log w) -> In (n, t) (wd_pend w) \/ (In n acc /\ t <= lry))
               /\ (forall n t, In (n, t) (wd_pend w) -> ~ In n acc /\ exists dg, In (n, t, dg) (wd_log w));
    di_lry : lry <= clk;
    di_live0 : wd_pend w = [] -> wd_v w <= lry;
    di_live1 : wd_pend w <> [] -> exists n t, In (n, t) (wd_pend w) /\ t - (M + tau) <= lry;
    di_gaps : gaps_le (M + tau) v0 (em_times w);
    di_last : last (em_times w) v0 = wd_v w }.

  Lemma dir_time sx lkx bfy lry w clk tickx now :
    dir_inv sx lkx bfy lry w clk tickx -> clk <= now -> dir_inv sx lkx bfy lry w now tickx.
  Proof. intros [] Hn. constructor; auto; lia. Qed.

  Lemma dir_safe sx lkx bfy lry w clk tickx now :
    dir_inv sx lkx bfy lry w clk tickx -> clk <= now -> now - tickx <= tau -> on_time w d now ->
    now - lry <= M + tau + d.
  Proof.
    intros [V T _ _ _ _ L0 L1 _ _] Hn Ht Ho. destruct (wd_pend w) as [|p r] eqn:Ep.
    - specialize (L0 eq_refl). lia.
    - destruct L1 as (n & t & Hin & Hl); [discriminate|].
      unfold on_time in Ho. rewrite Ep in Ho. rewrite Forall_forall in Ho. apply Ho in Hin. cbn in Hin. lia.
  Qed.

  Lemma dir_emit sx lkx bfy lry w clk tickx now sx' lkx' dgs :
    dir_inv sx lkx bfy lry w clk tickx -> clk <= now -> now - tickx <= tau ->
    ((now - lkx <= M /\ dgs = [] /\ sx' = sx /\ lkx' = lkx)
     \/ (M < now - lkx /\ sx' = seq_succ sx /\ lkx' = now /\
         exists dg, dgs = [dg] /\ ka_dgram k dg /\ h_seq (d_hdr dg) = seq_succ sx)) ->
    dir_inv sx' lkx' bfy lry (wd_emit w now dgs) now now.
  Proof.
    intros I Hn Ht [(H1 & -> & -> & ->)|(H1 & -> & -> & dg & -> & Hk & Hs)].
    - destruct I. cbn [wd_emit fold_left]. constructor; auto; lia.
    - destruct I as [V T TL SP (m & acc & WI & Hm & W1 & W2) L L0 L1 G La]. cbn [wd_emit fold_left]. unfold wd_emit1.
      constructor; cbn [wd_n wd_v wd_log wd_pend]; try lia.
      + intros n t dg' Hin. apply in_app_or in Hin as [Hin|[Hin|[]]].
        * specialize (SP _ _ _ Hin). replace ((wd_n w + 1 - n) * (M + 1)) with ((wd_n w - n) * (M + 1) + (M + 1)) by ring. lia.
        * injection Hin as <- <- <-. replace (wd_n w + 1 - (wd_n w + 1)) with 0 by lia. lia.
      + exists m, acc. split; [apply wire_emit1; assumption|]. split; [exact Hm|]. split.
        * intros n t dg' Hin. apply in_app_or in Hin as [Hin|[Hin|[]]].
          -- destruct (W1 _ _ _ Hin) as [A|A]; [left; apply in_or_app; left; exact A|right; exact A].
          -- injection Hin as <- <- <-. left. apply in_or_app. right. left. reflexivity.
        * intros n t Hin. apply in_app_or in Hin as [Hin|[Hin|[]]].
          -- destruct (W2 _ _ Hin) as (A & dg' & B). split; [exact A|]. exists dg'. apply in_or_app. left. exact B.
          -- injection Hin as <- <-. split.
             ++ intros Hx. pose proof (Rx_le _ _ _ _ (wi_win _ _ _ _ _ _ _ _ WI) Hx). pose proof (wi_m _ _ _ _ _ _ _ _ WI). lia.
             ++ exists dg. apply in_or_app. right. left. reflexivity.
      + intros E. destruct (wd_pend w); discriminate.
      + intros _. destruct (wd_pend w) as [|p r] eqn:Ep.
        * exists (wd_n w + 1), now. split; [left; reflexivity|]. specialize (L0 eq_refl). lia.
        * destruct L1 as (n & t & Hin & Hl); [discriminate|]. exists n, t. split; [apply in_or_app; left; exact Hin|exact Hl].
      + unfold em_times in *. cbn [wd_log]. rewrite map_app. cbn [map fst snd].
        apply gaps_le_snoc; [exact G|]. rewrite La. lia.
      + unfold em_times in *. cbn [wd_log]. rewrite map_app. cbn [map fst snd]. apply last_last.
  Qed.

  Lemma log_time sx lkx bfy lry w clk tickx n t dg :
    dir_inv sx lkx bfy lry w clk tickx -> In (n, t, dg) (wd_log w) -> t <= lkx.
  Proof.
    intros [_ _ _ SP (m & acc & WI & _) _ _ _ _ _] Hin. specialize (SP _ _ _ Hin). destruct (wi_log _ _ _ _ _ _ _ _ WI _ _ _ Hin) as (A & _).
    assert (0 <= (wd_n w - n) * (M + 1)) by (apply Z.mul_nonneg_nonneg; lia). lia.
  Qed.

  Lemma count_bound a : a * (M + 1) <= life -> a <= HALF - 1.
  Proof.
    intros H. assert (H' : a * (M + 1) <= (HALF - 1) * (M + 1)) by lia.
    apply Z.mul_le_mono_pos_r in H'; lia.
  Qed.

  Lemma filter_id {A} (f : A -> bool) (l : list A) : (forall x, In x l -> f x = true) -> filter f l = l.
  Proof.
    induction l as [|a r IH]; intros H; [reflexivity|]. cbn [filter].
    rewrite (H a (or_introl eq_refl)). f_equal. apply IH. intros x Hx. apply H. right. exact Hx.
  Qed.

  (* Y is offered s at time now; (bfy', lry') is what Conn.recv makes of it (rx_post) *)
  Lemma dir_recv sx lkx bfy lry w clk tickx now s bfy' lry' :
    dir_inv sx lkx bfy lry w clk tickx -> clk <= now -> on_time w d now -> src_ok (Some k) w life now s ->
    match rx_of w s with
    | RxDgram dg _ =>
        match open_dgram (Some k) dg, bf_insert bfy (h_seq (d_hdr dg)) with
        | Ok _, Ok bf => bfy' = bf /\ lry' = now
        | _, _ => bfy' = bfy /\ lry' = lry
        end
    | _ => bfy' = bfy /\ lry' = lry
    end ->
    dir_inv sx lkx bfy' lry' (wd_present w s) now tickx.
  Proof.
    intros I Hn Ho Hs Hp. destruct s as [|i|dg orcs]; cbn [rx_of wd_present src_ok] in *.
    - destruct Hp as [-> ->]. eapply dir_time; eassumption.
    - destruct Hs as (t & dg & Hl & Hlf). rewrite Hl in Hp. pose proof (wd_lookup_in _ _ _ _ Hl) as Hin.
      pose proof (fun n t dg => log_time _ _ _ _ _ _ _ n t dg I) as LT.
      destruct I as [V T TL SP (m & acc & WI & Hm & W1 & W2) L L0 L1 G La].
      destruct (wi_log _ _ _ _ _ _ _ _ WI _ _ _ Hin) as (Hi & _ & Hka). rewrite (open_ka _ _ Hka) in Hp.
      (* a logged datagram still alive is fewer than HALF numbers from the newest accepted one *)
      assert (Hhalf : Z.abs (i - m) <= HALF).
      { assert (B1 : wd_n w - i <= HALF - 1) by (apply count_bound; specialize (SP _ _ _ Hin); lia).
        pose proof (wi_m _ _ _ _ _ _ _ _ WI). destruct (Z_le_gt_dec i m) as [Hle|Hgt]; [lia|].
        destruct (wi_all _ _ _ _ _ _ _ _ WI (m + 1) ltac:(lia)) as (tl & dgl & Hinl).
        destruct (W1 _ _ _ Hinl) as [Hpl|[Hal _]]; [|pose proof (Rx_le _ _ _ _ (wi_win _ _ _ _ _ _ _ _ WI) Hal); lia].
        unfold on_time in Ho. rewrite Forall_forall in Ho. pose proof (Ho _ Hpl) as Hd'. cbn in Hd'.
        assert (B2 : wd_n w - (m + 1) <= HALF - 1) by (apply count_bound; specialize (SP _ _ _ Hinl); lia). lia. }
      pose proof (wire_recv _ _ _ _ _ _ _ _ _ _ _ WI Hin Hhalf) as Hstep.
      destruct (bf_insert bfy (h_seq (d_hdr dg))) as [bf|er].
      + destruct Hp as [-> ->].
        constructor; cbn [wd_n wd_v wd_log wd_pend]; auto; try lia.
        * exists (Z.max m i), (i :: acc). split; [exact Hstep|]. split; [lia|]. split.
          -- intros n t' dg' Hin'. destruct (Z.eq_dec n i) as [->|Hne].
             ++ right. split; [left; reflexivity|]. specialize (LT _ _ _ Hin'). lia.
             ++ destruct (W1 _ _ _ Hin') as [A|[A B]].
                ** left. apply filter_In. split; [exact A|]. cbn. lia.
                ** right. split; [right; exact A|lia].
          -- intros n t' Hin'. apply filter_In in Hin' as [Hin' Hne]. cbn in Hne.
             destruct (W2 _ _ Hin') as (A & B). split; [|exact B].
             intros [E|E]; [lia|exact (A E)].
        * intros Hne. destruct (filter _ (wd_pend w)) as [|[n t'] r] eqn:Ef; [congruence|].
          exists n, t'. split; [left; reflexivity|].
          assert (Hin' : In (n, t') (filter (fun p => negb (fst p =? i)) (wd_pend w))) by (rewrite Ef; left; reflexivity).
          apply filter_In in Hin' as [Hin' _]. destruct (W2 _ _ Hin') as (_ & dg' & B).
          specialize (LT _ _ _ B). lia.
      + (* refused: a copy of it was accepted before *)
        destruct Hp as [-> ->].
        assert (Hf : filter (fun p => negb (fst p =? i)) (wd_pend w) = wd_pend w).
        { apply filter_id. intros [n t'] Hin'. cbn. destruct (W2 _ _ Hin') as (A & _).
          destruct (Z.eq_dec n i) as [->|Hne]; [contradiction|lia]. }
        rewrite Hf. replace {| wd_n := wd_n w; wd_v := wd_v w; wd_log := wd_log w; wd_pend := wd_pend w |} with w by (destruct w; reflexivity).
        constructor; try assumption; try lia. exists m, acc. auto.
    - destruct (open_dgram (Some k) dg) as [ms|er] eqn:Eo; [exfalso; eapply Hs; reflexivity|].
      destruct Hp as [-> ->]. eapply dir_time; eassumption.
  Qed.
End Direction.

Lemma on_time_emit d now dgs : 0 <= d -> forall w, on_time w d now -> on_time (wd_emit w now dgs) d now.
Proof.
  intros Hd. unfold wd_emit. induction dgs as [|dg r IH]; intros w H; cbn [fold_left]; [exact H|].
  apply IH. unfold on_time, wd_emit1 in *. cbn [wd_pend]. apply Forall_app. split; [exact H|].
  constructor; [cbn; lia|constructor].
Qed.

Lemma on_time_present w d now s : on_time w d now -> on_time (wd_present w s) d now.
Proof.
  unfold on_time. destruct s; cbn [wd_present wd_pend]; auto.
  rewrite !Forall_forall. intros H p Hp. apply filter_In in Hp as [Hp _]. auto.
Qed.

Section Pair.
  Variables (e : env) (P : tparams) (k : Z) (cli0 srv0 : conn) (t0 : Z).
  Hypothesis Hest : established k t0 cli0 srv0.
  Hypothesis Hpar : params_ok P cli0 srv0.

  (* the pair after any admissible history: both endpoints as ep_ok keeps them, with the intervals they started
     with; the server has not swept; at the time of the latest event each side's last update() is at most tau old and
     nothing pending is older than d; dir_inv for each direction, the sender's fields against the receiver's *)
  Record tinv (n : tnet) : Prop := {
    ti_cli : ep_ok k (c_ka_interval cli0) (c_send_interval cli0) (t_cli n);
    ti_srv : ep_ok k (c_ka_interval srv0) (c_send_interval srv0) (t_srv n);
    ti_swept : t_swept n = false;
    ti_tkC : t_clk n - t_tickC n <= tp_tau P;
    ti_tkS : t_clk n - t_tickS n <= tp_tau P;
    ti_otC : on_time (t_cs n) (tp_d P) (t_clk n);
    ti_otS : on_time (t_sc n) (tp_d P) (t_clk n);
    ti_cs : dir_inv k (kmax cli0) (tp_tau P) (c_seq_send cli0) (base_time cli0 t0)
              (c_seq_send (t_cli n)) (c_last_ka (t_cli n)) (c_bf_pkt (t_srv n)) (c_last_recv (t_srv n))
              (t_cs n) (t_clk n) (t_tickC n);
    ti_sc : dir_inv k (kmax srv0) (tp_tau P) (c_seq_send srv0) (base_time srv0 t0)
              (c_seq_send (t_srv n)) (c_last_ka (t_srv n)) (c_bf_pkt (t_cli n)) (c_last_recv (t_cli n))
              (t_sc n) (t_clk n) (t_tickS n) }.

  Lemma dir_init x y : in_sync x y -> heard x y t0 -> 0 <= kmax x ->
    dir_inv k (kmax x) (tp_tau P) (c_seq_send x) (base_time x t0)
      (c_seq_send x) (c_last_ka x) (c_bf_pkt y) (c_last_recv y) (wd0 (c_seq_send x) (base_time x t0)) t0 t0.
  Proof.
    intros Hs (H1 & H2 & H3 & H4) HM.
    destruct (in_sync_Rx _ _ Hs) as (m & acc & HR & -> & Hw & H0).
    unfold base_time. constructor; cbn [wd0 wd_n wd_v wd_log wd_pend em_times map last gaps_le]; auto; try lia.
    - intros n t dg [].
    - exists (c_seq_send x), acc. split; [|split; [lia|split; [intros n t dg []|intros n t []]]].
      constructor; [lia|exact Hw|intros i t dg []|intros i Hi; lia|intros i t dg t' dg' []|exact HR|exact (proj1 Hs)|lia].
    - intros Hne. exfalso. apply Hne. reflexivity.
  Qed.

  Lemma tinv_init : tinv (tnet0 cli0 srv0 t0).
  Proof.
    destruct Hest as (Ec & Es & Scs & Ssc & Hcs & Hsc). destruct Hpar as (_ & _ & Htau & MC & MS & _).
    constructor; cbn [tnet0 t_cli t_srv t_swept t_cs t_sc t_clk t_tickC t_tickS].
    - apply idle_ep_ok. exact Ec.
    - apply idle_ep_ok. exact Es.
    - reflexivity.
    - lia.
    - lia.
    - constructor.
    - constructor.
    - apply dir_init; assumption.
    - apply dir_init; assumption.
  Qed.

  Lemma wd_emit_nil w now : wd_emit w now [] = w.
  Proof. reflexivity. Qed.

  Lemma rx_good_of w s sx lkx bfy lry clk tickx M N0 v0 now :
    dir_inv k M (tp_tau P) N0 v0 sx lkx bfy lry w clk tickx -> src_ok (Some k) w (tp_life P) now s -> rx_good k (rx_of w s).
  Proof.
    intros [_ _ _ _ (m & acc & WI & _) _ _ _ _ _] Hs. destruct s as [|i|dg orcs]; cbn [rx_of rx_good src_ok] in *; [exact Logic.I| |right; exact Hs].
    destruct Hs as (t & dg & Hl & _). rewrite Hl. left.
    apply wd_lookup_in in Hl. exact (proj2 (proj2 (wi_log _ _ _ _ _ _ _ _ WI _ _ _ Hl))).
  Qed.

  Lemma tinv_step n v : tinv n -> tok P n v -> tinv (tstep e P n v).
  Proof.
    intros [Ic Is Isw _ _ _ _ Ics Isc] (Hclk & HtC & HtS & HoC & HoS & Hsrc).
    destruct Hpar as (Hd & Hlife & Htau & HMC & HMS & HT & H5 & HrC & HrS).
    destruct v as [now s|now s|now]; cbn [tev_time] in *; cbn [tstep].
    - (* UdpClient.update *)
      destruct (client_tick e (t_cli n) now (rx_of (t_sc n) s)) as [c' o] eqn:E.
      pose proof (dir_safe _ _ _ _ _ _ Hd _ _ _ _ _ _ _ _ Isc Hclk HtS HoS) as Hsafe.
      rewrite (eo_key _ _ _ _ Ic) in Hsrc. pose proof (rx_good_of _ _ _ _ _ _ _ _ _ _ _ _ Isc Hsrc) as Hg.
      assert (Hnd : (c_last_recv (t_cli n) >? 0) && (now >? c_last_recv (t_cli n) + 5 * TICKS) = false) by lia.
      destruct (client_tick_ep _ _ _ _ _ _ _ _ _ Ic Hnd Hg E) as (Ic' & Rp & Em).
      rewrite (eo_status _ _ _ _ Ic'). cbn [status_eqb status_code Z.eqb].
      constructor; cbn.
      + exact Ic'.
      + exact Is.
      + exact Isw.
      + lia.
      + lia.
      + apply on_time_emit; assumption.
      + apply on_time_present; assumption.
      + eapply (dir_emit _ _ _ _ _ HMC); try eassumption.
      + eapply (dir_recv _ _ _ (tp_d P) (tp_life P) _ _ HMS Hlife Htau HrS); try eassumption.
        unfold rx_post in Rp. rewrite (eo_key _ _ _ _ Ic) in Rp. exact Rp.
    - (* the server loop hands a datagram to the connection *)
      rewrite Isw.
      rewrite (eo_key _ _ _ _ Is) in Hsrc. pose proof (rx_good_of _ _ _ _ _ _ _ _ _ _ _ _ Ics Hsrc) as Hg.
      destruct (rx_of (t_cs n) s) as [|er|dg orcs] eqn:Er.
      + constructor; cbn; auto; try lia; eapply dir_time; eassumption.
      + destruct Hg.
      + destruct (recv (t_srv n) now dg orcs) as [c' o] eqn:E.
        destruct (recv_ep _ _ _ _ _ _ _ _ _ Is Hg E) as (Is' & Sc & _ & Ne & Rp).
        rewrite (dg_no_emit _ Ne).
        constructor; cbn.
        * exact Ic.
        * exact Is'.
        * exact Isw.
        * lia.
        * lia.
        * apply on_time_present; assumption.
        * assumption.
        * eapply (dir_recv _ _ _ (tp_d P) (tp_life P) _ _ HMC Hlife Htau HrC); try eassumption. rewrite Er.
          unfold rx_post in Rp. rewrite (eo_key _ _ _ _ Is) in Rp. exact Rp.
        * rewrite (sc_seq _ _ Sc), (sc_last_ka _ _ Sc). eapply dir_time; eassumption.
    - (* the server loop's sweep *)
      rewrite Isw. unfold server_sweep.
      rewrite (eo_status _ _ _ _ Is). cbn [status_eqb status_code Z.eqb Pos.eqb].
      destruct (server_tick e (t_srv n) now) as [c' o] eqn:E.
      destruct (server_tick_ep _ _ _ _ _ _ _ _ Is E) as (Is' & A & Em & _).
      pose proof (dir_safe _ _ _ _ _ _ Hd _ _ _ _ _ _ _ _ Ics Hclk HtC HoC) as Hsafe.
      assert (Hns : sweep_drops (tp_T P) (t_srv n) now = false).
      { unfold sweep_drops, timedout. rewrite (eo_status _ _ _ _ Is). cbn [status_eqb status_code Z.eqb orb]. lia. }
      rewrite Hns.
      constructor; cbn.
      + exact Ic.
      + exact Is'.
      + reflexivity.
      + lia.
      + lia.
      + assumption.
      + apply on_time_emit; assumption.
      + rewrite (sa_lr _ _ A), (sa_bfp _ _ A). eapply dir_time; eassumption.
      + eapply (dir_emit _ _ _ _ _ HMS); try eassumption.
  Qed.

  Lemma tinv_run vs : forall n, tinv n -> tvalid e P n vs -> tinv (trun e P n vs).
  Proof.
    induction vs as [|v r IH]; intros n I Hv; [exact I|].
    cbn [tvalid] in Hv. destruct Hv as [Hok Hr]. cbn [trun fold_left]. apply IH; [|exact Hr].
    apply tinv_step; assumption.
  Qed.
End Pair.

(* C12, the idle pair: neither side ever times out *)
Theorem idle_pair_stays_up e P k cli srv t0 hs :
  established k t0 cli srv -> params_ok P cli srv -> tvalid e P (tnet0 cli srv t0) hs ->
  pair_up k (trun e P (tnet0 cli srv t0) hs).
Proof.
  intros He Hp Hv. pose proof (tinv_run e P k cli srv t0 Hp hs _ (tinv_init P k cli srv t0 He Hp) Hv) as I.
  destruct I as [[] [] Sw _ _ _ _ _ _]. unfold pair_up. auto.
Qed.

Lemma dir_cadence k M tau N0 v0 sx lkx bfy lry w clk tickx :
  dir_inv k M tau N0 v0 sx lkx bfy lry w clk tickx -> clk - tickx <= tau ->
  cadence_ok (M + tau) v0 clk w /\ Forall (fun x => ka_dgram k (snd x)) (wd_log w).
Proof.
  intros [V T TL _ (m & acc & WI & _) _ _ _ G La] Ht. split; [split; [assumption|rewrite La; lia]|].
  apply Forall_forall. intros [[n t] dg] Hin. exact (proj2 (proj2 (wi_log _ _ _ _ _ _ _ _ WI _ _ _ Hin))).
Qed.

(* C12, the idle pair: each side emits a keep-alive at least every keep-alive period + one update() period, and nothing else *)
Theorem idle_pair_cadence e P k cli srv t0 hs :
  established k t0 cli srv -> params_ok P cli srv -> tvalid e P (tnet0 cli srv t0) hs ->
  let n := trun e P (tnet0 cli srv t0) hs in
  (cadence_ok (kmax cli + tp_tau P) (base_time cli t0) (t_clk n) (t_cs n)
   /\ Forall (fun x => ka_dgram k (snd x)) (wd_log (t_cs n))) /\
  (cadence_ok (kmax srv + tp_tau P) (base_time srv t0) (t_clk n) (t_sc n)
   /\ Forall (fun x => ka_dgram k (snd x)) (wd_log (t_sc n))).
Proof.
  intros He Hp Hv. pose proof (tinv_run e P k cli srv t0 Hp hs _ (tinv_init P k cli srv t0 He Hp) Hv) as I.
  destruct I as [_ _ _ TC TS _ _ Ics Isc]. cbv zeta. split; eapply dir_cadence; eassumption.
Qed.

(* C12, the idle pair: at every moment neither liveness clock is older than the sender's keep-alive
   period + one update() period + the network delay — which is why neither time-out rule fires *)
Theorem idle_pair_clocks_fresh e P k cli srv t0 hs :
  established k t0 cli srv -> params_ok P cli srv -> tvalid e P (tnet0 cli srv t0) hs ->
  let n := trun e P (tnet0 cli srv t0) hs in
  t_clk n - c_last_recv (t_srv n) <= kmax cli + tp_tau P + tp_d P /\
  t_clk n - c_last_recv (t_cli n) <= kmax srv + tp_tau P + tp_d P.
Proof.
  intros He Hp Hv. pose proof (tinv_run e P k cli srv t0 Hp hs _ (tinv_init P k cli srv t0 He Hp) Hv) as I.
  destruct I as [_ _ _ TC TS OC OS Ics Isc]. destruct Hp as (Hd & _). cbv zeta. split.
  - eapply (dir_safe _ _ _ _ _ _ Hd); [exact Ics|lia|exact TC|exact OC].
  - eapply (dir_safe _ _ _ _ _ _ Hd); [exact Isc|lia|exact TS|exact OS].
Qed.

(* every prefix of an admissible history is admissible: the theorems speak about every moment of a
   history, not only its end *)
Lemma tvalid_app e P vs1 : forall n vs2, tvalid e P n (vs1 ++ vs2) -> tvalid e P n vs1.
Proof.
  induction vs1 as [|v r IH]; intros n vs2 H; [exact I|].
  cbn [app tvalid] in *. destruct H as [H1 H2]. split; [exact H1|eapply IH; exact H2].
Qed.

Lemma src_okb_ok key w life now s : src_okb key w life now s = true -> src_ok key w life now s.
Proof.
  destruct s as [|i|dg orcs]; cbn [src_okb src_ok]; [auto| |].
  - destruct (wd_lookup w i) as [[t dg]|]; [|discriminate]. intros H. exists t, dg. split; [reflexivity|lia].
  - destruct (open_dgram key dg); [discriminate|]. intros _ ms. discriminate.
Qed.

Lemma on_timeb_ok w d now : on_timeb w d now = true -> on_time w d now.
Proof.
  unfold on_timeb, on_time. rewrite forallb_forall, Forall_forall. intros H p Hp. specialize (H p Hp). lia.
Qed.

Lemma tokb_ok P n v : tokb P n v = true -> tok P n v.
Proof.
  unfold tokb, tok. cbv zeta. rewrite !andb_true_iff. intros [[[[[A B] C] D] E] F].
  split; [lia|]. split; [lia|]. split; [lia|].
  split; [apply on_timeb_ok; exact D|]. split; [apply on_timeb_ok; exact E|].
  destruct v; try apply src_okb_ok; auto.
Qed.

Lemma tvalidb_ok e P vs : forall n, tvalidb e P n vs = true -> tvalid e P n vs.
Proof.
  induction vs as [|v r IH]; intros n H; [exact I|]. cbn [tvalidb tvalid] in *.
  apply andb_prop in H as [H1 H2]. split; [apply tokb_ok; exact H1|apply IH; exact H2].
Qed.

Lemma idle_epb_ok k c : idle_epb k c = true -> idle_ep k c.
Proof.
  unfold idle_epb, idle_ep. rewrite !andb_true_iff. intros [[[[[[A B] C] D] E] F] G].
  split; [destruct (c_status c); try discriminate; reflexivity|].
  split; [destruct (c_key c) as [k'|]; [f_equal; lia|discriminate]|].
  split; [destruct (c_outgoing c); [reflexivity|discriminate]|].
  split; [destruct (c_pretry_msg c); [reflexivity|discriminate]|].
  split; [exact E|]. split; lia.
Qed.

Lemma in_syncb_ok x y : in_syncb x y = true -> in_sync x y.
Proof. unfold in_syncb, in_sync. lia. Qed.

Lemma heardb_ok x y t0 : heardb x y t0 = true -> heard x y t0.
Proof. unfold heardb, heard. lia. Qed.

Lemma establishedb_ok k t0 cli srv : establishedb k t0 cli srv = true -> established k t0 cli srv.
Proof.
  unfold establishedb, established. rewrite !andb_true_iff. intros [[[[[A B] C] D] E] F].
  split; [apply idle_epb_ok; exact A|]. split; [apply idle_epb_ok; exact B|].
  split; [apply in_syncb_ok; exact C|]. split; [apply in_syncb_ok; exact D|].
  split; apply heardb_ok; assumption.
Qed.

Lemma params_okb_ok P cli srv : params_okb P cli srv = true -> params_ok P cli srv.
Proof. unfold params_okb, params_ok. lia. Qed.
