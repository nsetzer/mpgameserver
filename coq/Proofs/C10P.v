(* The handler lifecycle read off the invariant of ServerP.v; the handler that never raises (strip), for
   raise-irrelevance (ServerRunP.v); and the two places of the loop that C10 speaks of directly: the sweep of one
   connected client, one message of a datagram. *)
From Model Require Import Base Wire Conn Server.
From Proofs Require Import ServerP.
Open Scope Z_scope.

Definition lifecycle_shape (cid : Z) (l : list hevent) : Prop :=
  l = [] \/ exists a t msgs tail, l = HConnect cid a t :: msgs ++ tail /\ Forall is_message msgs /\
                                  (tail = [] \/ tail = [HDisconnect cid]).

Lemma accepted_shape l cid : adv (fun _ => Some Fresh) l cid <> None -> lifecycle_shape cid (proj cid l).
Proof. apply lc_fresh. intros x. apply proj_cid. Qed.

Lemma life_accepted h e g bl ins cid :
  adv (fun _ => Some Fresh) (hlog (snd (srv_life h e g bl ins))) cid <> None.
Proof.
  destruct (srv_life h e g bl ins) as [s o] eqn:L. apply srv_life_inv in L. apply L.
Qed.

(* a log the automaton accepts, with nobody left in `connections`: whoever connected has been disconnected *)
Lemma accepted_complete s l cid : Inv s (adv (fun _ => Some Fresh) l) -> s_conns s = [] ->
  proj cid l = [] \/
  exists a t msgs, proj cid l = HConnect cid a t :: msgs ++ [HDisconnect cid] /\ Forall is_message msgs.
Proof.
  intros I E. assert (N : adv (fun _ => Some Fresh) l cid <> None) by apply I.
  destruct (accepted_shape l cid N) as [S|(a & t & msgs & tail & S & F & [->| ->])]; eauto 7.
  exfalso. destruct I as (_ & _ & _ & Lv & _). specialize (Lv cid). rewrite E in Lv. apply Lv.
  unfold adv. rewrite S, app_nil_r. simpl. apply lc_msgs, F.
Qed.

Definition strip (h : horacle) : horacle := fun n ev => {| r_acts := r_acts (h n ev); r_raises := false |}.

(* what the sweep reads: DISCONNECTING (the peer sent DISCONNECT), DISCONNECTED (a handler called
   client.disconnect()), or silent for connection_timeout *)
Definition due (g : cfg) (now : Z) (c : conn) : bool :=
  status_eqb (c_status c) DISCONNECTING || status_eqb (c_status c) DISCONNECTED
  || timedout c now (g_conn_timeout g).

Lemma sweep_conn_log h e s now cid cl s' o p :
  pfind cid (s_conns s) = Some cl ->
  sweep_conn h e s now cid = (s', o, p) ->
  hlog o = if due (s_cfg s) now (cl_conn cl) then [HDisconnect cid] else [].
Proof. intros P H. exact (proj2 (sweep_conn_both _ _ _ _ _ _ _ _ H) cl P). Qed.

Definition is_connect (x : sout) : bool := match x with SEv (HConnect _ _ _) => true | _ => false end.

Lemma srv_msg_connect h e s cid now m x s' o r :
  srv_msg h e s cid now m x = (s', o, r) -> existsb is_connect o = true ->
  w_type m = CHALLENGE_RESP /\ x_parse x = 0 /\
  exists cl other, sfind cid s = Some cl /\ pget (cl_addr cl) (s_temp s) = Some other /\
                   c_token (cl_conn other) = x_token x.
Proof.
  unfold srv_msg. destruct (sfind cid s) as [cl|] eqn:F. 2:{ intros [= <- <- <-]. discriminate. }
  set (draws := ptype_eqb (w_type m) CLIENT_HELLO && _ && _ && _).
  destruct (if draws then _ else _) as [[t rand']|] eqn:Tk. 2:{ intros [= <- <- <-]. discriminate. }
  destruct (recv_msgs _ _ _ _) as [c' outs] eqn:R. apply recv_one in R. destruct R as (_ & _ & _ & Con).
  destruct (has_connect outs).
  - destruct (Con eq_refl) as (Ty & Pz & Tt). cbn in Pz, Tt.
    assert (Dr : draws = false) by (unfold draws; rewrite Ty; reflexivity).
    rewrite Dr in *. cbn in Pz. injection Tk as <- <-.
    intros _ _. split; auto. split; auto.
    destruct (pget (cl_addr cl) (s_temp s)) as [other|] eqn:PG; [|discriminate].
    exists cl, other. repeat split; auto. congruence.
  - intros [= <- <- <-]. destruct (draws && negb (draws && negb (x_ecdh x =? 0))); discriminate.
Qed.
