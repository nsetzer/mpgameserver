(* Packet assembly and the sending half of the two update() bodies, read off ConnSpecP.build_impl_eq
   and PackP.build_impl_spec: the frame record that the writes of the tail respect (tail_asm), what the
   invariants of the sending side need of assembly (built_spec), what the sending
   half does when nothing is held (tick_tail_idle), and how a statement about the sending half (rate
   gate, assembly, emission, time-out sweep) is lifted from tick_tail to server_tick and client_tick. *)
From Coq Require Import Lia.
From RecordUpdate Require Import RecordUpdate.
From Model Require Import Base SeqNum Wire Conn Net.
From Proofs Require Import DictP ConnFrameP PackP.
Import RecordSetNotations.
Open Scope Z_scope.

Lemma dg_no_emit o : no_emit o -> flat_map dg_of o = [].
Proof.
  induction o as [|x r IH]; intros H; [reflexivity|]. cbn [flat_map].
  rewrite IH by (intros y Hy; apply H; right; exact Hy).
  specialize (H x (or_introl eq_refl)). destruct x; try reflexivity; discriminate.
Qed.

Lemma select_nil e c now delay : c_outgoing c = [] -> c_pretry_msg c = [] -> select e c now delay = ([], [], []).
Proof. intros Ho Hp. unfold select. rewrite Hp, Ho. reflexivity. Qed.

Record same_asm (c c' : conn) : Prop := {
  sa_server : c_server c' = c_server c; sa_key : c_key c' = c_key c; sa_status : c_status c' = c_status c;
  sa_incoming : c_incoming c' = c_incoming c; sa_bfp : c_bf_pkt c' = c_bf_pkt c; sa_bfm : c_bf_msg c' = c_bf_msg c;
  sa_si : c_send_interval c' = c_send_interval c; sa_ka : c_ka_interval c' = c_ka_interval c;
  sa_ot : c_out_timeout c' = c_out_timeout c; sa_tt : c_temp_timeout c' = c_temp_timeout c;
  sa_lr : c_last_recv c' = c_last_recv c; sa_hello : c_hello_sent c' = c_hello_sent c;
  sa_conncb : c_conn_cb c' = c_conn_cb c }.

(* assembly and the sweeps write none of these *)
Lemma tail_asm c c' : wr W_tail c c' -> same_asm c c'.
Proof. apply (wr_rel same_asm). intros. constructor; reflexivity. Qed.

Lemma build_impl_idle e c now (ka : bool) delay : c_status c = CONNECTED -> c_outgoing c = [] -> c_pretry_msg c = [] ->
  build_impl e c now ka delay =
  let c1 := c <| c_pretry_msg := [] |> <| c_outgoing := [] |> in
  if ka
  then (c1 <| c_seq_send := seq_succ (c_seq_send c) |> <| c_packs := dset (seq_succ (c_seq_send c)) now (c_packs c) |>
           <| c_pretry_msg := [] |>, Some (packet_header c now KEEP_ALIVE 0, []))
  else (c1, None).
Proof.
  intros Hs Ho Hp. rewrite build_impl_eq, (select_nil _ _ _ _ Ho Hp). unfold packet_type. rewrite Hs.
  destruct ka; reflexivity.
Qed.

(* build_impl e c now _ _ = (c', r) selected msgs.  Without a packet nothing is registered; if in
   addition no queued message is typed UNKNOWN, nothing was selected (an UNKNOWN-typed first selection
   would be dequeued and dropped). *)
Record built_spec (c c' : conn) (now : Z) (r : option (header * list pmsg)) (msgs : list pmsg) : Prop := {
  bs_from : forall m, In m msgs -> In m (c_outgoing c) \/ In m (map snd (c_pretry_msg c));
  bs_keep : forall m, In m (c_outgoing c) -> In m (c_outgoing c') \/ In m msgs;
  bs_rem : forall m, In m (c_outgoing c') -> In m (c_outgoing c);
  bs_done : c_done c' = c_done c;
  bs_inc : c_incoming c' = c_incoming c;
  bs_prm : forall x, In x (c_pretry_msg c') -> In x (c_pretry_msg c) \/ exists m, In m msgs /\ snd x = stamp now m;
  bs_res : match r with
           | None => c_pcbs c' = c_pcbs c /\ c_packs c' = c_packs c /\ (no_unknown c -> msgs = [])
           | Some (h, ms) =>
               ms = map (stamp now) msgs /\
               h_count h = len ms /\ (forall m, ms = [m] -> m_type m = h_type h) /\
               c_packs c' = dset (seq_succ (c_seq_send c)) now (c_packs c) /\
               c_pcbs c' = match opt_list (map m_cb msgs) with
                           | [] => c_pcbs c
                           | cbs => dset (seq_succ (c_seq_send c)) cbs (c_pcbs c)
                           end
           end }.

Lemma build_impl_built e c now ka delay c' r :
  build_impl e c now ka delay = (c', r) -> exists msgs, built_spec c c' now r msgs.
Proof.
  intros E. destruct (build_impl_spec _ _ _ _ _ _ _ E) as (t & f & rem & A & _ & C & _ & Hres). cbv zeta in Hres.
  exists (map snd t ++ f).
  assert (Hfrom : forall m, In m (map snd t ++ f) -> In m (c_outgoing c) \/ In m (map snd (c_pretry_msg c))).
  { intros m Hm. apply in_app_or in Hm as [Hm|Hm]; [right; exact (incl_map snd A m Hm)|left; exact (Interleave_in_l _ _ _ _ C Hm)]. }
  assert (Hkeep : forall m, In m (c_outgoing c) -> In m rem \/ In m (map snd t ++ f)).
  { intros m Hm. apply (Interleave_in _ _ _ _ C) in Hm as [Hm|Hm]; [right; apply in_or_app; right|left]; exact Hm. }
  pose proof (fun m => Interleave_in_r _ _ _ m C) as Hrem.
  pose proof (fold_ddel_In (map fst t) (c_pretry_msg c)) as Hprm.
  destruct (ptype_eqb _ UNKNOWN) eqn:Hty; destruct Hres as [-> ->].
  - constructor; cbn; auto. repeat split. intros Hnu.
    destruct (packet_type_selected _ _ _ _ _ Hnu A C Hty) as [-> ->]. reflexivity.
  - constructor;
      rewrite ?(wr_keeps W_register c_outgoing (fun _ _ => eq_refl) (register_wr _ _ _)),
        ?(wr_keeps W_register c_done (fun _ _ => eq_refl) (register_wr _ _ _)),
        ?(wr_keeps W_register c_incoming (fun _ _ => eq_refl) (register_wr _ _ _)); auto.
    + rewrite register_prm. intros x Hx.
      apply (fold_dset_In m_seq (fun m => m)) in Hx as [Hx|(m & H1 & ->)]; [left; apply Hprm, Hx|right].
      apply filter_In in H1 as [H1 _]. apply in_map_iff in H1 as (m' & <- & Hm'). exists m'. auto.
    + rewrite register_packs, register_pcbs. cbn [h_count h_type packet_header]. split; [reflexivity|].
      split; [unfold len; rewrite map_length; reflexivity|]. split; [|split; reflexivity].
      intros m Hm. destruct (map snd t ++ f) as [|m0 [|]]; try discriminate. injection Hm as <-. reflexivity.
Qed.

Lemma build_packet_spec e c now c' r : build_packet e c now = (c', r) ->
  (c' = c /\ r = None) \/
  exists c1 msgs, built_spec c c1 now r msgs /\
    c_outgoing c' = c_outgoing c1 /\ c_pretry_msg c' = c_pretry_msg c1 /\ c_pcbs c' = c_pcbs c1 /\
    c_packs c' = c_packs c1 /\ c_done c' = c_done c1 /\ c_incoming c' = c_incoming c1.
Proof.
  intros E. apply build_packet_cases in E as [(_ & H)|(c1 & _ & E1 & ->)]; [left; exact H|]. apply build_impl_built in E1 as (msgs & B).
  right. exists c1, msgs. destruct r; (split; [exact B|repeat split]).
Qed.

Lemma tick_tail_sweep_no_emit strict e c now c' o2 o3 : tick_tail strict e c now = (c', o2, o3) -> no_emit o3.
Proof. intros E. apply tick_tail_cases in E as (c1 & pk & _ & E2 & _). exact (proj2 (check_timeout_frame E2)). Qed.

Lemma emit_empty c h : ptype_eqb (h_type h) SERVER_HELLO = false -> emit c (h, []) = [OEmit (with_len h 0) (c_key c) []].
Proof.
  intros Ht. destruct (emit_cases c h []) as [(er & Ee & _)|(p & Ee & ->)]; cbn in Ee; [discriminate|].
  injection Ee as <-. rewrite Ht. reflexivity.
Qed.

(* _build_packet, emission and the time-out sweep with nothing queued and nothing to re-send, past the rate
   cap: when the last packet is older than the keep-alive interval a KEEP_ALIVE leaves under the next
   sequence number, its ack fields the receive window; otherwise nothing leaves *)
Lemma tick_tail_idle strict e c now c' o2 o3 :
  c_status c = CONNECTED -> c_outgoing c = [] -> c_pretry_msg c = [] -> c_send_interval c < now - c_last_send c ->
  tick_tail strict e c now = (c', o2, o3) ->
  same_asm c c' /\ no_emit o3 /\
  if now - c_last_ka c >? c_ka_interval c
  then o2 = [OEmit (with_len (packet_header c now KEEP_ALIVE 0) 0) (c_key c) []]
       /\ c_seq_send c' = seq_succ (c_seq_send c) /\ c_last_ka c' = now /\ c_last_send c' = now
  else o2 = [] /\ c_seq_send c' = c_seq_send c /\ c_last_ka c' = c_last_ka c /\ c_last_send c' = c_last_send c.
Proof.
  intros Hs Ho Hp Hg E. split; [exact (tail_asm _ _ (tick_tail_wr E))|]. split; [exact (tick_tail_sweep_no_emit _ _ _ _ _ _ _ E)|].
  apply tick_tail_cases in E as (c1 & pk & E1 & E2 & ->). pose proof (wr_resolve_sess (check_timeout_wr E2)) as S2.
  rewrite (sc_seq _ _ (ss_core _ _ S2)), (sc_last_ka _ _ (ss_core _ _ S2)), (sc_last_send _ _ (ss_core _ _ S2)).
  destruct (build_packet_open e c now c1 pk ltac:(lia) E1) as (c0 & E0 & ->). rewrite (build_impl_idle _ _ _ _ _ Hs Ho Hp) in E0.
  destruct (now - c_last_ka c >? c_ka_interval c); injection E0 as <- <-; [|cbn; auto].
  rewrite emit_empty by reflexivity. cbn. auto.
Qed.

Lemma client_tick_up e c now r : c_hello_sent c = 0 -> c_status c = CONNECTED ->
  (c_last_recv c >? 0) && (now >? c_last_recv c + 5 * TICKS) = false ->
  client_tick e c now r =
  let '(c1, o1) := rx_recv c now r in
  if raised o1 then (c1, o1)
  else if now - c_last_send c1 >? c_send_interval c1 then
         let '(c2, o2, o3) := tick_tail false e c1 now in (c2, o1 ++ o2 ++ o3)
       else (c1, o1).
Proof. intros Hh Hst Hs. rewrite client_tick_eq, (client_update_idle _ _ Hh Hs), Hst. reflexivity. Qed.

(* The sending half of update(): T c now c' dgs says what it does to an endpoint satisfying I, dgs being
   the datagrams handed to the socket. *)
Section SendHalf.
  Variables (e : env) (I : conn -> Prop) (T : conn -> Z -> conn -> list dgram -> Prop).
  Hypothesis Tclosed : forall c now, I c -> now - c_last_send c <= c_send_interval c -> T c now c [].
  Hypothesis Topen : forall strict c now c' o2 o3, I c -> c_send_interval c < now - c_last_send c ->
    tick_tail strict e c now = (c', o2, o3) -> T c now c' (flat_map dg_of o2).

  Lemma server_tick_half c now c' o : I c -> server_tick e c now = (c', o) -> T c now c' (flat_map dg_of o).
  Proof.
    intros Hc. rewrite server_tick_eq. destruct (_ >? _) eqn:Hg; [|intros E; injection E as <- <-; apply Tclosed; [exact Hc|lia]].
    destruct (tick_tail true e c now) as [[c2 o2] o3] eqn:E2. intros E; injection E as <- <-.
    rewrite flat_map_app, (dg_no_emit _ (tick_tail_sweep_no_emit _ _ _ _ _ _ _ E2)). eapply Topen; [exact Hc|lia|exact E2].
  Qed.

  Lemma client_tick_half c now r c1 o1 c' o : c_hello_sent c = 0 -> c_status c = CONNECTED ->
    (c_last_recv c >? 0) && (now >? c_last_recv c + 5 * TICKS) = false ->
    rx_recv c now r = (c1, o1) -> raised o1 = false -> no_emit o1 -> I c1 ->
    client_tick e c now r = (c', o) -> T c1 now c' (flat_map dg_of o).
  Proof.
    intros Hh Hst Hs E1 Ra Ne H1. rewrite (client_tick_up _ _ _ _ Hh Hst Hs), E1, Ra.
    destruct (now - c_last_send c1 >? _) eqn:Hg; [|intros E; injection E as <- <-; rewrite (dg_no_emit _ Ne); apply Tclosed; [exact H1|lia]].
    destruct (tick_tail false e c1 now) as [[c2 o2] o3] eqn:E2. intros E; injection E as <- <-.
    rewrite !flat_map_app, (dg_no_emit _ Ne), (dg_no_emit _ (tick_tail_sweep_no_emit _ _ _ _ _ _ _ E2)), app_nil_r.
    eapply Topen; [exact H1|lia|exact E2].
  Qed.
End SendHalf.
