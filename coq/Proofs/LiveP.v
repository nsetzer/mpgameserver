(* C05, liveness: what each event of Model/LiveNet.v does to a pair whose only traffic is ONE
   unfragmented guaranteed message.  Sender x: everything queued, waiting for a retry or registered
   as a RetrySender is that message (SQ); while it is not done, a packet assembly later than
   max(keep-alive interval, send interval) after the last packet emits a datagram that carries it.
   Receiver y: an idle endpoint (IdleP.ep_ok) that accepts such a datagram unless it accepted a copy
   before, and appends the message to incoming_messages once.  Proofs/LiveNetP.v runs the joint
   invariant LJ through the timed histories. *)
From Coq Require Import Lia ZifyBool.
From RecordUpdate Require Import RecordUpdate.
From Model Require Import Base SeqNum Wire Conn Net TimedNet LiveNet.
From Proofs Require Import DictP SeqNumP WireP ConnFrameP PackP AssemblyP C09P IdleP.
From Proofs Require CustodyP.
Import RecordSetNotations.
Open Scope Z_scope.

Section OneMessage.
  Variables (e : env) (k rid mseq : Z) (p : list byte) (ucb : icb).
  Hypothesis Hmseq : 1 <= mseq <= HALF.
  Hypothesis Hp : len p <= e_max_payload e.
  Hypothesis He : e_max_payload e < 2 ^ 16.

  Definition K : cb := Retry rid mseq APP p ucb.
  Definition mk (a : Z) : pmsg :=
    {| m_seq := mseq; m_type := APP; m_payload := p; m_cb := Some K; m_retry := RTimeout; m_atime := a |}.
  Definition wm : wmsg := {| w_seq := mseq; w_type := APP; w_payload := p |}.

  Definition done (c : conn) : bool := zmem rid (c_done c).
  Definition mine (kb : cb) : Prop := TimedNet.plain_cb kb = true \/ kb = K.

  Lemma rid_K : 0 <= rid -> CustodyP.rid_of K <> -1. Proof. cbn. lia. Qed.

  Lemma stamp_mk now a : stamp now (mk a) = mk now. Proof. reflexivity. Qed.
  Lemma wmsg_mk a : wmsg_of (mk a) = wm. Proof. reflexivity. Qed.
  Lemma fits_mk : fits e (len p) 0 0 = true. Proof. apply fits_alone. exact Hp. Qed.

  (* the sender holds nothing but the message: what is queued are copies mk a; at most one copy waits for a retry,
     stamped with the last packet's time; every registered callback is plain or K; a retry list names mseq only and,
     where it is not empty, K is registered for the same datagram — so resolving that datagram fires K, which sets
     the done flag or queues the message again, and sq_live (until done the message is queued or waits) survives *)
  Record SQ (c : conn) : Prop := {
    sq_out : Forall (fun m => exists a, m = mk a) (c_outgoing c);
    sq_prm : c_pretry_msg c = [] \/ c_pretry_msg c = [(mseq, mk (c_last_send c))];
    sq_pcbs : Forall (fun x => Forall mine (snd x)) (c_pcbs c);
    sq_pre : forall s l, dget s (c_pretry c) = Some l ->
               Forall (eq mseq) l /\ (l <> [] -> exists ks, dget s (c_pcbs c) = Some ks /\ In K ks);
    sq_live : done c = true \/ c_outgoing c <> [] \/ c_pretry_msg c <> [] }.

  (* firing the callbacks ks, each of them plain or K *)
  Record feff (ok : bool) (ks : list cb) (c c' : conn) : Prop := {
    fe_sess : same_sess c c';
    fe_prm : c_pretry_msg c' = c_pretry_msg c;
    fe_pcbs : c_pcbs c' = c_pcbs c;
    fe_pre : c_pretry c' = c_pretry c;
    fe_out : exists extra, c_outgoing c' = c_outgoing c ++ extra /\ Forall (fun m => m = mk 0) extra;
    fe_done : forall r, zmem r (c_done c) = true -> zmem r (c_done c') = true;
    fe_new : done c' = true -> done c = true \/ (ok = true /\ In K ks);
    fe_fired : In K ks -> done c' = true \/ c_outgoing c' <> [] }.

  (* the fields a callback can touch *)
  Definition cbstate (c : conn) := (c_pretry_msg c, c_pcbs c, c_pretry c, c_outgoing c, c_done c).

  Lemma feff_same ok ks c c' : same_sess c c' -> cbstate c' = cbstate c -> (In K ks -> done c = true) -> feff ok ks c c'.
  Proof.
    unfold cbstate. intros S E HK. injection E as A B C D F. constructor; auto; unfold done in *; rewrite ?F; auto.
    exists []. rewrite app_nil_r. auto.
  Qed.

  Lemma feff_trans ok k1 k2 a b c : feff ok k1 a b -> feff ok k2 b c -> feff ok (k1 ++ k2) a c.
  Proof.
    intros [A1 A2 A3 A4 (x1 & A5 & A5') A6 A7 A8] [B1 B2 B3 B4 (x2 & B5 & B5') B6 B7 B8].
    constructor; try congruence.
    - eapply same_sess_trans; eassumption.
    - exists (x1 ++ x2). rewrite B5, A5, app_assoc. split; [reflexivity|]. apply Forall_app. auto.
    - auto.
    - intros H. rewrite in_app_iff. destruct (B7 H) as [H'|[H' Hin]]; [destruct (A7 H') as [H''|[H'' Hin]]|]; auto.
    - intros H. apply in_app_or in H as [H|H]; [|exact (B8 H)].
      destruct (A8 H) as [H'|H']; [left; apply B6; exact H'|right]. rewrite B5. destruct (c_outgoing b); [contradiction|discriminate].
  Qed.

  Lemma fire_cb_feff ok c kb c' o : mine kb -> fire_cb c kb ok = (c', o) -> feff ok [kb] c c'.
  Proof.
    intros Hm E. pose proof (wr_resolve_sess (wr_sub W_cb W_resolve (fun _ _ => eq_refl) (fire_cb_wr E))) as S.
    destruct kb as [i|r ms ty pl i]; cbn [fire_cb] in E.
    { apply feff_same; [exact S|exact (wr_keeps W_icb cbstate (fun _ _ => eq_refl) (fire_icb_wr E))|].
      intros [H|[]]; discriminate. }
    destruct Hm as [Hm|Hm]; [discriminate|]. injection Hm as -> -> -> -> ->.
    destruct (zmem rid (c_done c)) eqn:Ed; [injection E as <- <-; apply feff_same; auto|].
    destruct ok; cbn [negb] in E.
    - (* acknowledged: the done flag is set, then the inner callback fires *)
      pose proof (wr_keeps W_icb cbstate (fun _ _ => eq_refl) (fire_icb_wr E)) as Ek. unfold cbstate in Ek. cbn in Ek.
      assert (F : c_done c' = rid :: c_done c) by congruence.
      constructor; try congruence.
      + exists []. rewrite app_nil_r. split; [congruence|constructor].
      + intros r Hr. rewrite F, zmem_cons, Hr. apply orb_true_r.
      + intros _. right. split; [reflexivity|left; reflexivity].
      + intros _. left. unfold done. rewrite F, zmem_cons, Z.eqb_refl. reflexivity.
    - (* timed out: the message goes back to the queue *)
      injection E as <- <-. constructor; cbn; auto.
      + exists [mk 0]. split; [reflexivity|]. repeat constructor.
      + intros _. right. destruct (c_outgoing c); discriminate.
  Qed.

  Lemma fire_all_feff ok ks : forall c c' o, Forall mine ks -> fire_all c ks ok = (c', o) -> feff ok ks c c'.
  Proof.
    induction ks as [|kb ks IH]; intros c c' o HF E; cbn [fire_all] in E.
    - injection E as <- <-. apply feff_same; auto with frame.
    - inversion HF as [|? ? Hk HF']; subst.
      destruct (fire_cb c kb ok) as [c1 o1] eqn:E1. destruct (fire_all c1 ks ok) as [c2 o2] eqn:E2. injection E as <- <-.
      exact (feff_trans ok [kb] ks _ _ _ (fire_cb_feff _ _ _ _ _ Hk E1) (IH _ _ _ HF' E2)).
  Qed.

  Lemma fire_all_newly_done ok ks : forall c0 c1 o1, Forall mine ks -> fire_all c0 ks ok = (c1, o1) ->
    done c0 = false -> done c1 = true -> In K ks.
  Proof.
    intros c0 c1 o1 Hks E1 Hd0 Hd1.
    destruct (fe_new _ _ _ _ (fire_all_feff ok ks _ _ _ Hks E1) Hd1) as [H|[_ H]]; [congruence|exact H].
  Qed.

  Record xeff (c c' : conn) : Prop := {
    xe_sess : same_sess c c';
    xe_pcbs : forall s ks, dget s (c_pcbs c') = Some ks -> dget s (c_pcbs c) = Some ks;
    xe_done : forall r, zmem r (c_done c) = true -> zmem r (c_done c') = true }.

  Lemma xeff_refl c : xeff c c. Proof. constructor; auto with frame. Qed.
  Lemma xeff_trans a b c : xeff a b -> xeff b c -> xeff a c.
  Proof. intros [A1 A2 A3] [B1 B2 B3]. constructor; auto. eapply same_sess_trans; eassumption. Qed.

  Lemma fold_ddel_shape (l : list Z) (d : list (Z * pmsg)) :
    Forall (eq mseq) l -> (d = [] \/ exists v, d = [(mseq, v)]) ->
    fold_left (fun d m => ddel m d) l d = (match l with [] => d | _ => [] end).
  Proof.
    intros HF Hd. destruct l as [|a l]; [reflexivity|]. inversion HF as [|? ? Ha HF']; subst a.
    cbn [fold_left]. assert (ddel mseq d = []) as ->.
    { destruct Hd as [->|(v & ->)]; [reflexivity|]. unfold ddel. cbn. rewrite Z.eqb_refl. reflexivity. }
    apply fold_ddel_nil.
  Qed.

  (* why c: the one reason for which the done flag may appear in a part that starts at c.  When parts are composed the
     reason of a later part has to hold at the start: it is carried back along xeff (xstep_trans, acked_back) *)
  Definition xstep (why : conn -> Prop) (c c' : conn) (_ : list out) : Prop :=
    SQ c -> SQ c' /\ xeff c c' /\ (done c' = true -> done c = true \/ why c).

  Lemma resolve_X ok (why : conn -> Prop) c s c' o : resolve ok c s = (c', o) ->
    (ok = true -> forall ks, dget s (c_pcbs c) = Some ks -> In K ks -> why c) -> xstep why c c' o.
  Proof.
    intros E Hwhy [Q1 Q2 Q3 Q4 Q5]. pose proof (wr_resolve_sess (resolve_wr E)) as S2. revert E. rewrite resolve_uniform.
    set (ks := match dget s (c_pcbs c) with Some ks => ks | None => [] end).
    assert (Hks : Forall mine ks).
    { subst ks. destruct (dget s (c_pcbs c)) eqn:Eg; [exact (Forall_dget _ _ _ _ Q3 Eg)|constructor]. }
    assert (HK : In K ks -> dget s (c_pcbs c) = Some ks) by (subst ks; destruct (dget s (c_pcbs c)); [reflexivity|intros []]).
    destruct (fire_all (count_outcome ok c) ks ok) as [c1 o1] eqn:E1. intros E; injection E as <- <-.
    assert (F : feff ok ks c c1).
    { apply (feff_trans ok [] ks c (count_outcome ok c)); [|eapply fire_all_feff; eassumption].
      apply feff_same; [exact (wr_resolve_sess (count_outcome_wr ok c))|destruct ok; reflexivity|intros []]. }
    destruct F as [S1 A1 B1 C1 (x1 & D1 & D1') G1 N1 Ff].
    set (c2 := c1 <| c_pcbs := ddel s (c_pcbs c1) |>) in *.
    pose proof (wr_keeps W_forget c_outgoing (fun _ _ => eq_refl) (forget_wr s c2)) as Ho.
    pose proof (wr_keeps W_forget c_done (fun _ _ => eq_refl) (forget_wr s c2)) as Hd.
    pose proof (wr_keeps W_forget c_pcbs (fun _ _ => eq_refl) (forget_wr s c2)) as Hpc.
    pose proof (forget_pretry s c2) as Hr. pose proof (forget_prm s c2) as Hm.
    cbn [c2 c_outgoing c_done c_pcbs c_pretry c_pretry_msg set] in Ho, Hd, Hpc, Hr, Hm. rewrite ?A1, ?B1, ?C1 in *.
    unfold done in *. split; [|split].
    - constructor; unfold done; rewrite ?Ho, ?Hd, ?Hpc, ?Hr.
      + rewrite D1. apply Forall_app. split; [exact Q1|]. eapply Forall_impl; [|exact D1']. intros m ->. exists 0. reflexivity.
      + rewrite (sc_last_send _ _ (ss_core _ _ S2)), Hm. destruct (dget s (c_pretry c)) as [l|] eqn:El; [|exact Q2].
        rewrite fold_ddel_shape; [|exact (proj1 (Q4 _ _ El))|destruct Q2 as [->| ->]; [left; reflexivity|right; eexists; reflexivity]].
        destruct l; [exact Q2|left; reflexivity].
      + apply Forall_ddel. exact Q3.
      + intros s' l'. rewrite !dget_ddel. destruct (s' =? s); [discriminate|]. apply Q4.
      + destruct (zmem rid (c_done c1)) eqn:Ed1; [left; reflexivity|].
        destruct (c_outgoing c1) as [|m0 q0] eqn:Eo1; [|right; left; discriminate]. right. right.
        assert (Hdc : zmem rid (c_done c) = false) by (destruct (zmem rid (c_done c)) eqn:Ed; [rewrite (G1 _ Ed) in Ed1; discriminate|reflexivity]).
        assert (Hoc : c_outgoing c = []) by (destruct (c_outgoing c); [reflexivity|discriminate]).
        destruct Q5 as [Q5|[Q5|Q5]]; [congruence|contradiction|].
        rewrite Hm. destruct (dget s (c_pretry c)) as [[|a l]|] eqn:El; try exact Q5.
        (* K is registered for s: firing it has set the done flag or requeued the message *)
        destruct (proj2 (Q4 _ _ El) ltac:(discriminate)) as (ks' & H1 & H2). exfalso.
        assert (ks = ks') by (subst ks; rewrite H1; reflexivity). subst ks'. destruct (Ff H2) as [H|H]; [discriminate|contradiction].
    - constructor; [exact S2| |].
      + intros s' ks'. rewrite Hpc, dget_ddel. destruct (s' =? s); [discriminate|auto].
      + intros r Hr'. rewrite Hd. apply G1, Hr'.
    - rewrite Hd. intros H. destruct (N1 H) as [H'|[H' Hin]]; [left; exact H'|right]. exact (Hwhy H' ks (HK Hin) Hin).
  Qed.

  Lemma xstep_refl (why : conn -> Prop) c : xstep why c c [].
  Proof. intros HQ. split; [exact HQ|]. split; [apply xeff_refl|auto]. Qed.

  Lemma xstep_trans (why : conn -> Prop) : (forall c c', xeff c c' -> why c' -> why c) ->
    forall a b c o1 o2, xstep why a b o1 -> xstep why b c o2 -> xstep why a c (o1 ++ o2).
  Proof.
    intros Hw a b c o1 o2 H1 H2 Qa. destruct (H1 Qa) as (Qb & X1 & D1). destruct (H2 Qb) as (Qc & X2 & D2).
    split; [exact Qc|]. split; [eapply xeff_trans; eassumption|]. intros H. destruct (D2 H) as [H'|H']; [exact (D1 H')|right; eapply Hw; eassumption].
  Qed.

  Definition acked (h : header) (c : conn) : Prop :=
    exists s ks, dget s (c_pcbs c) = Some ks /\ In K ks /\ hdr_acks (h_ack h) (h_ackbits h) s = true.

  Lemma acked_back h c c' : xeff c c' -> acked h c' -> acked h c.
  Proof. intros X (s & ks & G1 & G2 & G3). exists s, ks. split; [apply (xe_pcbs _ _ X); exact G1|auto]. Qed.

  Lemma ack_loop_X h snap c c' o : ack_loop c h snap = (c', o) -> xstep (acked h) c c' o.
  Proof.
    rewrite ack_loop_sweep. apply (sweep_walk (xstep (acked h)) (xstep_refl _) (xstep_trans _ (acked_back h))).
    intros c0 s t ok c1 o1 _ Ev E. apply (resolve_X _ _ _ _ _ _ E). intros -> ks H1 H2. exists s, ks. unfold ack_verdict in Ev.
    destruct (hdr_acks _ _ s); [auto|destruct (_ >? _); discriminate].
  Qed.

  Lemma timeout_loop_X strict now snap c c' o : timeout_loop strict c now snap = (c', o) -> xstep (fun _ => False) c c' o.
  Proof.
    rewrite timeout_loop_sweep. apply (sweep_walk (xstep (fun _ => False)) (xstep_refl _) (xstep_trans (fun _ => False) (fun _ _ _ H => H))).
    intros c0 s t ok c1 o1 _ Ev E. apply (resolve_X _ _ _ _ _ _ E). intros ->. unfold timeout_verdict in Ev. destruct (overdue _ _ _ _); discriminate.
  Qed.

  Definition shaped (ms : list pmsg) : Prop := Forall (fun m => exists a, m = mk a) ms.

  Lemma shaped_stamp now ms : shaped ms -> map (stamp now) ms = map (fun _ => mk now) ms.
  Proof. induction 1 as [|m ms (a & ->) _ IH]; [reflexivity|]. cbn [map]. rewrite IH. reflexivity. Qed.

  Lemma shaped_cbs ms : shaped ms -> opt_list (map m_cb ms) = map (fun _ => K) ms.
  Proof. induction 1 as [|m ms (a & ->) _ IH]; [reflexivity|]. cbn [map opt_list m_cb mk]. rewrite IH. reflexivity. Qed.

  Lemma retr_const now (ms : list pmsg) :
    filter (fun m => negb (retry_is_none (m_retry m))) (map (fun _ => mk now) ms) = map (fun _ => mk now) ms.
  Proof. induction ms as [|m ms IH]; [reflexivity|]. cbn. f_equal. exact IH. Qed.

  Lemma fold_dset_mk now (ms : list pmsg) : forall d, (d = [] \/ exists v, d = [(mseq, v)]) ->
    fold_left (fun d m => dset (m_seq m) m d) (map (fun _ => mk now) ms) d
    = match ms with [] => d | _ => [(mseq, mk now)] end.
  Proof.
    induction ms as [|m ms IH]; intros d Hd; [reflexivity|]. cbn [map fold_left].
    assert (Hs : dset (m_seq (mk now)) (mk now) d = [(mseq, mk now)]).
    { destruct Hd as [->|(v & ->)]; cbn; [reflexivity|]. rewrite Z.eqb_refl. reflexivity. }
    rewrite Hs, IH by (right; eexists; reflexivity). destruct ms; reflexivity.
  Qed.

  Lemma out_pass_head q m : forall rem msgs cu,
    out_pass e (mk m :: q) [] 0 = (rem, msgs, cu) -> msgs <> [].
  Proof.
    intros rem msgs cu E. cbn [out_pass] in E.
    assert (Hf : fits e (len (m_payload (mk m))) (len (@nil pmsg)) 0 = true) by exact fits_mk. rewrite Hf in E.
    destruct (out_pass_prefix _ _ _ _ _ _ _ E) as (ch & ->). cbn. discriminate.
  Qed.

  Lemma retried_shaped now ms : shaped ms -> retried now ms = map (fun _ => mk now) ms.
  Proof. intros H. unfold retried. rewrite (shaped_stamp now ms H). apply retr_const. Qed.

  Lemma register_shaped c now msgs : shaped msgs -> msgs <> [] -> (c_pretry_msg c = [] \/ exists v, c_pretry_msg c = [(mseq, v)]) ->
    c_pcbs (register c now msgs) = dset (seq_succ (c_seq_send c)) (map (fun _ => K) msgs) (c_pcbs c) /\
    c_pretry (register c now msgs) = dset (seq_succ (c_seq_send c)) (map (fun _ => mseq) msgs) (c_pretry c) /\
    c_pretry_msg (register c now msgs) = [(mseq, mk now)].
  Proof.
    intros Hs Hne Hd.
    rewrite register_pcbs, register_pretry, register_prm, (retried_shaped now msgs Hs), (shaped_cbs msgs Hs), (fold_dset_mk now msgs _ Hd).
    destruct msgs as [|m r]; [contradiction|]. cbn [map]. rewrite map_map. repeat split.
  Qed.

  (* what select takes from such a sender: copies of the message only; nothing selected means nothing was queued;
     the copy that waits for a retry stays where it is while it is younger than the keep-alive interval, else it
     is among the selected *)
  Lemma select_SQ c now : SQ c ->
    exists prm rem msgs, select e c now (c_ka_interval c) = (prm, rem, msgs) /\ shaped rem /\ shaped msgs /\
      (msgs = [] -> c_outgoing c = [] /\ rem = []) /\
      ((prm = c_pretry_msg c /\ (c_pretry_msg c <> [] -> now - c_last_send c < c_ka_interval c)) \/ (prm = [] /\ msgs <> [])).
  Proof.
    intros [Q1 Q2 _ _ _]. unfold select.
    destruct (match c_pretry_msg c with [] => _ | _ => _ end) as [[prm msgs0] cur0] eqn:E0.
    assert (H0 : (prm = c_pretry_msg c /\ msgs0 = [] /\ cur0 = 0 /\
                  (c_pretry_msg c <> [] -> now - c_last_send c < c_ka_interval c))
                 \/ (prm = [] /\ msgs0 = [mk (c_last_send c)])).
    { destruct Q2 as [Hp0|Hp0]; rewrite Hp0 in E0.
      - injection E0 as <- <- <-. left. rewrite Hp0. repeat split; auto. intros H; contradiction.
      - cbn [sort_items fold_right ins_item retry_pass m_atime mk] in E0.
        destruct (now - c_last_send c <? c_ka_interval c) eqn:Hdue.
        + injection E0 as <- <- <-. left. rewrite Hp0. repeat split; auto. intros _. lia.
        + change (fits e (len (m_payload (mk (c_last_send c)))) (len (@nil pmsg)) 0) with (fits e (len p) 0 0) in E0.
          rewrite fits_mk in E0. injection E0 as <- <- <-.
          right. split; [|reflexivity]. unfold ddel. cbn. rewrite Z.eqb_refl. reflexivity. }
    clear E0.
    assert (Hm0 : shaped msgs0) by (destruct H0 as [(_ & -> & _)|(_ & ->)]; repeat constructor; eexists; reflexivity).
    destruct (out_pass e (c_outgoing c) msgs0 cur0) as [[rem msgs] cu] eqn:E2.
    destruct (out_pass_Forall _ _ _ _ _ _ _ _ Q1 Hm0 E2) as [Hrem Hmsgs].
    destruct (out_pass_prefix _ _ _ _ _ _ _ E2) as (ch & Hch).
    exists prm, rem, msgs. split; [reflexivity|]. split; [exact Hrem|]. split; [exact Hmsgs|]. split.
    - intros ->. destruct msgs0; [|destruct ch; discriminate].
      destruct (c_outgoing c) as [|m q] eqn:Eo; [cbn in E2; injection E2 as <- _; auto|]. exfalso.
      destruct H0 as [(_ & _ & -> & _)|(_ & H)]; [|discriminate].
      inversion Q1 as [|? ? (a & Hm) _]. rewrite Hm in E2. eapply out_pass_head; [exact E2|reflexivity].
    - destruct H0 as [(-> & _ & _ & H)|(-> & ->)]; [left; auto|right]. split; [reflexivity|]. rewrite Hch. discriminate.
  Qed.

  (* one assembly past the rate gate.  No packet: only while the last one is at most kmax old.  A packet: the next
     sequence number, copies of mk now (none, a KEEP_ALIVE, only once the message is done), and K registered for
     its number exactly when it carries the message *)
  Lemma build_packet_X c now c' r :
    SQ c -> c_status c = CONNECTED -> c_last_send c = c_last_ka c ->
    c_send_interval c < now - c_last_send c ->
    build_packet e c now = (c', r) ->
    SQ c' /\ c_last_send c' = c_last_ka c' /\
    match r with
    | None => now - c_last_send c <= kmax c /\ c_seq_send c' = c_seq_send c /\ c_last_send c' = c_last_send c
              /\ c_pcbs c' = c_pcbs c
    | Some (h, ms) =>
        c_seq_send c' = seq_succ (c_seq_send c) /\ c_last_send c' = now /\ h_seq h = seq_succ (c_seq_send c)
        /\ h_count h = len ms /\ Forall (eq (mk now)) ms
        /\ h_type h = (match ms with [] => KEEP_ALIVE | _ => APP end)
        /\ (done c = false -> ms <> [])
        /\ c_pcbs c' = (match ms with [] => c_pcbs c
                        | _ => dset (seq_succ (c_seq_send c)) (map (fun _ => K) ms) (c_pcbs c) end)
    end.
  Proof.
    intros HQ Hst Hls Hg E. pose proof HQ as [Q1 Q2 Q3 Q4 Q5].
    destruct (build_packet_open e c now c' r ltac:(lia) E) as (c0 & E0 & ->). rewrite build_impl_eq in E0. revert E0.
    destruct (select_SQ c now HQ) as (prm & rem & msgs & -> & Hrem & Hmsgs & Hnil & Hprm).
    set (c1 := c <| c_pretry_msg := prm |> <| c_outgoing := rem |>). unfold packet_type.
    destruct msgs as [|m0 msgs'] eqn:Emsgs.
    - (* nothing selected: a keep-alive or nothing *)
      destruct (Hnil eq_refl) as [Ho ->]. destruct Hprm as [(-> & Hdue)|(_ & H)]; [|contradiction].
      rewrite Hst. change (status_eqb CONNECTED CONNECTED) with true. rewrite andb_true_r.
      destruct (now - c_last_ka c >? c_ka_interval c) eqn:Hka; intros E0; injection E0 as <- <-.
      + (* keep-alive: only when the message is done *)
        assert (Hp0 : c_pretry_msg c = []).
        { destruct (c_pretry_msg c) eqn:Ep; [reflexivity|]. exfalso. specialize (Hdue ltac:(discriminate)). lia. }
        assert (Hdn : done c = true) by (destruct Q5 as [Q5|[Q5|Q5]]; [exact Q5|contradiction|contradiction]).
        unfold register, retried, c1. cbn. split; [|split; [reflexivity|]].
        * constructor; cbn; [constructor|left; exact Hp0|exact Q3|exact Q4|left; exact Hdn].
        * repeat split; auto. intros Hd. congruence.
      + split; [|split; [exact Hls|]].
        * subst c1. constructor; cbn; [constructor|exact Q2|exact Q3|exact Q4|].
          destruct Q5 as [Q5|[Q5|Q5]]; [left; exact Q5|contradiction|right; right; exact Q5].
        * cbn. repeat split; auto. unfold kmax.
          destruct (c_pretry_msg c) eqn:Ep; [lia|]. specialize (Hdue ltac:(discriminate)). lia.
    - (* the message goes out *)
      rewrite <- Emsgs in *. assert (Hne : msgs <> []) by (rewrite Emsgs; discriminate).
      assert (Hty : m_type m0 = APP) by (rewrite Emsgs in Hmsgs; inversion Hmsgs as [|? ? (a & ->) _]; reflexivity).
      rewrite Hty. intros E0; injection E0 as <- <-.
      assert (Hprm' : prm = [] \/ exists v, prm = [(mseq, v)]).
      { destruct Hprm as [(-> & _)|(-> & _)]; [|left; reflexivity].
        destruct Q2 as [->| ->]; [left; reflexivity|right; eexists; reflexivity]. }
      destruct (register_shaped c1 now msgs Hmsgs Hne Hprm') as (Rc & Rp & Rm). pose proof (wr_keeps W_register c_outgoing (fun _ _ => eq_refl) (register_wr c1 now msgs)) as Ro.
      cbn [c1 c_pcbs c_pretry c_pretry_msg c_outgoing c_seq_send set] in Rc, Rp, Rm, Ro.
      split; [|split; [reflexivity|]].
      + constructor; cbn.
        * rewrite Ro. exact Hrem.
        * right. exact Rm.
        * rewrite Rc. apply Forall_dset; [exact Q3|]. exact (Forall_const mine K msgs (or_intror eq_refl)).
        * intros s' l. rewrite Rp, Rc, !dget_dset. destruct (s' =? seq_succ (c_seq_send c)); [|apply Q4].
          intros H. injection H as <-. split; [exact (Forall_const (eq mseq) mseq msgs eq_refl)|].
          intros _. eexists. split; [reflexivity|]. rewrite Emsgs. left. reflexivity.
        * right. right. rewrite Rm. discriminate.
      + cbn. rewrite (register_seq c1 now msgs), Rc, (shaped_stamp now msgs Hmsgs), map_map. unfold len. rewrite map_length, Emsgs.
        repeat split; auto.
        * exact (Forall_const _ _ _ eq_refl).
        * intros _. discriminate.
  Qed.

  Lemma build_packet_rx c now c' r : build_packet e c now = (c', r) ->
    c_incoming c' = c_incoming c /\ c_bf_msg c' = c_bf_msg c.
  Proof. intros E. apply build_packet_wr in E. split; revert E; apply wr_keeps; reflexivity. Qed.

  Lemma wm_ok : wmsg_ok wm.
  Proof. unfold wmsg_ok, wm, HALF in *. cbn. split; lia. Qed.

  Lemma emit_X cx h ms now : c_key cx = Some k -> Forall (eq (mk now)) ms -> h_count h = len ms ->
    h_type h = (match ms with [] => KEEP_ALIVE | _ => APP end) ->
    exists dg, flat_map dg_of (emit cx (h, ms)) = [dg] /\ h_seq (d_hdr dg) = h_seq h /\
               open_dgram (Some k) dg = Ok (map (fun _ => wm) ms).
  Proof.
    intros Hk Hms Hc Ht.
    assert (Hw : map wmsg_of ms = map (fun _ => wm) ms).
    { apply map_ext_in. intros m Hm. rewrite Forall_forall in Hms. rewrite <- (Hms m Hm). reflexivity. }
    assert (Hok : Forall wmsg_ok (map (fun _ => wm) ms)) by exact (Forall_const wmsg_ok wm ms wm_ok).
    destruct (encode_msgs_total _ Hok) as (pl & Ep & _).
    destruct (emit_cases cx h ms) as [(er & Ee & _)|(pl' & Ee & ->)]; rewrite Hw, Ep in Ee; [discriminate|]. injection Ee as <-.
    replace (ptype_eqb (h_type h) SERVER_HELLO) with false by (rewrite Ht; destruct ms; reflexivity).
    rewrite Hk. cbn [flat_map dg_of app]. eexists. split; [reflexivity|]. split; [reflexivity|].
    unfold open_dgram. cbn [d_hdr d_body h_len h_type h_count with_len]. rewrite Z.eqb_refl, header_eqb_refl.
    assert (Hl : (len pl <=? len pl) && (len pl <=? len pl + 16) = true) by lia.
    cbn [andb]. rewrite Hl. cbn [bind].
    rewrite Hc. replace (len ms) with (len (map (fun _ : pmsg => wm) ms)) by (unfold len; rewrite map_length; reflexivity).
    apply msgs_roundtrip; [exact Ep|]. intros m Hm. rewrite Ht.
    destruct ms as [|m1 [|m2 r]]; try discriminate. cbn in Hm. injection Hm as <-. reflexivity.
  Qed.

  (* a datagram of the sender: it opens under k to copies of the message (none: a keep-alive) *)
  Definition xdg (dg : dgram) : Prop := exists ws, open_dgram (Some k) dg = Ok ws /\ Forall (eq wm) ws.
  Definition carries (dg : dgram) : Prop := exists ws, open_dgram (Some k) dg = Ok ws /\ Forall (eq wm) ws /\ ws <> [].

  (* what one update() of the sender does, as far as the joint invariant is concerned *)
  Record xtail_eff (c : conn) (now : Z) (c' : conn) (dgs : list dgram) : Prop := {
    xt_sq : SQ c';
    xt_frame : same_asm c c';
    xt_ls : c_last_send c' = c_last_ka c';
    xt_done : done c' = done c;
    xt_emit :
      (dgs = [] /\ now - c_last_send c <= kmax c /\ c_seq_send c' = c_seq_send c /\ c_last_send c' = c_last_send c
       /\ forall s ks, dget s (c_pcbs c') = Some ks -> dget s (c_pcbs c) = Some ks)
      \/ (exists dg, dgs = [dg] /\ c_seq_send c' = seq_succ (c_seq_send c) /\ c_last_send c' = now
          /\ h_seq (d_hdr dg) = seq_succ (c_seq_send c) /\ xdg dg /\ (done c = false -> carries dg)
          /\ forall s ks, dget s (c_pcbs c') = Some ks -> In K ks ->
               dget s (c_pcbs c) = Some ks \/ (s = seq_succ (c_seq_send c) /\ carries dg)) }.

  Lemma tick_tail_X strict c now c1 pk c2 o2 :
    SQ c -> c_status c = CONNECTED -> c_key c = Some k -> c_last_send c = c_last_ka c ->
    c_send_interval c < now - c_last_send c ->
    build_packet e c now = (c1, pk) -> check_timeout strict c1 now = (c2, o2) ->
    xtail_eff c now c2 (match pk with Some pkt => flat_map dg_of (emit c1 pkt) | None => [] end) /\ no_emit o2.
  Proof.
    intros HQ Hst Hk Hls Hg E1 E2.
    destruct (build_packet_X _ _ _ _ HQ Hst Hls Hg E1) as (Q1 & L1 & R1). pose proof (build_packet_wr E1) as W1.
    assert (Hd1 : done c1 = done c) by (unfold done; rewrite (wr_keeps W_build c_done (fun _ _ => eq_refl) W1); reflexivity).
    unfold check_timeout in E2.
    destruct (timeout_loop_X _ _ _ _ _ _ E2 Q1) as (Q2 & [S2 P2 G2] & D2).
    pose proof (cb_only_no_emit _ (timeout_loop_cb_only E2)) as N2.
    split; [|exact N2].
    assert (Hd : done c2 = done c).
    { rewrite <- Hd1. destruct (done c1) eqn:Ed.
      - unfold done in *. apply G2. exact Ed.
      - destruct (done c2) eqn:Ed2; [|reflexivity]. destruct (D2 eq_refl) as [H|[]]. congruence. }
    assert (Hk1 : c_key c1 = Some k) by (rewrite (wr_keeps W_build c_key (fun _ _ => eq_refl) W1); exact Hk).
    pose proof S2 as [[_ T2 T3 T4 _ _ _ _] _ _ _ _ _ _ _ _ _].
    constructor.
    - exact Q2.
    - exact (tail_asm _ _ (wr_seq W_build W_resolve W_tail _ _ _ (fun _ _ => eq_refl) (fun _ _ => eq_refl) W1 (check_timeout_wr E2))).
    - congruence.
    - exact Hd.
    - destruct pk as [[h ms]|].
      + destruct R1 as (A1 & A2 & A3 & A4 & A5 & A6 & A7 & A8). right.
        destruct (emit_X c1 h ms now Hk1 A5 A4 A6) as (dg & Ed & Hs & Ho).
        exists dg. split; [exact Ed|]. split; [congruence|]. split; [congruence|]. split; [congruence|].
        assert (Hx : Forall (eq wm) (map (fun _ : pmsg => wm) ms)) by exact (Forall_const _ _ _ eq_refl).
        split; [eexists; split; [exact Ho|exact Hx]|].
        assert (Hcar : ms <> [] -> carries dg).
        { intros Hne. eexists. split; [exact Ho|]. split; [exact Hx|]. destruct ms; [contradiction|discriminate]. }
        split; [intros Hdn; apply Hcar; apply A7; exact Hdn|].
        intros s ks Hg2 HK. apply P2 in Hg2. rewrite A8 in Hg2. destruct ms as [|m0 ms']; [left; exact Hg2|].
        rewrite dget_dset in Hg2. destruct (s =? seq_succ (c_seq_send c)) eqn:Es; [|left; exact Hg2].
        right. split; [lia|]. apply Hcar. discriminate.
      + destruct R1 as (A1 & A2 & A3 & A4). left. split; [reflexivity|]. split; [exact A1|]. split; [congruence|].
        split; [congruence|]. intros s ks Hg2. apply P2 in Hg2. rewrite A4 in Hg2. exact Hg2.
  Qed.

  Lemma SQ_same c c' : c_outgoing c' = c_outgoing c -> c_pretry_msg c' = c_pretry_msg c -> c_pcbs c' = c_pcbs c ->
    c_pretry c' = c_pretry c -> c_done c' = c_done c -> c_last_send c' = c_last_send c -> SQ c -> SQ c'.
  Proof.
    intros A B C D F G [Q1 Q2 Q3 Q4 Q5]. constructor; unfold done in *; rewrite ?A, ?B, ?C, ?D, ?F, ?G; assumption.
  Qed.

  (* what reading its socket does to the sender; why: the reason for the done flag to appear *)
  Record xrecv_eff (why : Prop) (c c' : conn) : Prop := {
    xr_sq : SQ c';
    xr_core : same_core c c';
    xr_key : c_key c' = c_key c;
    xr_status : c_status c' = c_status c;
    xr_hello : c_hello_sent c' = c_hello_sent c;
    xr_pcbs : forall s ks, dget s (c_pcbs c') = Some ks -> dget s (c_pcbs c) = Some ks;
    xr_mono : done c = true -> done c' = true;
    xr_new : done c' = true -> done c = true \/ why }.

  Lemma xrecv_eff_same why c c' : SQ c -> same_sess c c' -> c_outgoing c' = c_outgoing c -> c_pretry_msg c' = c_pretry_msg c ->
    c_pcbs c' = c_pcbs c -> c_pretry c' = c_pretry c -> c_done c' = c_done c -> xrecv_eff why c c'.
  Proof.
    intros HQ S A B C D F. pose proof S as [[S1 S2 S3 S4 S5 S6 S7 S8] T1 T2 T3 T4 T5 T6 T7 T8 T9].
    constructor; auto.
    - eapply SQ_same; eassumption.
    - constructor; assumption.
    - intros s ks. rewrite C. auto.
    - unfold done. rewrite F. auto.
    - unfold done. rewrite F. auto.
  Qed.

  Lemma xrecv_eff_weaken (A B : Prop) c c' : (A -> B) -> xrecv_eff A c c' -> xrecv_eff B c c'.
  Proof. intros H [X1 X2 X3 X4 X5 X6 X7 X8]. constructor; auto. intros Hd. destruct (X8 Hd); auto. Qed.

  Lemma recv_X c now dg orcs c' o :
    SQ c -> c_key c = Some k -> (ka_dgram k dg \/ forall ms, open_dgram (Some k) dg <> Ok ms) ->
    recv c now dg orcs = (c', o) ->
    xrecv_eff (ka_dgram k dg /\ acked (d_hdr dg) c) c c' /\ raised o = false /\ no_emit o.
  Proof.
    intros HQ Hk Hd E. pose proof (wr_recv_core (recv_wr E)) as Sc. pose proof (recv_no_emit E) as Ne.
    apply recv_cases in E as [(-> & -> & _)|(ms & bf & c1 & o1 & o2 & _ & Eo & _ & E1 & E2 & ->)].
    { split; [apply xrecv_eff_same; auto; sess_triv|]. split; [reflexivity|exact Ne]. }
    rewrite Hk in Eo. destruct Hd as [Hd|Hd]; [|destruct (Hd _ Eo)].
    rewrite (open_ka _ _ Hd) in Eo. injection Eo as <-. cbn [recv_msgs] in E2. injection E2 as <- <-.
    unfold handle_ack_bits in E1. pose proof (ack_loop_X _ _ _ _ _ E1) as X1.
    destruct X1 as (Q1 & [S1 P1 G1] & D1); [eapply SQ_same; [| | | | | |exact HQ]; reflexivity|].
    pose proof (ack_loop_cb_only E1) as C1.
    split; [|split; [|exact Ne]].
    - destruct S1 as [_ T1 T2 T3 T4 T5 T6 T7 T8 T9]. constructor; auto.
      + intros Hdn. unfold done in *. apply G1. exact Hdn.
      + intros Hdn. destruct (D1 Hdn) as [H|H]; [left; exact H|right; exact (conj Hd H)].
    - rewrite raised_app, (cb_only_not_raised _ C1). reflexivity.
  Qed.

  Definition mfresh (y : conn) : Prop := bf_cur (c_bf_msg y) = 0 \/ 1 <= bf_cur (c_bf_msg y) < mseq.
  Definition mseen (y : conn) : Prop := bf_cur (c_bf_msg y) = mseq.

  Lemma bf_insert_fresh f : (bf_cur f = 0 \/ 1 <= bf_cur f < mseq) ->
    exists f', bf_insert f mseq = Ok f' /\ bf_cur f' = mseq.
  Proof.
    intros H. unfold bf_insert. destruct (bf_cur f =? 0) eqn:E0; [eexists; split; reflexivity|].
    destruct H as [H|H]; [lia|].
    assert (Hd : seq_diff (bf_cur f) mseq = bf_cur f - mseq).
    { unfold seq_diff. cbv zeta. unfold HALF in *. destruct (bf_cur f - mseq >? 32767) eqn:E1; [lia|].
      destruct (bf_cur f - mseq <? - (32767)) eqn:E2; [lia|]. reflexivity. }
    rewrite Hd. replace (bf_cur f - mseq <? 0) with true by lia. eexists; split; reflexivity.
  Qed.

  Lemma bf_insert_seen f : bf_cur f = mseq -> bf_insert f mseq = Err EDup.
  Proof.
    intros H. unfold bf_insert. rewrite H. replace (mseq =? 0) with false by lia.
    assert (Hd : seq_diff mseq mseq = 0) by (unfold seq_diff, HALF; cbv zeta; rewrite Z.sub_diag; reflexivity).
    rewrite Hd. reflexivity.
  Qed.

  Lemma recv_msgs_seen ws : forall y now orcs, Forall (eq wm) ws -> mseen y -> recv_msgs y now ws orcs = (y, []).
  Proof.
    induction ws as [|w ws IH]; intros y now orcs HF Hs; [reflexivity|].
    inversion HF as [|? ? <- HF']; subst. cbn [recv_msgs w_seq wm]. rewrite (bf_insert_seen _ Hs).
    cbn [w_type is_hs]. apply IH; assumption.
  Qed.

  Lemma recv_msgs_fresh ws y now orcs : Forall (eq wm) ws -> ws <> [] -> mfresh y ->
    exists f', bf_insert (c_bf_msg y) mseq = Ok f' /\ bf_cur f' = mseq /\
               recv_msgs y now ws orcs = (recv_app (y <| c_bf_msg := f' |>) mseq p, []).
  Proof.
    intros HF Hne Hf. destruct ws as [|w ws]; [contradiction|]. inversion HF as [|? ? <- HF']; subst.
    destruct (bf_insert_fresh _ Hf) as (f' & Ei & Ec). exists f'. split; [exact Ei|]. split; [exact Ec|].
    cbn [recv_msgs w_seq w_type w_payload wm]. rewrite Ei. cbn [raised existsb].
    rewrite recv_msgs_seen; [reflexivity|exact HF'|exact Ec].
  Qed.

  Lemma recv_junk c now dg orcs : c_key c = Some k -> (forall ms, open_dgram (Some k) dg <> Ok ms) ->
    recv c now dg orcs = (c <| c_dropped := c_dropped c + 1 |>, [ORet false]).
  Proof.
    intros Hk Hj. destruct (recv c now dg orcs) as [c' o] eqn:E.
    apply recv_cases in E as [(-> & -> & _)|(ms & _ & _ & _ & _ & _ & Eo & _)]; [reflexivity|].
    rewrite Hk in Eo. destruct (Hj _ Eo).
  Qed.

  Variables (Ky siy : Z).

  Definition xup (c : conn) : Prop := SQ c /\ c_status c = CONNECTED /\ c_key c = Some k /\ c_last_send c = c_last_ka c.

  Lemma xtail_closed c now : xup c -> now - c_last_send c <= c_send_interval c -> xtail_eff c now c [].
  Proof.
    intros (HQ & _ & _ & Hls) Hg. constructor; auto; [exact (tail_asm _ _ (wr_refl _ _))|]. left. unfold kmax. repeat split; auto. lia.
  Qed.

  Lemma xtail_open strict c now c' o2 o3 : xup c -> c_send_interval c < now - c_last_send c ->
    tick_tail strict e c now = (c', o2, o3) -> xtail_eff c now c' (flat_map dg_of o2).
  Proof.
    intros (HQ & Hst & Hk & Hls) Hg E. apply tick_tail_cases in E as (c1 & pk & E1 & E2 & ->).
    destruct pk; exact (proj1 (tick_tail_X strict c now c1 _ c' o3 HQ Hst Hk Hls Hg E1 E2)).
  Qed.

  (* ServerClientConnection.update of the sender *)
  Lemma server_tick_X c now c' o : xup c -> server_tick e c now = (c', o) -> xtail_eff c now c' (flat_map dg_of o).
  Proof. apply (server_tick_half e xup xtail_eff xtail_closed xtail_open). Qed.

  (* UdpClient.update of the sender: the socket yields nothing, a keep-alive of the peer, or junk *)
  Lemma client_tick_X c now r c' o :
    xup c -> c_hello_sent c = 0 -> (c_last_recv c >? 0) && (now >? c_last_recv c + 5 * TICKS) = false ->
    rx_good k r -> client_tick e c now r = (c', o) ->
    exists c1, xrecv_eff (exists dg orcs, r = RxDgram dg orcs /\ ka_dgram k dg /\ acked (d_hdr dg) c) c c1
      /\ xtail_eff c1 now c' (flat_map dg_of o).
  Proof.
    intros (HQ & Hst & Hk & Hls) Hh Hnd Hr E. destruct (rx_recv c now r) as [c1 o1] eqn:E1. exists c1.
    pose proof (rx_recv_no_emit E1) as Ne.
    assert (A : xrecv_eff (exists dg orcs, r = RxDgram dg orcs /\ ka_dgram k dg /\ acked (d_hdr dg) c) c c1 /\ raised o1 = false).
    { destruct r as [|er|dg orcs]; cbn [rx_recv] in E1; [|destruct Hr|].
      - injection E1 as <- <-. split; [apply xrecv_eff_same; auto with frame|reflexivity].
      - destruct (recv c now dg orcs) as [c1' o'] eqn:Er. injection E1 as <- <-.
        destruct (recv_X _ _ _ _ _ _ HQ Hk Hr Er) as (X1 & X2 & _). rewrite raised_filter_ret.
        split; [apply (xrecv_eff_weaken _ _ _ _ (fun H => ex_intro _ dg (ex_intro _ orcs (conj eq_refl H))) X1)|exact X2]. }
    destruct A as (X & Ra). split; [exact X|].
    apply (client_tick_half e xup xtail_eff xtail_closed xtail_open _ _ _ _ _ _ _ Hh Hst Hnd E1 Ra Ne); [|exact E].
    destruct X as [Q1 Sc K1 St1 _ _ _ _]. split; [exact Q1|]. split; [congruence|]. split; [congruence|].
    rewrite (sc_last_send _ _ Sc), (sc_last_ka _ _ Sc). exact Hls.
  Qed.

  (* UdpClient.update of the (idle) receiver: y1 is its state after the socket has been read *)
  Lemma client_tick_Y y now r y1 o1 y' o :
    ep_ok k Ky siy y -> (c_last_recv y >? 0) && (now >? c_last_recv y + 5 * TICKS) = false ->
    rx_recv y now r = (y1, o1) -> raised o1 = false -> no_emit o1 -> ep_ok k Ky siy y1 ->
    client_tick e y now r = (y', o) -> ep_half k Ky siy y1 now y' (flat_map dg_of o).
  Proof.
    intros H. apply (client_tick_half e (ep_ok k Ky siy) (ep_half k Ky siy) (ep_half_closed k Ky siy) (tick_tail_ep e k Ky siy));
      [exact (eo_hello _ _ _ _ H)|exact (eo_status _ _ _ _ H)].
  Qed.

  (* th: the network is healed from th on; t0: the time of send; M: the sender's keep-alive period
     max(keep-alive interval, send interval); tau: the sender's update() period; N0: the sender's
     datagram number at t0; Ky, siy: the receiver's keep-alive and send intervals; inc0: the
     receiver's incoming_messages at t0 *)
  Variables (th t0 M tau N0 : Z) (inc0 : list (Z * list byte)).
  Hypothesis HM : 0 <= M.
  Let T0 := Z.max th t0.

  Definition Dlv (y : conn) : Prop := c_incoming y = inc0 ++ [(mseq, p)].
  Definition acks_sound (acc : list Z) (h : header) : Prop :=
    forall i, 1 <= i <= HALF -> hdr_acks (h_ack h) (h_ackbits h) i = true -> In i acc.

  Lemma Dlv_not_inc0 y : Dlv y -> c_incoming y = inc0 -> False.
  Proof.
    unfold Dlv. intros A B. rewrite B in A. apply (f_equal (@length _)) in A. rewrite app_length in A. cbn in A. lia.
  Qed.

  Lemma mseen_not_fresh y : mseen y -> mfresh y -> False.
  Proof. unfold mseen, mfresh. lia. Qed.

  (* the receiver's message window and incoming_messages go together: delivered and seen, or neither *)
  Definition mw (y : conn) : Prop := (Dlv y /\ mseen y) \/ (c_incoming y = inc0 /\ mfresh y).

  Lemma mw_same y y' : c_incoming y' = c_incoming y -> c_bf_msg y' = c_bf_msg y -> mw y -> mw y'.
  Proof. unfold mw, Dlv, mseen, mfresh. intros -> ->. auto. Qed.

  (* the receiver is offered a datagram of the sender: a copy that gets past the datagram window
     delivers the message unless it was delivered before *)
  Lemma recv_Y y now dg orcs ws y' o :
    ep_ok k Ky siy y -> open_dgram (Some k) dg = Ok ws -> Forall (eq wm) ws -> mw y ->
    recv y now dg orcs = (y', o) ->
    raised o = false /\ no_emit o /\ ep_ok k Ky siy y' /\ mw y' /\ (Dlv y -> Dlv y') /\
    match bf_insert (c_bf_pkt y) (h_seq (d_hdr dg)) with
    | Err _ => c_bf_pkt y' = c_bf_pkt y
    | Ok bf => c_bf_pkt y' = bf /\ (ws <> [] -> Dlv y')
    end.
  Proof.
    intros H Ho HF Hm E. pose proof (recv_no_emit E) as Ne.
    assert (Hkeep : forall y1, c_incoming y1 = c_incoming y -> c_bf_msg y1 = c_bf_msg y -> mw y1 /\ (Dlv y -> Dlv y1)).
    { intros y1 Ei Em. split; [exact (mw_same _ _ Ei Em Hm)|unfold Dlv; congruence]. }
    apply (recv_ep_cases _ _ _ _ _ _ _ _ _ H) in E
      as [(H' & S & -> & Hwhy)|(ms & bf & c1 & o1 & o2 & Eo & Eb & H1 & S1 & Ra & E2 & ->)].
    - destruct Hwhy as [(er & Hw)|(er & ->)]; [congruence|].
      destruct (Hkeep _ (ss_incoming _ _ S) (ss_bfm _ _ S)) as [M' D'].
      split; [reflexivity|]. split; [exact Ne|]. split; [exact H'|]. split; [exact M'|]. split; [exact D'|exact (ss_bfp _ _ S)].
    - assert (ms = ws) by congruence. subst ms. rewrite Eb, !raised_app, Ra.
      pose proof (ss_bfm _ _ S1) as Hm1. pose proof (ss_incoming _ _ S1) as Hi1. pose proof (ss_bfp _ _ S1) as Hb1. cbn in Hm1, Hi1, Hb1.
      (* nothing is delivered now (no copy in the datagram, or the number was seen), or the first copy is *)
      assert (Hq : (recv_msgs c1 now ws orcs = (c1, []) /\ (ws <> [] -> Dlv y)) \/ (mfresh c1 /\ ws <> [] /\ c_incoming y = inc0)).
      { destruct Hm as [[HD Hs]|[HU Hf]].
        - left. split; [apply recv_msgs_seen; [exact HF|unfold mseen; rewrite Hm1; exact Hs]|intros _; exact HD].
        - destruct ws as [|w ws']; [left; split; [reflexivity|intros Hne; destruct (Hne eq_refl)]|right].
          split; [unfold mfresh; rewrite Hm1; exact Hf|]. split; [discriminate|exact HU]. }
      destruct Hq as [[Er Hd]|(Hf1 & Hne & HU)].
      + rewrite Er in E2. injection E2 as <- <-. destruct (Hkeep c1 Hi1 Hm1) as [M' D'].
        split; [reflexivity|]. split; [exact Ne|]. split; [exact H1|]. split; [exact M'|]. split; [exact D'|].
        split; [exact Hb1|]. intros Hne. exact (D' (Hd Hne)).
      + destruct (recv_msgs_fresh ws c1 now orcs HF Hne Hf1) as (f' & _ & Ec & Er). rewrite Er in E2. injection E2 as <- <-.
        assert (HD' : Dlv (recv_app (c1 <| c_bf_msg := f' |>) mseq p)) by (unfold Dlv; cbn; rewrite Hi1, HU; reflexivity).
        split; [reflexivity|]. split; [exact Ne|].
        split; [destruct H1 as [A B Q D F G I]; constructor; cbn; auto; eapply quiet_held; [|exact Q]; reflexivity|].
        split; [left; split; [exact HD'|exact Ec]|]. split; [intros _; exact HD'|]. split; [exact Hb1|intros _; exact HD'].
  Qed.

  Record XS (x : conn) : Prop := {
    xs_up : xup x;
    xs_hello : c_hello_sent x = 0;
    xs_M : kmax x = M }.

  (* x: sender, y: receiver (an idle endpoint), wxy / wyx: the two directions of the wire, tickx: time
     of the sender's latest update().  The forward wire is numbered and read against the receiver's
     window (IdleP.wire_inv: a set acc of accepted numbers), first half lap; an accepted datagram that
     carries the message has delivered it; the receiver's keep-alives acknowledge accepted numbers
     only; K is registered only for logged datagrams that carry the message.  j_t1 and j_ph are the
     deadline: the sender's latest update() is at most M after its last packet (or after t0); and the
     message is delivered, or a datagram that carries it was emitted between th and T0 + M + tau and
     has not been shown yet, or the sender's last packet dates from before T0 and the message is not
     done — so that the next update() later than T0 + M emits it. *)
  Record LJ (x y : conn) (wxy wyx : wdir) (tickx : Z) : Prop := {
    j_x : XS x;
    j_y : ep_ok k Ky siy y;
    j_mw : mw y;
    j_wire : exists m acc, wire_inv xdg N0 (c_seq_send x) (c_bf_pkt y) (wd_n wxy) (wd_log wxy) m acc /\ wd_n wxy <= HALF
               /\ (forall i t dg, In i acc -> In (i, t, dg) (wd_log wxy) -> carries dg -> Dlv y)
               /\ (forall j t dg, In (j, t, dg) (wd_log wyx) -> ka_dgram k dg /\ acks_sound acc (d_hdr dg));
    j_reg : forall s ks, dget s (c_pcbs x) = Some ks -> In K ks -> exists t dg, In (s, t, dg) (wd_log wxy) /\ carries dg;
    j_dd : done x = true -> Dlv y;
    j_t1 : tickx <= Z.max (c_last_send x) t0 + M;
    j_ph : Dlv y
           \/ (exists i t dg, In (i, t, dg) (wd_log wxy) /\ In (i, t) (wd_pend wxy) /\ carries dg /\ th <= t <= T0 + M + tau)
           \/ (done x = false /\ c_last_send x <= T0) }.

  Lemma XS_xrecv x why x' : XS x -> xrecv_eff why x x' -> XS x'.
  Proof.
    intros [(_ & St & Kx & Ls) Hh Hm] [Q [] Ek Es Eh _ _ _].
    split; [split; [exact Q|]|congruence|unfold kmax in *; congruence].
    split; [congruence|]. split; congruence.
  Qed.

  Lemma XS_xtail x now x' dgs : XS x -> xtail_eff x now x' dgs -> XS x'.
  Proof.
    intros [(_ & St & Kx & _) Hh Hm] [Q [] Ls _ _].
    split; [split; [exact Q|]|congruence|unfold kmax in *; congruence].
    split; [congruence|]. split; [congruence|exact Ls].
  Qed.

  (* the sender reads its socket; a new done flag: an acknowledged datagram was logged, carried the
     message, and was accepted *)
  Lemma LJ_xrecv x y wxy wyx tickx why x' s :
    LJ x y wxy wyx tickx -> xrecv_eff why x x' ->
    (why -> exists dg j t, In (j, t, dg) (wd_log wyx) /\ acked (d_hdr dg) x) ->
    LJ x' y wxy (wd_present wyx s) tickx.
  Proof.
    intros [X Y Mw (m & acc & WI & Hn & W3 & W4) Rg Dd T1 Ph] E Hsrc.
    assert (Hlog : wd_log (wd_present wyx s) = wd_log wyx) by (destruct s; reflexivity).
    pose proof (sc_last_send _ _ (xr_core _ _ _ E)) as Sl.
    assert (Hdd : done x' = true -> Dlv y).
    { intros Hd. destruct (xr_new _ _ _ E Hd) as [H|Hw]; [exact (Dd H)|].
      destruct (Hsrc Hw) as (dg & j & t & Hin & s0 & ks & G1 & G2 & G3).
      destruct (Rg _ _ G1 G2) as (t1 & dg1 & L1 & C1). destruct (wi_log _ _ _ _ _ _ _ _ WI _ _ _ L1) as (R1 & _).
      pose proof (wi_n0 _ _ _ _ _ _ _ _ WI). apply (W3 s0 t1 dg1); [|exact L1|exact C1]. apply (proj2 (W4 _ _ _ Hin)); [lia|exact G3]. }
    constructor; rewrite ?Hlog, ?Sl; try assumption.
    - exact (XS_xrecv _ _ _ X E).
    - exists m, acc. rewrite (sc_seq _ _ (xr_core _ _ _ E)). auto.
    - intros s0 ks H1. exact (Rg s0 ks (xr_pcbs _ _ _ E _ _ H1)).
    - destruct Ph as [H|[H|[H1 H2]]]; [left; exact H|right; left; exact H|].
      destruct (done x') eqn:Ed; [left; apply Hdd; reflexivity|right; right; split; [reflexivity|exact H2]].
  Qed.

  Lemma wd_emit_one w now dg : wd_emit w now [dg] = wd_emit1 now w dg. Proof. reflexivity. Qed.

  Lemma LJ_xtail x y wxy wyx tickx now x' dgs :
    LJ x y wxy wyx tickx -> xtail_eff x now x' dgs -> now - tickx <= tau -> wd_n wxy < HALF ->
    LJ x' y (wd_emit wxy now dgs) wyx now.
  Proof.
    intros [X Y Mw (m & acc & WI & Hn & W3 & W4) Rg Dd T1 Ph] B Htau Hshort.
    pose proof (XS_xtail _ _ _ _ X B) as X'. pose proof (xs_M _ X) as Hm.
    destruct B as [_ _ _ B4 [(-> & E1 & E2 & E3 & E4)|(dg & -> & E1 & E2 & E3 & E4 & E5 & E6)]]; cbn [wd_emit fold_left].
    - constructor; try assumption.
      + exists m, acc. rewrite E2. auto.
      + intros s ks H1. exact (Rg s ks (E4 _ _ H1)).
      + rewrite B4. exact Dd.
      + rewrite E3. lia.
      + rewrite B4, E3. exact Ph.
    - (* one datagram emitted: number wd_n wxy + 1, beyond everything the receiver has accepted *)
      unfold wd_emit1. constructor; cbn [wd_n wd_log wd_pend]; try assumption.
      + exists m, acc. rewrite E1. split; [apply wire_emit1; assumption|]. split; [lia|]. split; [|exact W4].
        intros i t dg0 Hi H Hc. apply in_app_or in H as [H|[H|[]]]; [eapply W3; eassumption|]. injection H as <- _ _.
        pose proof (Rx_le _ _ _ _ (wi_win _ _ _ _ _ _ _ _ WI) Hi). pose proof (wi_m _ _ _ _ _ _ _ _ WI). lia.
      + assert (Hs : seq_succ (c_seq_send x) = wd_n wxy + 1).
        { rewrite (wi_seq _ _ _ _ _ _ _ _ WI). destruct (wd_n wxy =? 0) eqn:E0; [assert (wd_n wxy = 0) as -> by lia; reflexivity|].
          rewrite seq_succ_wire. apply wire_small. unfold RING, HALF in *. pose proof (wi_n0 _ _ _ _ _ _ _ _ WI). lia. }
        intros s ks H1 H2. destruct (E6 _ _ H1 H2) as [H|(-> & Hc)].
        * destruct (Rg _ _ H H2) as (t & dg0 & Lg & Cg). exists t, dg0. split; [apply in_or_app; left; exact Lg|exact Cg].
        * exists now, dg. split; [|exact Hc]. rewrite Hs. apply in_or_app. right. left. reflexivity.
      + rewrite B4. exact Dd.
      + rewrite E2. lia.
      + rewrite B4, E2. destruct Ph as [H|[(i & t & dg0 & P1 & P2 & P3 & P4)|[H1 H2]]]; [left; exact H| |].
        * right. left. exists i, t, dg0. split; [apply in_or_app; left; exact P1|]. split; [apply in_or_app; left; exact P2|auto].
        * destruct (Z_le_gt_dec th now) as [Hth|Hth].
          -- right. left. exists (wd_n wxy + 1), now, dg.
             split; [apply in_or_app; right; left; reflexivity|]. split; [apply in_or_app; right; left; reflexivity|].
             split; [apply E5; exact H1|]. subst T0. lia.
          -- right. right. split; [exact H1|]. subst T0. lia.
  Qed.

  Lemma LJ_yrecv x y wxy wyx tickx i t dg now orcs y' o :
    LJ x y wxy wyx tickx -> In (i, t, dg) (wd_log wxy) -> recv y now dg orcs = (y', o) ->
    LJ x y' (wd_present wxy (SPeer i)) wyx tickx /\ raised o = false /\ no_emit o.
  Proof.
    intros [X Y Mw (m & acc & WI & Hn & W3 & W4) Rg Dd T1 Ph] Hin E.
    destruct (wi_log _ _ _ _ _ _ _ _ WI _ _ _ Hin) as (Hi & Hsq & ws & Ho & Hws).
    destruct (recv_Y _ _ _ _ _ _ _ Y Ho Hws Mw E) as (Hr & Ne & Hy' & Mw' & Hinc & Hcase).
    pose proof (Rx_m _ _ _ (wi_win _ _ _ _ _ _ _ _ WI)) as H0m. pose proof (wi_m _ _ _ _ _ _ _ _ WI) as Hmn. pose proof (wi_n0 _ _ _ _ _ _ _ _ WI) as Hn0.
    pose proof (wire_recv _ _ _ _ _ _ _ _ _ _ _ WI Hin ltac:(lia)) as Hins.
    (* accepted now, or a copy was accepted before: either way a carrying datagram has delivered *)
    assert (J : (carries dg -> Dlv y') /\ exists m' acc',
                wire_inv xdg N0 (c_seq_send x) (c_bf_pkt y') (wd_n wxy) (wd_log wxy) m' acc'
                /\ (forall i' t' dg', In i' acc' -> In (i', t', dg') (wd_log wxy) -> carries dg' -> Dlv y')
                /\ (forall j t' dg', In (j, t', dg') (wd_log wyx) -> ka_dgram k dg' /\ acks_sound acc' (d_hdr dg'))).
    { destruct (bf_insert (c_bf_pkt y) (h_seq (d_hdr dg))) as [bf|er].
      - destruct Hcase as (C0 & C2).
        assert (Hcar : carries dg -> Dlv y') by (intros (ws' & Ho' & _ & Hne); assert (ws' = ws) by congruence; subst ws'; exact (C2 Hne)).
        split; [exact Hcar|]. exists (Z.max m i), (i :: acc). rewrite C0. split; [exact Hins|]. split.
        + intros i' t' dg' [<-|Hi'] Hin' Hc; [destruct (wi_fun _ _ _ _ _ _ _ _ WI _ _ _ _ _ Hin Hin') as [_ <-]; exact (Hcar Hc)|].
          apply Hinc. eapply W3; eassumption.
        + intros j t' dg' Hj. destruct (W4 _ _ _ Hj) as [P1 P2]. split; [exact P1|]. intros i' Hi' Ha. right. apply P2; assumption.
      - split; [intros Hc; apply Hinc; eapply W3; [exact Hins|exact Hin|exact Hc]|]. exists m, acc. rewrite Hcase.
        split; [exact WI|]. split; [|exact W4]. intros i' t' dg' Hi' Hin' Hc. apply Hinc. eapply W3; eassumption. }
    destruct J as (Hcar & m' & acc' & WI' & W3' & W4'). split; [|exact (conj Hr Ne)].
    constructor; cbn [wd_present wd_n wd_log wd_pend]; try assumption.
    - exists m', acc'. auto.
    - intros H. exact (Hinc (Dd H)).
    - destruct Ph as [H|[(i0 & t0' & dg0 & P1 & P2 & P3 & P4)|H]]; [left; exact (Hinc H)| |right; right; exact H].
      destruct (Z.eq_dec i0 i) as [->|Hne].
      + left. destruct (wi_fun _ _ _ _ _ _ _ _ WI _ _ _ _ _ Hin P1) as [_ <-]. exact (Hcar P3).
      + right. left. exists i0, t0', dg0. split; [exact P1|]. split; [|auto].
        apply filter_In. split; [exact P2|]. cbn. lia.
  Qed.

  Lemma LJ_ykeep x y wxy wyx tickx y' : LJ x y wxy wyx tickx -> ep_ok k Ky siy y' ->
    c_bf_pkt y' = c_bf_pkt y -> c_incoming y' = c_incoming y -> c_bf_msg y' = c_bf_msg y -> LJ x y' wxy wyx tickx.
  Proof.
    intros [X Y Mw W Rg Dd T1 Ph] Hy' Hb Hi Hm. unfold Dlv in *. rewrite <- Hi, <- Hb in *.
    constructor; try assumption. exact (mw_same _ _ Hi Hm Mw).
  Qed.

  Lemma LJ_ysame x y wxy wyx tickx y' s :
    LJ x y wxy wyx tickx -> same_sess y y' -> quiet y' ->
    (match s with SPeer _ => False | _ => True end) ->
    LJ x y' (wd_present wxy s) wyx tickx.
  Proof.
    intros I S Q Hs.
    assert (Hw : wd_present wxy s = wxy) by (destruct s; [reflexivity|destruct Hs|reflexivity]). rewrite Hw.
    apply (LJ_ykeep _ _ _ _ _ _ I); [|exact (ss_bfp _ _ S)|exact (ss_incoming _ _ S)|exact (ss_bfm _ _ S)].
    exact (ep_ok_sess _ _ _ _ _ S Q (j_y _ _ _ _ _ I)).
  Qed.

  (* the sending half of the receiver's update(): keep-alives whose ack fields are its window, which
     names accepted numbers only (Rx_names) *)
  Lemma LJ_ytick x y wxy wyx tickx now y' dgs :
    LJ x y wxy wyx tickx -> ep_half k Ky siy y now y' dgs -> LJ x y' wxy (wd_emit wyx now dgs) tickx.
  Proof.
    intros I (Hy' & A & Em & Ha).
    destruct (LJ_ykeep _ _ _ _ _ _ I Hy' (sa_bfp _ _ A) (sa_incoming _ _ A) (sa_bfm _ _ A)) as [X Y Mw (m & acc & WI & Hn & W3 & W4) Rg Dd T1 Ph].
    constructor; try assumption. exists m, acc. split; [exact WI|]. split; [exact Hn|]. split; [exact W3|].
    rewrite (sa_bfp _ _ A) in WI. pose proof (wi_m _ _ _ _ _ _ _ _ WI) as Hmn.
    destruct Em as [(_ & -> & _)|(_ & _ & _ & dg & -> & Kd & _)]; [exact W4|]. inversion Ha as [|? ? [P2 P3] _]; subst.
    cbn [wd_emit fold_left wd_emit1 wd_log]. intros j t dg' Hin. apply in_app_or in Hin as [Hin|[Hin|[]]]; [eapply W4; exact Hin|].
    injection Hin as _ _ <-. split; [exact Kd|]. intros i Hi Hk.
    exact (Rx_names _ _ _ _ _ _ (wi_win _ _ _ _ _ _ _ _ WI) (wi_nb _ _ _ _ _ _ _ _ WI) P2 P3 ltac:(lia) Hi Hk).
  Qed.

  (* until it is delivered the sender holds the message: not done, and queued or scheduled for a retry *)
  Lemma LJ_custody x y wxy wyx tickx : LJ x y wxy wyx tickx -> c_incoming y = inc0 ->
    done x = false /\
    ((exists m, In m (c_outgoing x) /\ m_seq m = mseq /\ m_payload m = p /\ m_retry m = RTimeout /\ m_cb m = Some K)
     \/ (exists m, In (mseq, m) (c_pretry_msg x) /\ m_payload m = p /\ m_cb m = Some K)).
  Proof.
    intros [[([Q1 Q2 _ _ Q5] & _) _ _] _ _ _ _ Dd _ _] Hu.
    assert (Hd : done x = false).
    { destruct (done x) eqn:Ed; [|reflexivity]. exfalso. eapply Dlv_not_inc0; [apply Dd; reflexivity|exact Hu]. }
    split; [exact Hd|].
    destruct Q5 as [Q5|[Q5|Q5]]; [congruence| |].
    - left. destruct (c_outgoing x) as [|m q] eqn:Eo; [contradiction|]. inversion Q1 as [|? ? (a & ->) _]; subst.
      exists (mk a). split; [left; reflexivity|]. cbn. auto.
    - right. destruct Q2 as [Q2|Q2]; [contradiction|]. rewrite Q2. eexists. split; [left; reflexivity|]. cbn. auto.
  Qed.

  Lemma LJ_late x y wxy wyx tickx d now : LJ x y wxy wyx tickx -> 0 <= d -> on_time_from th wxy d now -> now - tickx <= tau ->
    Z.max th t0 + M + tau + d < now -> Dlv y.
  Proof.
    intros I Hd Hot Htau Hlate. pose proof (j_t1 _ _ _ _ _ I) as H1.
    destruct (j_ph _ _ _ _ _ I) as [H|[(i & t & dg & P1 & P2 & P3 & P4)|[H2 H3]]]; [exact H| |]; exfalso.
    - unfold on_time_from in Hot. rewrite Forall_forall in Hot. specialize (Hot _ P2). cbn [snd] in Hot. unfold T0 in *. lia.
    - unfold T0 in *. lia.
  Qed.

  Lemma LJ_once x y wxy wyx tickx : LJ x y wxy wyx tickx -> c_incoming y = inc0 \/ Dlv y.
  Proof. intros I. destruct (j_mw _ _ _ _ _ I) as [[H _]|[H _]]; auto. Qed.
End OneMessage.
