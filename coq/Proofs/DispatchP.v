(* Lemmas about Model/Dispatch.v, up to the refinement of the finite-map specification (a_run) over
   arbitrary operation sequences. *)
From Model Require Import Base Dispatch.
From Proofs Require Import ListP.
Open Scope Z_scope.

(* Dispatch.name_eqb is [list_eqb Byte.eqb] *)
Lemma name_eqb_spec a b : reflect (a = b) (name_eqb a b).
Proof. exact (list_eqb_spec _ Byte_eqb_spec a b). Qed.

Lemma name_eqb_eq : forall a b, name_eqb a b = true <-> a = b.
Proof. exact (list_eqb_eq _ Byte_eqb_spec). Qed.

Lemma name_eqb_refl : forall a, name_eqb a a = true.
Proof. exact (list_eqb_refl _ Byte_eqb_spec). Qed.

Lemma name_eqb_neq : forall a b, name_eqb a b = false <-> a <> b.
Proof. intros a b. destruct (name_eqb_spec a b); split; congruence. Qed.

Lemma name_eqb_sym : forall a b, name_eqb a b = name_eqb b a.
Proof. intros a b. destruct (name_eqb_spec a b), (name_eqb_spec b a); congruence. Qed.

Definition name_mem (n : name) (l : list name) : bool := existsb (name_eqb n) l.

Lemma name_mem_In l n : name_mem n l = true <-> In n l.
Proof.
  induction l as [|x l IH]; cbn; [split; [discriminate | tauto]|].
  rewrite orb_true_iff, IH, name_eqb_eq. intuition congruence.
Qed.

Definition keys (t : table) : list name := map fst t.
Definition wf (t : table) : Prop := NoDup (keys t).

Lemma keys_app a b : keys (a ++ b) = keys a ++ keys b.
Proof. apply map_app. Qed.

Lemma In_keys (t : table) n h : In (n, h) t -> In n (keys t).
Proof. apply (in_map fst). Qed.

Lemma has_In t n : has t n = true <-> In n (keys t).
Proof.
  induction t as [|[m h] t IH]; cbn; [split; [discriminate | tauto]|].
  rewrite orb_true_iff, IH, name_eqb_eq. tauto.
Qed.

Lemma has_false t n : has t n = false <-> ~ In n (keys t).
Proof. rewrite <- has_In. destruct (has t n); intuition congruence. Qed.

Lemma lookup_has t n : has t n = match lookup t n with Some _ => true | None => false end.
Proof.
  unfold lookup. induction t as [|[m g] t IH]; cbn; [reflexivity|].
  destruct (name_eqb m n); [reflexivity | exact IH].
Qed.

Lemma lookup_None t n : lookup t n = None <-> ~ In n (keys t).
Proof. rewrite <- has_false, lookup_has. destruct (lookup t n); split; congruence. Qed.

Lemma lookup_In t n h : lookup t n = Some h -> In (n, h) t.
Proof.
  unfold lookup. induction t as [|[m g] t IH]; cbn; [discriminate|].
  destruct (name_eqb_spec m n) as [->|_]; [intros [= ->]; left; reflexivity | right; auto].
Qed.

Lemma In_lookup t n h : wf t -> In (n, h) t -> lookup t n = Some h.
Proof.
  unfold lookup. induction t as [|[m g] t IH]; cbn; intros W H; [contradiction|].
  apply NoDup_cons_iff in W as [Hm W]. destruct H as [[= -> ->] | H].
  - rewrite name_eqb_refl. reflexivity.
  - destruct (name_eqb_spec m n) as [->|_]; [destruct (Hm (In_keys _ _ _ H)) | auto].
Qed.

Lemma lookup_app a b n :
  lookup (a ++ b) n = match lookup a n with Some h => Some h | None => lookup b n end.
Proof.
  unfold lookup. induction a as [|[m g] a IH]; cbn; [destruct (find _ b); reflexivity|].
  destruct (name_eqb m n); [reflexivity | exact IH].
Qed.

Lemma wf_snoc t n h : wf t -> has t n = false -> wf (t ++ [(n, h)]).
Proof.
  unfold wf. intros W H. rewrite keys_app. apply NoDup_snoc; [exact W | apply has_false, H].
Qed.

(* [remove t n] and the result of unregister are both [t] without the keys that satisfy a test *)
Definition drop (p : name -> bool) (t : table) : table := filter (fun e => negb (p (fst e))) t.

Lemma keys_drop p t : keys (drop p t) = filter (fun m => negb (p m)) (keys t).
Proof.
  unfold drop, keys. induction t as [|[m g] t IH]; cbn; [reflexivity|].
  destruct (p m); cbn; rewrite IH; reflexivity.
Qed.

Lemma wf_drop p t : wf t -> wf (drop p t).
Proof. unfold wf. rewrite keys_drop. apply NoDup_filter. Qed.

Lemma lookup_drop p t n : lookup (drop p t) n = if p n then None else lookup t n.
Proof.
  unfold lookup, drop. induction t as [|[m g] t IH]; cbn; [destruct (p n); reflexivity|].
  destruct (name_eqb_spec m n) as [->|Hmn].
  - destruct (p n); cbn; [exact IH | rewrite name_eqb_refl; reflexivity].
  - destruct (p m); cbn; [|destruct (name_eqb_spec m n); [contradiction|]]; exact IH.
Qed.

Lemma drop_app p a b : drop p (a ++ b) = drop p a ++ drop p b.
Proof. apply filter_app. Qed.

Lemma drop_none p t : (forall m, In m (keys t) -> p m = false) -> drop p t = t.
Proof.
  unfold drop. induction t as [|[m g] t IH]; cbn; intro H; [reflexivity|].
  rewrite (H m) by (left; reflexivity). cbn. rewrite IH by auto. reflexivity.
Qed.

Lemma drop_all p t : (forall m, In m (keys t) -> p m = true) -> drop p t = [].
Proof.
  unfold drop. induction t as [|[m g] t IH]; cbn; intro H; [reflexivity|].
  rewrite (H m) by (left; reflexivity). cbn. auto.
Qed.

Lemma drop_drop p q t : drop p (drop q t) = drop (fun m => q m || p m) t.
Proof.
  unfold drop. induction t as [|[m g] t IH]; cbn; [reflexivity|].
  destruct (q m); cbn; [|destruct (p m); cbn]; rewrite IH; reflexivity.
Qed.

Lemma lookup_remove t n m : lookup (remove t n) m = if name_eqb m n then None else lookup t m.
Proof. exact (lookup_drop (fun x => name_eqb x n) t m). Qed.

Lemma remove_absent t n : has t n = false -> remove t n = t.
Proof.
  intro H. apply (drop_none (fun x => name_eqb x n)). intros m Hm.
  destruct (name_eqb_spec m n) as [->|]; [destruct (proj1 (has_false _ _) H Hm) | reflexivity].
Qed.

Definition ename (m : method) : name := ev_name (m_ann m).
Definition binding (m : method) : name * handler := (ename m, m_h m).
Definition enames (r : resource) : list name := map ename r.

Lemma register_cons t m r :
  register t (m :: r) = if has t (ename m) then (t, Err EOther) else register (t ++ [binding m]) r.
Proof. cbn [register]. unfold register_function. fold (ename m). destruct (has t (ename m)); reflexivity. Qed.

Lemma register_ok r : forall t t', register t r = (t', Ok tt) ->
  t' = t ++ map binding r /\ forall n, In n (enames r) -> ~ In n (keys t).
Proof.
  induction r as [|m r IH]; intros t t' H.
  - injection H as <-. split; [symmetry; apply app_nil_r | intros n []].
  - rewrite register_cons in H. destruct (has t (ename m)) eqn:E; [discriminate|].
    apply IH in H as [-> Hnew]. rewrite <- app_assoc. split; [reflexivity|].
    intros n [<-|Hn]; [apply has_false, E|]. intro K. apply (Hnew n Hn).
    rewrite keys_app. apply in_or_app. left. exact K.
Qed.

Lemma register_fresh r : forall t,
  NoDup (enames r) -> (forall n, In n (enames r) -> ~ In n (keys t)) ->
  register t r = (t ++ map binding r, Ok tt).
Proof.
  induction r as [|m r IH]; intros t ND Hnew; [rewrite app_nil_r; reflexivity|].
  apply NoDup_cons_iff in ND as [Hm ND].
  rewrite register_cons, (proj2 (has_false _ _) (Hnew _ (or_introl eq_refl))), IH, <- app_assoc; auto.
  intros n Hn. rewrite keys_app. intros K. apply in_app_or in K as [K|[<-|[]]]; [|exact (Hm Hn)].
  exact (Hnew n (or_intror Hn) K).
Qed.

(* a resource naming a class that has a handler is refused at the first such method (the
   methods before it stay registered); nothing bound before is disturbed *)
Lemma register_dup r : forall t m h0, wf t -> In m r -> In (ename m, h0) t ->
  exists t', register t r = (t', Err EOther) /\ forall n h, In (n, h) t -> lookup t' n = Some h.
Proof.
  induction r as [|m' r IH]; intros t m h0 W Hm Hb; [destruct Hm|].
  rewrite register_cons. destruct (has t (ename m')) eqn:E.
  - exists t. split; [reflexivity|]. intros n h. apply In_lookup, W.
  - destruct Hm as [->|Hm]; [apply In_keys, has_In in Hb; congruence|].
    destruct (IH (t ++ [binding m']) m h0 (wf_snoc _ _ _ W E) Hm (in_or_app _ _ _ (or_introl Hb)))
      as (t' & -> & Hl).
    exists t'. split; [reflexivity|]. intros n h H. apply Hl, in_or_app. left. exact H.
Qed.

Definition without (t : table) (ns : list name) : table := drop (fun m => name_mem m ns) t.

Lemma lookup_without t ns n : lookup (without t ns) n = if name_mem n ns then None else lookup t n.
Proof. apply lookup_drop. Qed.

Lemma unregister_spec r : forall t, unregister t r = (without t (enames r), Ok tt).
Proof.
  induction r as [|m r IH]; intro t; cbn [unregister].
  - unfold without. rewrite drop_none; reflexivity.
  - unfold unregister_function. cbn [ev_name a_name]. fold (ename m).
    (* remove is the drop of one name, and name_mem x (a :: l) computes to name_eqb x a || name_mem x l *)
    replace (without t (enames (m :: r))) with (without (remove t (ename m)) (enames r))
      by apply (drop_drop _ (fun x => name_eqb x (ename m))).
    destruct (has t (ename m)) eqn:E; rewrite IH, ?(remove_absent _ _ E); reflexivity.
Qed.

Lemma unregister_register t r t' : register t r = (t', Ok tt) -> unregister t' r = (t, Ok tt).
Proof.
  intro H. apply register_ok in H as [-> Hnew]. rewrite unregister_spec. f_equal.
  unfold without. rewrite drop_app, drop_none, drop_all, app_nil_r; [reflexivity|..].
  - intros m Hm. apply name_mem_In. unfold keys in Hm. rewrite map_map in Hm. exact Hm.
  - intros m Hm. destruct (name_mem m (enames r)) eqn:M; [|reflexivity].
    apply name_mem_In in M. destruct (Hnew m M Hm).
Qed.

Lemma len_call_args A k (c s m : A) : len (call_args k c s m) = nargs k.
Proof. destruct k; reflexivity. Qed.

Lemma dispatch_msg_spec A k t (c s : A) n m :
  dispatch_msg k t c s n m = a_dispatch k (lookup t) c s n m.
Proof.
  unfold dispatch_msg, invoke, a_dispatch. destruct (lookup t n); [rewrite len_call_args|]; reflexivity.
Qed.

Definition refines (t : table) (f : amap) : Prop := wf t /\ forall n, lookup t n = f n.

Definition refines2 {X} (p : table * X) (q : amap * X) : Prop :=
  refines (fst p) (fst q) /\ snd p = snd q.

Lemma refines_bound t f n : refines t f -> has t n = a_bound f n.
Proof. intros [_ S]. rewrite lookup_has, S. reflexivity. Qed.

Lemma refines_set t f n h : refines t f -> has t n = false -> refines (t ++ [(n, h)]) (a_set f n h).
Proof.
  intros [W S] H. split; [apply wf_snoc; assumption|].
  intro m. rewrite lookup_app, S. unfold a_set, lookup. cbn.
  destruct (name_eqb_spec n m) as [<-|_]; [|destruct (f m); reflexivity].
  rewrite <- S, (proj2 (lookup_None _ _) (proj1 (has_false _ _) H)). reflexivity.
Qed.

Lemma refines_del t f n : refines t f -> refines (remove t n) (a_del f n).
Proof.
  intros [W S]. split; [exact (wf_drop (fun x => name_eqb x n) t W)|]. intro m. rewrite lookup_remove, S. unfold a_del.
  destruct (name_eqb_spec m n) as [->|Hmn]; [rewrite name_eqb_refl; reflexivity|].
  destruct (name_eqb_spec n m); [congruence|reflexivity].
Qed.

Lemma refines_regfn t f a h : refines t f ->
  refines2 (register_function t a h) (a_regfn f (ev_name a) h).
Proof.
  intro R. unfold register_function, a_regfn. rewrite <- (refines_bound _ _ _ R).
  destruct (has t (ev_name a)) eqn:E; split; cbn [fst snd]; auto using refines_set.
Qed.

Lemma refines_unregfn t f a : refines t f ->
  refines2 (unregister_function t a) (a_unregfn f (ev_name a)).
Proof.
  intro R. unfold unregister_function, a_unregfn. rewrite <- (refines_bound _ _ _ R).
  destruct (has t (ev_name a)); split; cbn [fst snd]; auto using refines_del.
Qed.

Lemma refines_register r : forall t f, refines t f -> refines2 (register t r) (a_register f r).
Proof.
  induction r as [|m r IH]; intros t f R; [split; [exact R|reflexivity]|].
  cbn [register a_register]. pose proof (refines_regfn t f (m_ann m) (m_h m) R) as [R' E].
  destruct (register_function t _ _) as [t' x], (a_regfn f _ _) as [f' y]. cbn in R', E. subst y.
  destruct x; [apply IH, R' | split; [exact R'|reflexivity]].
Qed.

Lemma refines_unregister r : forall t f, refines t f -> refines2 (unregister t r) (a_unregister f r).
Proof.
  unfold a_unregister.
  induction r as [|m r IH]; intros t f R; cbn [unregister fold_left]; [split; [exact R|reflexivity]|].
  unfold unregister_function. cbn [ev_name a_name].
  destruct (has t (ev_name (m_ann m))) eqn:E; apply IH; [|rewrite <- (remove_absent _ _ E)];
    apply refines_del, R.
Qed.

Lemma refines2_out {X Y} (g : X -> Y) p q : refines2 p q ->
  refines2 (let '(t, x) := p in (t, g x)) (let '(f, x) := q in (f, g x)).
Proof. destruct p, q. intros [R E]. split; [exact R | exact (f_equal g E)]. Qed.

Lemma refines_step A k t f (o : op A) : refines t f -> refines2 (step k t o) (a_step k f o).
Proof.
  intro R. destruct o; cbn [step a_step].
  - apply refines2_out, refines_register, R.
  - apply refines2_out, refines_unregister, R.
  - apply refines2_out, refines_regfn, R.
  - apply refines2_out, refines_unregfn, R.
  - split; [exact R|]. cbn. rewrite dispatch_msg_spec. unfold a_dispatch. rewrite (proj2 R). reflexivity.
Qed.

Lemma refines_run A k (ops : list (op A)) : forall t f, refines t f ->
  refines2 (run k t ops) (a_run k f ops).
Proof.
  induction ops as [|o ops IH]; intros t f R; [split; [exact R|reflexivity]|].
  cbn [run a_run]. destruct (refines_step A k t f o R) as [R1 E1].
  destruct (step k t o) as [t1 x], (a_step k f o) as [f1 y]. cbn in R1, E1. subst y.
  destruct (IH t1 f1 R1) as [R2 E2].
  destruct (run k t1 ops), (a_run k f1 ops). cbn in R2, E2. subst. split; [exact R2|reflexivity].
Qed.

Lemma refines_empty : refines [] a_empty.
Proof. split; [constructor | reflexivity]. Qed.

Lemma wf_table_of A k (ops : list (op A)) : wf (table_of k ops).
Proof. apply (refines_run A k ops [] a_empty refines_empty). Qed.
