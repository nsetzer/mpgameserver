(* What strangers can elicit from the server loop: nothing but a hello for a hello
   (C11 theorem 4), for one datagram and for whole batches. *)
From Model Require Import Base Wire Conn Server.
From Proofs Require Import ConnSpecP.
Open Scope Z_scope.

Lemma disp_item_ignores h e s now a d xs :
  pget a (s_conns s) = None ->
  match pget a (s_temp s) with
  | None => h_type (d_hdr d) <> CLIENT_HELLO
  | Some _ => h_type (d_hdr d) <> CHALLENGE_RESP
  end ->
  disp_item h e s now a d xs = (s, []).
Proof.
  intros Hc Ht. unfold disp_item. rewrite Hc.
  destruct (pget a (s_temp s)); (destruct (ptype_eqb _ _) eqn:E; [apply ptype_eqb_eq in E; contradiction|reflexivity]).
Qed.

Lemma gate_refuses_unparsable bl it er : decode_header true (w_raw it) = Err er -> gate bl it = None.
Proof. intros H. unfold gate. rewrite H. destruct (zmem _ _); reflexivity. Qed.

Definition quiet_item (s : srv) (it : witem) : Prop :=
  match gate (s_block s) it with
  | None => True
  | Some (a, d, _) =>
      pget a (s_conns s) = None /\
      match pget a (s_temp s) with
      | None => h_type (d_hdr d) <> CLIENT_HELLO
      | Some _ => h_type (d_hdr d) <> CHALLENGE_RESP
      end
  end.

Lemma quiet_batch h e s now q : Forall (quiet_item s) q -> disp_all h e s now q = (s, []).
Proof.
  induction 1 as [|it q Hit _ IH]; [reflexivity|]. cbn [disp_all].
  destruct (s_dead s); [reflexivity|]. unfold quiet_item in Hit.
  destruct (gate (s_block s) it) as [[[a d] xs]|]; [|rewrite IH; reflexivity].
  rewrite (disp_item_ignores h e s now a d xs) by apply Hit. rewrite IH. reflexivity.
Qed.
