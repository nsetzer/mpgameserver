(* The invariant of the sending side that CustodyP.NU, QueueP.QI, MsgSendP.MI, PackInvP.conn_ok and
   MsgSeqP.TI are instances of: a predicate Qm on messages and Qk on callbacks that holds of everything
   the connection creates holds of everything it keeps (outgoing queue, re-send store, callbacks
   registered for pending datagrams) and of every message of every datagram it emits.
   The parts that create no message are done for fixed Qm, Qk (section Stored).  The walk through an
   event (section Family) lets the predicates depend on a ghost that moves on exactly where _send_type
   creates a message (MsgSeqP: the table of messages created so far); the instance with no ghost is
   step_Stored. *)
From Coq Require Import Lia.
From RecordUpdate Require Import RecordUpdate.
From Model Require Import Base SeqNum Wire Conn Net Net3.
From Proofs Require Import DictP WireP ConnFrameP AssemblyP.
Import RecordSetNotations.
Open Scope Z_scope.

Definition carries (d : dgram) (ms : list pmsg) : Prop :=
  exists pl, ((exists k, d_body d = Sealed k (d_hdr d) pl) \/ d_body d = Clear pl) /\
    encode_msgs (map wmsg_of ms) = Ok pl /\ h_count (d_hdr d) = len ms /\
    (forall m, ms = [m] -> m_type m = h_type (d_hdr d)).

Lemma emit_carries cx h ms : h_count h = len ms -> (forall m, ms = [m] -> m_type m = h_type h) ->
  Forall (fun d => carries d ms) (flat_map dg_of (emit cx (h, ms))).
Proof.
  intros Hc Ht. unfold emit. destruct (encode_msgs (map wmsg_of ms)) as [pl|] eqn:Ee; [|constructor].
  assert (Hd : forall h' kk, h_count h' = len ms -> (forall m, ms = [m] -> m_type m = h_type h') ->
                Forall (fun d => carries d ms) (flat_map dg_of [OEmit h' kk pl])).
  { intros h' kk Hc' Ht'. destruct kk; (constructor; [|constructor]); exists pl; cbn; eauto 6. }
  destruct (c_key cx) as [k|]; [destruct (negb _)|]; apply Hd; assumption.
Qed.

Lemma carries_dg_msgs d ms : carries d ms -> dg_msgs d = map wmsg_of ms.
Proof.
  intros (pl & Hb & He & Hc & Ht). unfold dg_msgs, body_payload.
  assert (Hdec : decode_msgs (h_type (d_hdr d)) (h_count (d_hdr d)) pl = Ok (map wmsg_of ms)).
  { rewrite Hc. replace (len ms) with (len (map wmsg_of ms)) by (unfold len; rewrite map_length; reflexivity).
    apply msgs_roundtrip; [exact He|]. intros w Hw. destruct ms as [|m [|m2 r]]; try discriminate.
    cbn in Hw. injection Hw as <-. apply Ht. reflexivity. }
  destruct Hb as [[k Hb]|Hb]; rewrite Hb, Hdec; reflexivity.
Qed.

(* callbacks the connection itself attaches (handshake, hello, disconnect loggers) *)
Definition sys_icb (k : icb) : Prop := match k with INone | IHello | IChallenge => True | _ => False end.

Section Stored.
  Variable Qm : pmsg -> Prop.
  Variable Qk : cb -> Prop.

  Record Stored (c : conn) : Prop := {
    st_out : Forall Qm (c_outgoing c);
    st_prm : Forall (fun p => Qm (snd p)) (c_pretry_msg c);
    st_pcbs : Forall (fun p => Forall Qk (snd p)) (c_pcbs c) }.

  Lemma Stored_upd c c' :
    c_outgoing c' = c_outgoing c -> c_pretry_msg c' = c_pretry_msg c -> c_pcbs c' = c_pcbs c -> Stored c -> Stored c'.
  Proof. intros O Pm C [A B D]. constructor; congruence. Qed.

  Lemma send_type_Stored c ty p r k : Qm (new_msg c ty p r k) -> Stored c -> Stored (send_type c ty p r k).
  Proof.
    intros Ht [A B D]. constructor; try assumption.
    rewrite send_type_out_eq. apply Forall_app. split; [exact A|]. repeat constructor. exact Ht.
  Qed.

  Definition tables (c : conn) := (c_outgoing c, c_pretry_msg c, c_pcbs c).
  Lemma wr_Stored m : (forall c d, tables (over m c d) = tables c) -> forall c c', wr m c c' -> Stored c -> Stored c'.
  Proof. intros G c c' Hw. pose proof (wr_keeps m tables G Hw) as E. injection E as O P C. apply Stored_upd; assumption. Qed.

  Lemma forget_Stored s c : Stored c -> Stored (forget s c).
  Proof.
    intros [A B D]. constructor.
    - rewrite (wr_keeps W_forget c_outgoing (fun _ _ => eq_refl) (forget_wr s c)). exact A.
    - rewrite forget_prm. destruct (dget s (c_pretry c)); [|exact B].
      rewrite Forall_forall in *. intros x Hx. apply B. eapply fold_ddel_In, Hx.
    - rewrite (wr_keeps W_forget c_pcbs (fun _ _ => eq_refl) (forget_wr s c)). exact D.
  Qed.

  Definition wire_ok (o : list out) : Prop :=
    Forall (fun d => exists ms, carries d ms /\ Forall Qm ms) (flat_map dg_of o).

  Lemma wire_ok_no_emit o : no_emit o -> wire_ok o.
  Proof. intros H. unfold wire_ok. rewrite (dg_no_emit _ H). constructor. Qed.
  Lemma wire_ok_app a b : wire_ok a -> wire_ok b -> wire_ok (a ++ b).
  Proof. unfold wire_ok. rewrite flat_map_app. intros. apply Forall_app. auto. Qed.

  (* each part under the closure property it needs.  Q_requeue: a failed RetrySender puts its message back *)
  Section Tail.
    Hypothesis Q_requeue : forall rid mseq ty p i, Qk (Retry rid mseq ty p i) ->
      Qm {| m_seq := mseq; m_type := ty; m_payload := p; m_cb := Some (Retry rid mseq ty p i);
            m_retry := RTimeout; m_atime := 0 |}.

    Lemma fire_cb_Stored c k ok c' o : Qk k -> fire_cb c k ok = (c', o) -> Stored c -> Stored c'.
    Proof.
      unfold fire_cb. intros Hk E.
      assert (Hi : forall a i b, fire_icb a i b = (c', o) -> Stored a -> Stored c')
        by (intros a i b Ei; exact (wr_Stored W_icb (fun _ _ => eq_refl) _ _ (fire_icb_wr Ei))).
      destruct k as [i|rid mseq ty p i]; [exact (Hi _ _ _ E)|].
      destruct (zmem rid (c_done c)); [injection E as <- <-; exact (fun H => H)|].
      destruct (negb ok).
      - injection E as <- <-. intros [A B D]. constructor; try assumption.
        cbn. apply Forall_app. split; [exact A|]. repeat constructor. apply Q_requeue, Hk.
      - intros H. apply (Hi _ _ _ E). revert H. apply Stored_upd; reflexivity.
    Qed.

    (* resolving a sent datagram: its callbacks are among the registered ones *)
    Lemma ratom_Stored B c c' o : ratom B c c' o -> Stored c -> Stored c'.
    Proof.
      intros [ok _|s ks k ok c1 o1 _ Eg Hk E|s|s _] H.
      - revert H. destruct ok; apply Stored_upd; reflexivity.
      - refine (fire_cb_Stored _ _ _ _ _ _ E H). destruct H as [_ _ D].
        pose proof (Forall_dget _ _ _ _ D Eg) as Hks. rewrite Forall_forall in Hks. exact (Hks k Hk).
      - destruct H as [A B0 D]. constructor; try assumption. cbn. apply Forall_ddel, D.
      - apply forget_Stored, H.
    Qed.

    Lemma sweep_Stored verdict snap c c' o : sweep verdict c snap = (c', o) -> Stored c -> Stored c'.
    Proof.
      intros E. apply (star_pres _ _ (ratom_Stored (fun _ => True)) c c' o).
      exact (sweep_racts (fun _ => True) verdict snap (fun _ _ _ _ _ => I) c c' o E).
    Qed.

    Lemma resolve_Stored ok c s c' o : resolve ok c s = (c', o) -> Stored c -> Stored c'.
    Proof. intros E. exact (star_pres _ _ (ratom_Stored (fun _ => True)) c c' o (resolve_racts _ ok c s c' o I E)). Qed.

    Lemma ack_loop_Stored h snap c c' o : ack_loop c h snap = (c', o) -> Stored c -> Stored c'.
    Proof. rewrite ack_loop_sweep. apply sweep_Stored. Qed.

    Lemma timeout_loop_Stored strict now snap c c' o : timeout_loop strict c now snap = (c', o) -> Stored c -> Stored c'.
    Proof. rewrite timeout_loop_sweep. apply sweep_Stored. Qed.

    Hypothesis Q_stamp : forall now m, Qm m -> Qm (stamp now m).
    Hypothesis Q_cb : forall m k, Qm m -> m_cb m = Some k -> Qk k.
    Lemma built_Stored c c' now r msgs : built_spec c c' now r msgs -> Stored c -> Stored c' /\ Forall Qm msgs.
    Proof.
      intros [B1 _ B3 _ _ B5 B6] [A B D]. rewrite Forall_forall in A, B.
      assert (Hmsgs : forall m, In m msgs -> Qm m).
      { intros m Hm. destruct (B1 m Hm) as [H|H]; [apply A; exact H|].
        apply in_map_iff in H as (x & <- & Hx). exact (B _ Hx). }
      split; [|apply Forall_forall; exact Hmsgs]. constructor.
      - apply Forall_forall. intros m Hm. apply A, B3, Hm.
      - apply Forall_forall. intros x Hx. destruct (B5 x Hx) as [H|(m & H1 & H2)]; [exact (B _ H)|].
        rewrite H2. apply Q_stamp, Hmsgs, H1.
      - destruct r as [[h ms]|]; [|destruct B6 as (-> & _); exact D].
        destruct B6 as (_ & _ & _ & _ & ->). destruct (opt_list (map m_cb msgs)) as [|k0 cbs] eqn:Ec; [exact D|].
        apply Forall_dset; [exact D|]. cbn. apply Forall_forall. intros k Hk. rewrite <- Ec in Hk.
        apply opt_list_In, in_map_iff in Hk as (m & Hk & Hm). exact (Q_cb m k (Hmsgs m Hm) Hk).
    Qed.

    Lemma build_packet_Stored e c now c' pk : build_packet e c now = (c', pk) -> Stored c ->
      Stored c' /\ forall cx, wire_ok (match pk with Some p => emit cx p | None => [] end).
    Proof.
      intros E H. apply build_packet_spec in E as [(-> & ->)|(c1 & msgs & B & O & P & C & _)]; [split; [exact H|constructor]|].
      destruct (built_Stored _ _ _ _ _ B H) as [H1 F]. split; [revert H1; apply Stored_upd; assumption|].
      intros cx. destruct pk as [[h ms]|]; [|constructor]. destruct (bs_res _ _ _ _ _ B) as (-> & Hc & Ht & _).
      eapply Forall_impl; [|apply emit_carries; assumption]. intros d Hd. eexists. split; [exact Hd|].
      apply Forall_forall. intros m Hm. apply in_map_iff in Hm as (m0 & <- & Hm0).
      rewrite Forall_forall in F. apply Q_stamp, F, Hm0.
    Qed.

    Lemma tick_tail_Stored strict e c now c' o2 o3 : tick_tail strict e c now = (c', o2, o3) -> Stored c ->
      Stored c' /\ wire_ok o2 /\ no_emit o3.
    Proof.
      intros E H. apply tick_tail_cases in E as (c1 & pk & E1 & E2 & ->).
      destruct (build_packet_Stored _ _ _ _ _ E1 H) as [H1 Wk].
      split; [exact (timeout_loop_Stored _ _ _ _ _ _ E2 H1)|]. split; [apply Wk|exact (proj2 (check_timeout_frame E2))].
    Qed.
  End Tail.

  Record closed : Prop := {
    q_requeue : forall rid mseq ty p i, Qk (Retry rid mseq ty p i) ->
      Qm {| m_seq := mseq; m_type := ty; m_payload := p; m_cb := Some (Retry rid mseq ty p i);
            m_retry := RTimeout; m_atime := 0 |};
    q_sys : forall c ty p k, is_hs ty = true -> sys_icb k -> Qm (new_msg c ty p RNone k);
    q_stamp : forall now m, Qm m -> Qm (stamp now m);
    q_cb : forall m k, Qm m -> m_cb m = Some k -> Qk k }.
End Stored.

Lemma Stored_impl (Qm Qm' : pmsg -> Prop) (Qk Qk' : cb -> Prop) c :
  (forall m, Qm m -> Qm' m) -> (forall k, Qk k -> Qk' k) -> Stored Qm Qk c -> Stored Qm' Qk' c.
Proof.
  intros Hm Hk [A B D]. constructor.
  - eapply Forall_impl; [|exact A]. exact Hm.
  - eapply Forall_impl; [|exact B]. intros x. apply Hm.
  - eapply Forall_impl; [|exact D]. intros x. apply Forall_impl, Hk.
Qed.

(* the counters only _send_type moves *)
Definition sm (c : conn) : Z * Z := (c_seq_msg c, c_sent c).

Section Family.
  Variable G : Type.
  Variable ext : G -> G -> Prop.
  Variable Qm : G -> pmsg -> Prop.
  Variable Qk : G -> cb -> Prop.
  Variable Inv : G -> conn -> Prop.

  (* Inv g says Stored (Qm g) (Qk g) and whatever ties the ghost to the counters sm *)
  Record family : Prop := {
    f_refl : forall g, ext g g;
    f_trans : forall a b c, ext a b -> ext b c -> ext a c;
    f_mono : forall g g' m, ext g g' -> Qm g m -> Qm g' m;
    f_stored : forall g c, Inv g c -> Stored (Qm g) (Qk g) c;
    f_keep : forall g c c', Inv g c -> Stored (Qm g) (Qk g) c' -> sm c' = sm c -> Inv g c' }.
  Hypothesis F : family.

  (* _send_type may create this message in state c: the ghost moves on *)
  Definition New (c : conn) ty p r k : Prop :=
    forall g, Inv g c -> exists g', ext g g' /\ Inv g' (send_type c ty p r k).
  Hypothesis New_sys : forall c ty p k, is_hs ty = true -> sys_icb k -> New c ty p RNone k.

  Definition Grow (c c' : conn) (o : list out) : Prop :=
    forall g, Inv g c -> exists g', ext g g' /\ Inv g' c' /\ wire_ok (Qm g') o.

  Lemma wire_ok_ext g g' o : ext g g' -> wire_ok (Qm g) o -> wire_ok (Qm g') o.
  Proof.
    intros L. unfold wire_ok. apply Forall_impl. intros d (ms & C & A). exists ms. split; [exact C|].
    eapply Forall_impl; [|exact A]. intros m. apply (f_mono F), L.
  Qed.

  Lemma Grow_refl c : Grow c c [].
  Proof. intros g H. exists g. split; [apply (f_refl F)|]. split; [exact H|constructor]. Qed.

  Lemma Grow_trans a b c o1 o2 : Grow a b o1 -> Grow b c o2 -> Grow a c (o1 ++ o2).
  Proof.
    intros G1 G2 g H. destruct (G1 g H) as (g1 & L1 & H1 & W1). destruct (G2 g1 H1) as (g2 & L2 & H2 & W2).
    exists g2. split; [eapply (f_trans F); eassumption|]. split; [exact H2|].
    apply wire_ok_app; [eapply wire_ok_ext; eassumption|exact W2].
  Qed.

  (* a part that creates nothing and puts nothing on the wire: the lemma of section Stored does it *)
  Lemma Grow_keeps c c' o :
    (forall g, Stored (Qm g) (Qk g) c -> Stored (Qm g) (Qk g) c') -> sm c' = sm c -> no_emit o -> Grow c c' o.
  Proof.
    intros HS Hs N g H. exists g. split; [apply (f_refl F)|]. split; [|apply wire_ok_no_emit, N].
    apply (f_keep F g c); [exact H|apply HS, (f_stored F), H|exact Hs].
  Qed.

  Lemma Grow_upd c c' : c_outgoing c' = c_outgoing c -> c_pretry_msg c' = c_pretry_msg c -> c_pcbs c' = c_pcbs c ->
    sm c' = sm c -> Grow c c' [].
  Proof. intros O P C Hs. apply Grow_keeps; [intros g; apply Stored_upd; assumption|exact Hs|apply no_emit_nil]. Qed.

  Lemma wr_Grow m : (forall c d, (tables (over m c d), sm (over m c d)) = (tables c, sm c)) -> forall c c', wr m c c' -> Grow c c' [].
  Proof.
    intros K c c' Hw. pose proof (wr_keeps m (fun a => (tables a, sm a)) K Hw) as E. injection E as O P C S1 S2.
    apply Grow_upd; [assumption..|]. unfold sm. congruence.
  Qed.

  Lemma Grow_new c ty p r k : New c ty p r k -> Grow c (send_type c ty p r k) [].
  Proof. intros N g H. destruct (N g H) as (g' & L & H'). exists g'. split; [exact L|]. split; [exact H'|constructor]. Qed.

  Lemma Grow_quiet c c' o : no_emit o -> Grow c c' [] -> Grow c c' o.
  Proof.
    intros N R g H. destruct (R g H) as (g' & L & H' & _). exists g'. split; [exact L|]. split; [exact H'|apply wire_ok_no_emit, N].
  Qed.

  (* what the handshake does around queueing its reply, with the state a variable: between the record
     terms send_type builds the same equations are slow to check *)
  Lemma Grow_sys c c1 ty p k : is_hs ty = true -> sys_icb k ->
    c_outgoing c1 = c_outgoing c -> c_pretry_msg c1 = c_pretry_msg c -> c_pcbs c1 = c_pcbs c -> sm c1 = sm c ->
    Grow c (send_type c1 ty p RNone k) [].
  Proof.
    intros Ht Hk O P C Hs. apply (Grow_trans c c1 _ [] []); [apply Grow_upd; assumption|apply Grow_new, New_sys; assumption].
  Qed.
  Lemma Grow_status c st : Grow c (c <| c_status := st |>) [].
  Proof. apply Grow_upd; reflexivity. Qed.
  Lemma Grow_status_hello c st hs : Grow c (c <| c_status := st |> <| c_hello_sent := hs |>) [].
  Proof. apply Grow_upd; reflexivity. Qed.

  Lemma recv_handshake_Grow c ty oo c' os : recv_handshake c ty oo = (c', os) -> Grow c c' [].
  Proof.
    intros E. destruct (recv_handshake_inv _ _ _ _ _ E) as [os' _ _ _|_ _ _ _|_ _ _ _|_ _ _|_ _ _].
    - apply Grow_refl.
    - apply Grow_sys; try reflexivity; exact I.
    - apply Grow_upd; reflexivity.
    - apply Grow_upd; reflexivity.
    - eapply (Grow_trans c _ _ [] []); [|apply Grow_status_hello]. apply Grow_sys; try reflexivity; exact I.
  Qed.

  (* what an event of the application may create: one APP message, or the fragment messages of a
     payload above the single-datagram limit, or the farewell *)
  Definition ev_new (e : env) (c : conn) (x : ev) : Prop :=
    match x with
    | ESend p r k =>
        if len p >? e_max_payload e
        then forall c0 fid i n f, New c0 APP_FRAGMENT (be 2 fid ++ be 2 (1 + i) ++ be 2 n ++ f) r (IFrag fid i)
        else New c APP p r k
    | EDisconnect k => forall c0, New c0 DISCONNECT [] RNone k
    | _ => True
    end.

  Lemma send_frags_Grow r frags :
    (forall c fid i n f, New c APP_FRAGMENT (be 2 fid ++ be 2 (1 + i) ++ be 2 n ++ f) r (IFrag fid i)) ->
    forall c fid n i, Grow c (send_frags c fid n r i frags) [].
  Proof.
    intros Hf. induction frags as [|f rest IH]; intros c fid n i; cbn [send_frags]; [apply Grow_refl|].
    eapply (Grow_trans c _ _ [] []); [|apply IH]. apply Grow_new, Hf.
  Qed.

  Lemma send_Grow e c p r k c' o : ev_new e c (ESend p r k) -> send e c p r k = (c', o) -> Grow c c' [].
  Proof.
    cbn [ev_new]. intros Hn E. destruct (send_inv E) as [_|_ Hl|_ Hl _|_ [Hl _]];
      [apply Grow_refl|apply Grow_new; replace (len p >? e_max_payload e) with false in Hn by lia; exact Hn|apply Grow_upd; reflexivity|].
    replace (len p >? e_max_payload e) with true in Hn by lia. unfold send_fragmented.
    eapply (Grow_trans c _ _ [] []); [apply (Grow_upd c (c <| c_seq_frag := seq_succ (c_seq_frag c) |>)); reflexivity|].
    eapply (Grow_trans _ _ _ [] []); [apply send_frags_Grow, Hn|apply Grow_upd; reflexivity].
  Qed.

  (* ConnectionBase.disconnect empties the queue and the callback table before it queues the farewell *)
  Lemma Grow_cleared c :
    Grow c (c <| c_outgoing := [] |> <| c_incoming := [] |> <| c_pcbs := [] |> <| c_pretry := [] |> <| c_packs := [] |>) [].
  Proof. apply Grow_keeps; [|reflexivity|apply no_emit_nil]. intros g [A B D]. constructor; cbn; auto. Qed.

  Lemma disconnect_Grow c k : (forall c0, New c0 DISCONNECT [] RNone k) -> Grow c (disconnect c k) [].
  Proof.
    intros Hk. destruct (disconnect_cases c k) as [(_ & _ & ->)|(_ & ->)]; [apply Grow_status|].
    eapply (Grow_trans c _ _ [] []); [|apply Grow_status].
    eapply (Grow_trans c _ _ [] []); [apply Grow_cleared|apply Grow_new, Hk].
  Qed.

  Lemma client_hello_Grow c now hello : Grow c (client_hello c now hello) [].
  Proof. eapply (Grow_trans c _ _ [] []); [|apply Grow_status_hello]. apply Grow_new, New_sys; [reflexivity|exact I]. Qed.

  (* under every ghost the predicates are closed as section Tail asks *)
  Hypothesis Q_requeue : forall g rid mseq ty p i, Qk g (Retry rid mseq ty p i) ->
    Qm g {| m_seq := mseq; m_type := ty; m_payload := p; m_cb := Some (Retry rid mseq ty p i);
            m_retry := RTimeout; m_atime := 0 |}.

  (* everything an event does before the tail: only the handshake and the application's own calls create *)
  Lemma atom_Grow e x c c' o : ev_new e c x -> atom e x c c' o -> Grow c c' o.
  Proof.
    intros Hx H. apply Grow_quiet; [eapply atom_no_emit, H|].
    destruct H as [H|H|H];
      [destruct H as [p r k c1 o1 -> E|k ->|w v ->|now hello _|_|b _|now r c1 o1 _ E|now er _]
      |destruct H as [o1 _|s bf _|h c1 o1 _ E|o1 _]
      |destruct H as [s bf _|s p|s p c1 o1 E| |ty oo c1 os _ _ E]]; try (apply Grow_upd; reflexivity); try apply Grow_refl.
    (* the atoms that are one record update went by Grow_upd; the others, each by its lemma *)
    - eapply send_Grow; eassumption.
    - apply disconnect_Grow, Hx.
    - exact (wr_Grow W_cfg (fun _ _ => eq_refl) _ _ (setcfg_wr e c w v)).
    - apply client_hello_Grow.
    - exact (wr_Grow W_update (fun _ _ => eq_refl) _ _ (client_update_wr E)).
    - (* a_acks: resolving may re-queue, which Q_requeue allows *)
      apply Grow_keeps; [|exact (wr_keeps W_resolve sm (fun _ _ => eq_refl) (handle_ack_bits_wr E))|apply no_emit_nil].
      intros g. unfold handle_ack_bits in E. exact (ack_loop_Stored _ _ (Q_requeue g) _ _ _ _ _ E).
    - exact (wr_Grow W_frag (fun _ _ => eq_refl) _ _ (recv_fragment_wr E)).
    - eapply recv_handshake_Grow, E.
  Qed.

  Lemma acts_Grow e x c c' o : acts e x c c' o -> (forall c0, ev_new e c0 x) -> Grow c c' o.
  Proof. intros H Hx. revert c c' o H. apply (star_rel (atom e x) Grow Grow_refl Grow_trans). intros a a' o'. apply atom_Grow, Hx. Qed.

  Hypothesis Q_stamp : forall g now m, Qm g m -> Qm g (stamp now m).
  Hypothesis Q_cb : forall g m k, Qm g m -> m_cb m = Some k -> Qk g k.

  Lemma tick_tail_Grow e strict c now c' o2 o3 : tick_tail strict e c now = (c', o2, o3) ->
    Grow c c' (if strict then o3 ++ o2 else o2 ++ o3).
  Proof.
    intros E g H. exists g. split; [apply (f_refl F)|].
    destruct (tick_tail_Stored _ _ (Q_requeue g) (Q_stamp g) (Q_cb g) _ _ _ _ _ _ _ E (f_stored F _ _ H)) as (M2 & W2 & N3).
    split; [apply (f_keep F g c); [exact H|exact M2|exact (wr_keeps W_tail sm (fun _ _ => eq_refl) (tick_tail_wr E))]|].
    destruct strict; apply wire_ok_app; auto using wire_ok_no_emit.
  Qed.

  (* an event that is not the application's send may create the same whatever the state *)
  Lemma step_Grow_any e c x c' o : step e c x = (c', o) -> (forall c0, ev_new e c0 x) -> Grow c c' o.
  Proof.
    intros E Hx. apply step_acts in E as (c1 & o1 & ot & H1 & Ht & ->).
    apply (Grow_trans c c1); [exact (acts_Grow _ _ _ _ _ H1 Hx)|].
    destruct Ht as [_|c2 o2 o3 _ _ T]; [apply Grow_refl|eapply tick_tail_Grow, T].
  Qed.

  Theorem step_Grow e c x c' o : ev_new e c x -> step e c x = (c', o) -> Grow c c' o.
  Proof.
    intros Hx E. destruct x; [|exact (step_Grow_any _ _ _ _ _ E (fun _ => Hx))..].
    exact (atom_Grow e (ESend p r k) c c' o Hx (at_call _ _ _ _ _ (a_send e _ c p r k c' o eq_refl E))).
  Qed.
End Family.

Section Fixed.
  Variable Qm : pmsg -> Prop.
  Variable Qk : cb -> Prop.

  Definition fixed (_ _ : unit) : Prop := True.

  Lemma fixed_family : family unit fixed (fun _ => Qm) (fun _ => Qk) (fun _ => Stored Qm Qk).
  Proof. constructor; unfold fixed; auto. Qed.

  Lemma fixed_new c ty p r k : Qm (new_msg c ty p r k) -> New unit fixed (fun _ => Stored Qm Qk) c ty p r k.
  Proof. intros Hn g H. exists tt. split; [exact I|apply send_type_Stored; assumption]. Qed.

  Definition stores (c c' : conn) (o : list out) : Prop := Stored Qm Qk c -> Stored Qm Qk c' /\ wire_ok Qm o.

  Lemma Grow_stores c c' o : Grow unit fixed (fun _ => Qm) (fun _ => Stored Qm Qk) c c' o -> stores c c' o.
  Proof. intros Gr H. destruct (Gr tt H) as (_ & _ & H' & W'). exact (conj H' W'). Qed.

  Lemma disconnect_Stored c k : (forall c0, Qm (new_msg c0 DISCONNECT [] RNone k)) -> Stored Qm Qk c -> Stored Qm Qk (disconnect c k).
  Proof. intros Hk H. refine (proj1 (Grow_stores _ _ _ (disconnect_Grow _ _ _ _ _ fixed_family c k _) H)). intros c0. apply fixed_new, Hk. Qed.

  Hypothesis HQ : closed Qm Qk.

  Lemma fixed_sys c ty p k : is_hs ty = true -> sys_icb k -> New unit fixed (fun _ => Stored Qm Qk) c ty p RNone k.
  Proof. intros Ht Hk. apply fixed_new, (q_sys _ _ HQ); assumption. Qed.

  (* the parts of a receive are atoms whatever the limits e, which only the application's send and the tail read *)
  Lemma recv_Stored c now d orcs c' o : recv c now d orcs = (c', o) -> Stored Qm Qk c -> Stored Qm Qk c'.
  Proof.
    intros E H. pose (e := {| e_max_payload := 0; e_max_frag := 0; e_max_frags := 0 |}).
    apply (recv_acts e (ERecv now d orcs)) in E.
    exact (proj1 (Grow_stores _ _ _ (acts_Grow _ _ _ _ _ fixed_family fixed_sys (fun _ => q_requeue _ _ HQ) e _ _ _ _ E (fun _ => I)) H)).
  Qed.

  Definition ev_creates (e : env) (c : conn) (x : ev) : Prop :=
    match x with
    | ESend p r k =>
        if len p >? e_max_payload e
        then forall c0 fid i n f, Qm (new_msg c0 APP_FRAGMENT (be 2 fid ++ be 2 (1 + i) ++ be 2 n ++ f) r (IFrag fid i))
        else Qm (new_msg c APP p r k)
    | EDisconnect k => forall c0, Qm (new_msg c0 DISCONNECT [] RNone k)
    | _ => True
    end.

  Lemma creates_new e c x : ev_creates e c x -> ev_new unit fixed (fun _ => Stored Qm Qk) e c x.
  Proof. intros Hx. destruct x; cbn [ev_creates ev_new] in *; try exact I; [destruct (_ >? _)|]; intros; apply fixed_new, Hx. Qed.

  Lemma acts_Stored e x c c' o : acts e x c c' o -> (forall c0, ev_creates e c0 x) -> Stored Qm Qk c -> Stored Qm Qk c'.
  Proof.
    intros H Hx H0.
    exact (proj1 (Grow_stores _ _ _ (acts_Grow _ _ _ _ _ fixed_family fixed_sys (fun _ => q_requeue _ _ HQ) e x _ _ _ H (fun c0 => creates_new e c0 x (Hx c0))) H0)).
  Qed.

  Lemma step_Stored e c x c' o : ev_creates e c x -> step e c x = (c', o) -> Stored Qm Qk c -> Stored Qm Qk c' /\ wire_ok Qm o.
  Proof.
    intros Hx E. apply Grow_stores.
    exact (step_Grow _ _ _ _ _ fixed_family fixed_sys (fun _ => q_requeue _ _ HQ) (fun _ => q_stamp _ _ HQ) (fun _ => q_cb _ _ HQ) e c x c' o (creates_new e c x Hx) E).
  Qed.
End Fixed.
