(* Witnesses for Properties/C12.v: the histories that show the inequalities of TimedNet.params_ok
   are exact, and the established pair / admissible history of the non-vacuity examples. *)
From RecordUpdate Require Import RecordUpdate.
From Model Require Import Base Wire Conn Net TimedNet.
From Proofs Require Import IdleP.
Import RecordSetNotations.
Open Scope Z_scope.

(* an endpoint as the harness establishes it: CONNECTED under key 7, nothing sent or received yet,
   clocks started at t0, keep-alive interval K *)
Definition mk_ep (srv : bool) (t0 K : Z) : conn :=
  (conn0 srv) <| c_status := CONNECTED |> <| c_key := Some 7 |> <| c_ka_interval := K |>
              <| c_last_recv := t0 |> <| c_last_send := t0 |> <| c_last_ka := t0 |>.
Definition env1500 : env := {| e_max_payload := 1434; e_max_frag := 1024; e_max_frags := 8192 |}.
(* Client keep-alive interval K = 75000, tau = 1800, T = 76800 = K + tau.  The client's update() at
   t0 + K finds its last packet exactly K old, not older, so its first keep-alive leaves at t0 + K + tau;
   the server's sweep of that moment comes before the datagram is shown: silent for T.  Before that, 41 rounds tau
   apart (t0 + 1800 … t0 + 73800, the last whole period before t0 + K) in which the server's keep-alives are shown
   at once and the client has nothing to send. *)
Fixpoint srv_first_rounds (n : nat) (t i : Z) : list tev :=
  match n with O => [] | S m => [TSrvSweep t; TClient t (SPeer i)] ++ srv_first_rounds m (t + 1800) (i + 1) end.
Definition refute_hist (t0 : Z) : list tev :=
  srv_first_rounds 41 (t0 + 1800) 1 ++ [TSrvSweep (t0 + 75000); TClient (t0 + 75000) SNone]
  ++ [TClient (t0 + 76800) SNone; TSrvSweep (t0 + 76800)].

Lemma idle_keepalive_lt_timeout_refuted_proof :
  exists e P k cli srv t0 hs,
    established k t0 cli srv /\ c_ka_interval cli < tp_T P /\ tp_d P = 0
    /\ kmax cli + tp_tau P + tp_d P = tp_T P /\ kmax srv + tp_tau P + tp_d P <= 5 * TICKS
    /\ tvalid e P (tnet0 cli srv t0) hs
    /\ t_swept (trun e P (tnet0 cli srv t0) hs) = true.
Proof.
  exists env1500, {| tp_tau := 1800; tp_d := 0; tp_life := 0; tp_T := 76800 |}, 7,
         (mk_ep false 1536000 75000), (mk_ep true 1536000 1536), 1536000, (refute_hist 1536000).
  split; [apply establishedb_ok; vm_compute; reflexivity|].
  split; [vm_compute; reflexivity|]. split; [reflexivity|]. split; [vm_compute; reflexivity|].
  split; [vm_compute; discriminate|]. split; [apply tvalidb_ok; vm_compute; reflexivity|].
  vm_compute. reflexivity.
Qed.

(* The mirror image, server keep-alive interval 75001 = 5 s + 1 tick - tau: the server's first
   keep-alive leaves at t0 + 76801, and the client's update() of that moment reports DROPPED before it
   reads the socket. *)
Fixpoint cli_first_rounds (n : nat) (t i : Z) : list tev :=
  match n with O => [] | S m => [TClient t SNone; TSrvRecv t (SPeer i); TSrvSweep t] ++ cli_first_rounds m (t + 1800) (i + 1) end.
Definition tight_hist (t0 : Z) : list tev :=
  cli_first_rounds 41 (t0 + 1800) 1 ++ [TClient (t0 + 75001) SNone; TSrvSweep (t0 + 75001)]
  ++ [TSrvSweep (t0 + 76801); TClient (t0 + 76801) (SPeer 1)].

Lemma idle_pair_client_bound_tight_proof :
  exists e P k cli srv t0 hs,
    established k t0 cli srv /\ tp_d P = 0
    /\ kmax cli + tp_tau P + tp_d P < tp_T P /\ kmax srv + tp_tau P + tp_d P = 5 * TICKS + 1
    /\ tvalid e P (tnet0 cli srv t0) hs
    /\ c_status (t_cli (trun e P (tnet0 cli srv t0) hs)) = DROPPED.
Proof.
  exists env1500, {| tp_tau := 1800; tp_d := 0; tp_life := 0; tp_T := 76800 |}, 7,
         (mk_ep false 1536000 1536), (mk_ep true 1536000 75001), 1536000, (tight_hist 1536000).
  split; [apply establishedb_ok; vm_compute; reflexivity|].
  split; [reflexivity|]. split; [vm_compute; reflexivity|]. split; [vm_compute; reflexivity|].
  split; [apply tvalidb_ok; vm_compute; reflexivity|].
  vm_compute. reflexivity.
Qed.

(* the non-vacuity example: a handshake run on the model, then a few keep-alive rounds *)
Definition ex_orc (tt : option Z) : hs_oracle :=
  {| o_parse := 0; o_version_ok := true; o_token := 99; o_key := 7; o_reply := []; o_temp_token := tt |}.
Definition ex_first (l : list dgram) : dgram :=
  hd {| d_hdr := {| h_to_server := true; h_ctime := 0; h_seq := 0; h_ack := 0; h_type := UNKNOWN; h_len := 0;
                    h_count := 0; h_ackbits := 0 |}; d_body := Bad |} l.
Definition ex_t0 : Z := 1536000.
Definition ex_hs1 := nrun env1500 net0 [NA (EClientHello ex_t0 []); NA (EClientTick (ex_t0 + 300) RxNone)].
Definition ex_hs2 := nrun env1500 ex_hs1 [NB (ERecv (ex_t0 + 300) (ex_first (wAB ex_hs1)) [ex_orc None]); NB (EServerTick (ex_t0 + 600))].
Definition ex_hs3 := nrun env1500 ex_hs2 [NA (EClientTick (ex_t0 + 600) (RxDgram (ex_first (wBA ex_hs2)) [ex_orc None]))].
Definition ex_hs4 := nrun env1500 ex_hs3 [NB (ERecv (ex_t0 + 900) (ex_first (skipn 1 (wAB ex_hs3))) [ex_orc (Some 99)])].
Definition ex_P : tparams := {| tp_tau := 300; tp_d := 900; tp_life := 2700; tp_T := 5 * TICKS |}.
Definition ex_junk : dgram :=
  let h := {| h_to_server := false; h_ctime := 100; h_seq := 9; h_ack := 0; h_type := APP; h_len := 3; h_count := 1; h_ackbits := 0 |} in
  {| d_hdr := h; d_body := Sealed 8 h [] |}.
Definition ex_plain (o : Z) : list tev := [TClient (ex_t0 + o) SNone; TSrvSweep (ex_t0 + o)].
Definition ex_hist : list tev :=
  ex_plain 1200 ++ ex_plain 1500 ++ ex_plain 1800 ++ ex_plain 2100 ++ ex_plain 2400
  ++ [TClient (ex_t0 + 2700) (SJunk ex_junk []); TSrvRecv (ex_t0 + 2700) (SJunk ex_junk []); TSrvSweep (ex_t0 + 2700)]
  ++ [TClient (ex_t0 + 3000) (SPeer 2); TSrvRecv (ex_t0 + 3000) (SPeer 3); TSrvSweep (ex_t0 + 3000)]
  ++ [TClient (ex_t0 + 3300) (SPeer 2); TSrvRecv (ex_t0 + 3300) (SPeer 3); TSrvSweep (ex_t0 + 3300)]
  ++ ex_plain 3600 ++ ex_plain 3900
  ++ [TClient (ex_t0 + 4200) (SPeer 2); TSrvRecv (ex_t0 + 4200) (SPeer 3); TSrvSweep (ex_t0 + 4200)]   (* late copies *)
  ++ ex_plain 4500 ++ ex_plain 4800
  ++ [TClient (ex_t0 + 5100) (SPeer 3); TSrvRecv (ex_t0 + 5100) (SPeer 4); TSrvSweep (ex_t0 + 5100)]
  ++ ex_plain 5400 ++ ex_plain 5700
  ++ [TClient (ex_t0 + 6000) SNone; TSrvRecv (ex_t0 + 6000) (SPeer 5); TSrvSweep (ex_t0 + 6000)]
  ++ [TClient (ex_t0 + 6300) (SPeer 4); TSrvSweep (ex_t0 + 6300)].

