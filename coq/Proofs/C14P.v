(* C14P.v — proofs of the statements of Properties/C14.v (decoder of Model/Ser.v on hostile bytes). *)
From Coq Require Import Lia ZifyBool.
From Model Require Import Base Ser SerCost SerHs.
From Proofs Require Import BytesP SerDecP.
Open Scope Z_scope.

Section C14.
  Variable fc : fconv.
  Variable pk : value -> option serr.
  Variable reg : registry.

  (* everything SerDecP proves of a run, said of the run from [st0 bs] *)
  Definition run_ok (D : Z) (fuel : nat) (bs : list byte) (r : sres value) (s : st) : Prop :=
    exists pre, bs = pre ++ rem s /\ 0 <= nval s /\ 0 <= nrd s <= 2 * nval s /\
      match r with
      | SOk v => 2 * nval s <= len pre /\ (reg_closed reg -> closed reg v) /\ vsize v <= (1 + D) * nval s + len pre
      | SErr e => 2 * nval s <= len pre + 2 /\ Eset pk (len bs + 3 <= Z.of_nat fuel) e
      end.

  Theorem dec_value_run D fuel bs : reg_defsize_le reg D -> 0 <= D ->
    match dec_value fc pk reg fuel (st0 bs) with (r, s) => run_ok D fuel bs r s end.
  Proof.
    intros HD HD0.
    pose proof (dec_value_does fc pk reg D (1 + D) fuel HD HD0 (Z.le_refl _) (len bs) (st0 bs) (Z.le_refl _)) as H.
    destruct (dec_value fc pk reg fuel (st0 bs)) as [r s]. destruct H as (pre & Hp & H).
    exists pre. cbn [st0 rem nval nrd] in *. unfold acct in H. rewrite !Z.sub_0_r in H.
    split; [exact Hp|]. destruct r; [destruct H as [[[Hc _] Hz] H] | destruct H as [He H]]; repeat split; try lia; assumption.
  Qed.

  Lemma dec_value_run' fuel bs : exists D,
    match dec_value fc pk reg fuel (st0 bs) with (r, s) => run_ok D fuel bs r s end.
  Proof. destruct (defsize_bounded reg) as (D & HD0 & HD). exists D. apply dec_value_run; assumption. Qed.

  Lemma decode_facts fuel bs :
    match decode fc pk reg fuel bs with
    | SOk (v, rest) => (exists consumed, bs = consumed ++ rest) /\ (reg_closed reg -> closed reg v)
    | SErr e => (exists x, pk x = Some e) \/
                (documented e /\ (len bs + 3 <= Z.of_nat fuel -> e <> SE ERecursion))
    end.
  Proof.
    unfold decode. destruct (dec_value_run' fuel bs) as (D & H).
    destruct (dec_value fc pk reg fuel (st0 bs)) as [[v|e] s]; destruct H as (pre & Hp & _ & _ & H); [split; [eauto|]|]; apply H.
  Qed.

  Lemma decode_size_proof D : reg_defsize_le reg D -> 0 <= D -> forall fuel bs,
    match dec_value fc pk reg fuel (st0 bs) with
    | (SOk v, s) => vsize v <= (1 + D) * nval s + (len bs - len (rem s))
    | (SErr _, _) => True
    end.
  Proof.
    intros HD HD0 fuel bs. pose proof (dec_value_run D fuel bs HD HD0) as H.
    destruct (dec_value fc pk reg fuel (st0 bs)) as [[v|e] s]; [|exact I]. destruct H as (pre & Hp & _ & _ & H).
    pose proof (f_equal len Hp) as Hl. rewrite len_app in Hl. lia.
  Qed.

  Lemma decode_bounded_proof fuel bs :
    match dec_value fc pk reg fuel (st0 bs) with
    | (r, s) =>
        0 <= nval s /\ 2 * nval s <= len bs + 2 /\
        0 <= nrd s /\ nrd s <= 2 * nval s /\
        (exists consumed, bs = consumed ++ rem s) /\
        match r with SOk _ => 2 * nval s <= len bs - len (rem s) | SErr _ => True end
    end.
  Proof.
    destruct (dec_value_run' fuel bs) as (D & H).
    destruct (dec_value fc pk reg fuel (st0 bs)) as [r s]. destruct H as (pre & Hp & Hv & Hr & H).
    pose proof (f_equal len Hp) as Hl. rewrite len_app in Hl.
    pose proof (len_nonneg (rem s)). repeat split; try lia; [destruct r; lia | eauto | destruct r; [lia | exact I]].
  Qed.

  Lemma frames_fit limit depth (bs : list byte) :
    len bs + 3 <= limit - depth -> len bs + 3 <= Z.of_nat (frames_available limit depth).
  Proof. unfold frames_available. pose proof (len_nonneg bs). lia. Qed.

  Lemma decode_alloc_proof D fuel bs v rest :
    reg_defsize_le reg D -> 0 <= D ->
    decode fc pk reg fuel bs = SOk (v, rest) ->
    2 * vsize v <= (3 + D) * (len bs - len rest) /\ len bs - len rest <= len bs.
  Proof.
    intros HD HD0. unfold decode. pose proof (dec_value_run D fuel bs HD HD0) as H.
    destruct (dec_value fc pk reg fuel (st0 bs)) as [[v'|e] s]; [|discriminate]. destruct H as (pre & Hp & Hv & _ & H).
    intros [= <- <-]. destruct H as (Hb & _ & Hz).
    pose proof (f_equal len Hp) as Hl. rewrite len_app in Hl.
    pose proof (Z.mul_le_mono_nonneg_l _ _ (1 + D) ltac:(lia) Hb). pose proof (len_nonneg (rem s)). lia.
  Qed.
End C14.

(* clause 6 of C14: single calls of dec_base and rep, for ANY decoder [sub] of the length — nothing here is about runs *)
Section OneCall.
  Variable fc : fconv.

  Lemma dec_base_len (sub : M value) f2 k cap :
    cap_of k = Some cap -> exists cont, dec_base fc sub f2 k = mbind (dec_len sub cap) cont.
  Proof. destruct k; intros [= <-]; eexists; reflexivity. Qed.

  Lemma cap_refused_proof (sub : M value) f2 k cap s v s1 n :
    cap_of k = Some cap -> sub s = (SOk v, s1) -> as_len v = Some n -> cap < n ->
    dec_base fc sub f2 k s = (SErr (SE EValue), s1).
  Proof.
    intros Hk Hsub Hl Hn. destruct (dec_base_len sub f2 k cap Hk) as [cont ->].
    unfold dec_len, mbind. rewrite Hsub, Hl. replace (cap <? n) with true by lia. reflexivity.
  Qed.

  Lemma length_not_int_proof (sub : M value) f2 k cap s v s1 :
    cap_of k = Some cap -> sub s = (SOk v, s1) -> as_len v = None ->
    dec_base fc sub f2 k s = (SErr (SE EType), s1).
  Proof.
    intros Hk Hsub Hl. destruct (dec_base_len sub f2 k cap Hk) as [cont ->].
    unfold dec_len, mbind. rewrite Hsub, Hl. reflexivity.
  Qed.

  Lemma rep_first_failure_proof {A} (m : M A) : forall i n s l si e s',
    rep i m s = (SOk l, si) -> m si = (SErr e, s') -> (i < n)%nat ->
    rep n m s = (SErr e, s').
  Proof.
    induction i as [|i IH]; intros n s l si e s' Hi Hm Hlt.
    - simpl in Hi. unfold ret in Hi. inversion Hi; subst.
      destruct n; [lia|]. simpl. unfold mbind. rewrite Hm. reflexivity.
    - destruct n; [lia|]. simpl in *. unfold mbind in *.
      destruct (m s) as [[x|e0] s0]; [|discriminate].
      destruct (rep i m s0) as [[xs|e0] s2] eqn:Hr; [|discriminate].
      unfold ret in Hi. inversion Hi; subst.
      rewrite (IH n s0 xs si e s' Hr Hm ltac:(lia)). reflexivity.
  Qed.

  Lemma bytes_returns_what_is_left_proof (sub : M value) f2 s v s1 n :
    sub s = (SOk v, s1) -> as_len v = Some n -> n <= MAXB ->
    (n < 0 \/ len (rem s1) <= n) ->
    dec_base fc sub f2 KBytes s = (SOk (VBytes (rem s1)), mkst [] (nrd s1 + 1) (nval s1)).
  Proof.
    intros Hsub Hl Hn Hall.
    assert (Hc : (MAXB <? n) = false) by lia.
    unfold dec_base, dec_len, mbind. rewrite Hsub, Hl, Hc. unfold ret. rewrite m_read_eq.
    set (k := if n <? 0 then length (rem s1) else Z.to_nat n).
    assert (Hk : (length (rem s1) <= k)%nat).
    { subst k. destruct (n <? 0) eqn:Hn0; [lia|]. unfold len in Hall. lia. }
    rewrite (firstn_all2 _ Hk), (skipn_all2 _ Hk). reflexivity.
  Qed.
End OneCall.

Section Hs.
  Variable fc : fconv.
  Variable pk : value -> option serr.
  Variable reg : registry.
  Variable tok : Z -> option nat.

  Lemma eq_int_err x n e : eq_int x n = SErr e -> e = SE EAttr.
  Proof.
    unfold eq_int. destruct x; simpl; try discriminate; try (destruct (as_num _); discriminate).
    intros H. inversion H. reflexivity.
  Qed.

  Lemma documented_attr : documented (SE EAttr).
  Proof. unfold documented. tauto. Qed.

  (* both receivers: decode, then one attribute of the result, then a comparison with an int *)
  Lemma hello_total_proof fuel version data :
    match recv_client_hello fc pk reg fuel version data with
    | HsAccept v =>
        exists t der ver base rest,
          v = VObj t [der; ver] /\ reg_find reg t = Some (CClientHello base) /\
          eq_int ver version = SOk true /\ decode fc pk reg fuel data = SOk (v, rest) /\
          (reg_closed reg -> closed reg v)
    | HsIgnore => True
    | HsRaise e => documented e \/ exists x, pk x = Some e
    end.
  Proof.
    unfold recv_client_hello. pose proof (decode_facts fc pk reg fuel data) as Hd.
    destruct (decode fc pk reg fuel data) as [[v rest]|e]; [|destruct Hd as [Hd|[Hd _]]; auto].
    destruct (client_version reg v) as [ver|] eqn:Hv; [|left; apply documented_attr].
    destruct (eq_int ver version) as [[|]|e] eqn:He;
      [|exact I|left; rewrite (eq_int_err _ _ _ He); apply documented_attr].
    unfold client_version in Hv.
    destruct v; try discriminate. destruct fields as [|der [|ver' [|? ?]]]; try discriminate.
    destruct (reg_find reg tid) as [[defs|ms|base|]|] eqn:Hf; try discriminate. injection Hv as ->.
    exists tid, der, ver, base, rest. split; [reflexivity|]. split; [exact Hf|]. split; [exact He|]. split; [reflexivity | apply Hd].
  Qed.

  Lemma challenge_total_proof fuel expected data :
    match recv_challenge fc pk reg tok fuel expected data with
    | HsAccept v =>
        exists tv rest, token_of tok v = Some tv /\ eq_int tv expected = SOk true /\
                        decode fc pk reg fuel data = SOk (v, rest) /\ (reg_closed reg -> closed reg v)
    | HsIgnore => False
    | HsRaise e => documented e \/ e = SName \/ exists x, pk x = Some e
    end.
  Proof.
    unfold recv_challenge. pose proof (decode_facts fc pk reg fuel data) as Hd.
    destruct (decode fc pk reg fuel data) as [[v rest]|e]; [|destruct Hd as [Hd|[Hd _]]; auto].
    destruct (token_of tok v) as [tv|] eqn:Hv; [|left; apply documented_attr].
    destruct (eq_int tv expected) as [[|]|e] eqn:He;
      [|auto|left; rewrite (eq_int_err _ _ _ He); apply documented_attr].
    exists tv, rest. split; [exact Hv|]. split; [exact He|]. split; [reflexivity | apply Hd].
  Qed.
End Hs.
