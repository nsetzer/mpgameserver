(* C07 / C04 / C05, the receiver's half at MESSAGE level: when an endpoint accepts a
   datagram whose messages are labelled with the sender's true message indices (Model/Net3.v: mwf —
   wire number = wire j, half-range, a label always carries the same message) and processing it
   raises no exception, then every APP message of the datagram is either appended to
   incoming_messages in that very step, or its index was flagged by the 256-bit message window
   c_bf_msg — and then a message with the same index (hence the same payload) got past the window
   earlier.  The window ghost is RecvHist.wstate / RecvHistP.W (C04's refinement, built on C08's R). *)
From Coq Require Import Lia.
From Model Require Import Base SeqNum Wire Conn RecvHist Net Net2 Net3.
From Proofs Require Import SeqNumP ConnFrameP RecvP RecvHistP.
Open Scope Z_scope.

Definition recorded (st : mghost) : Prop := forall j, In j (wacc (fst st)) -> exists c, In (j, c) (snd st).

Lemma w_dup_acc st j : w_dup 256 st j = true -> In j (wacc st) /\ wacc (w_next 256 st j) = wacc st.
Proof.
  destruct st as [[m acc]|]; cbn [w_dup w_next wacc]; [|discriminate].
  intros H. rewrite H. split; [|reflexivity].
  unfold spec_dup in H. apply andb_prop in H as [H _]. apply andb_prop in H as [H _].
  apply InB_In. exact H.
Qed.

Lemma w_fresh_acc st j : w_dup 256 st j = false -> wacc (w_next 256 st j) = j :: wacc st.
Proof. destruct st as [[m acc]|]; cbn [w_dup w_next wacc]; [intros ->|]; reflexivity. Qed.

Lemma recorded_mrec st w j : recorded st -> recorded (mrec st (w, j)).
Proof.
  intros Hrec. unfold recorded, mrec. cbn [fst snd]. destruct (w_dup 256 (fst st) j) eqn:Hd.
  - rewrite (proj2 (w_dup_acc _ _ Hd)). exact Hrec.
  - rewrite (w_fresh_acc _ _ Hd). intros j' [<-|Hj']; [eexists; left; reflexivity|].
    destruct (Hrec j' Hj') as (c0 & Hc0). exists c0. right. exact Hc0.
Qed.

Lemma mrec_step f st w j :
  W 256 f (fst st) -> recorded st -> w_seq w = wire j -> w_ok (fst st) j ->
  (forall c, In (j, c) (snd st) -> c = content w) ->
  (bf_insert f (w_seq w) = Err EDup /\ W 256 f (fst (mrec st (w, j))) /\
   snd (mrec st (w, j)) = snd st /\ In (j, content w) (snd st)) \/
  exists f', bf_insert f (w_seq w) = Ok f' /\ W 256 f' (fst (mrec st (w, j))) /\
             snd (mrec st (w, j)) = (j, content w) :: snd st.
Proof.
  intros HW Hrec -> Hok Htruth. pose proof (W_step 256 f (fst st) j ltac:(lia) HW Hok) as Hs.
  unfold mrec. cbn [fst snd]. destruct (w_dup 256 (fst st) j) eqn:Hd.
  - left. destruct (Hrec j (proj1 (w_dup_acc _ _ Hd))) as (c0 & Hc0). rewrite <- (Htruth c0 Hc0). destruct Hs. auto.
  - right. destruct Hs as (f' & Hs). exists f'. destruct Hs. auto.
Qed.

Definition inbox (c : conn) := (c_bf_msg c, c_incoming c).

Lemma recv_fragment_inbox c now s p c' o : recv_fragment c now s p = (c', o) ->
  c_bf_msg c' = c_bf_msg c /\ (exists ex, c_incoming c' = c_incoming c ++ ex) /\ ((6 <= length p)%nat -> o = []).
Proof.
  unfold recv_fragment. intros E. destruct (length p <? 6)%nat eqn:El; injection E as <- <-.
  - split; [reflexivity|]. split; [exists []; symmetry; apply app_nil_r|]. apply Nat.ltb_lt in El. lia.
  - split; [destruct (fr_complete _); reflexivity|]. split; [|reflexivity].
    destruct (fr_complete _); eexists; [reflexivity|symmetry; apply app_nil_r].
Qed.

Lemma dispatch_inbox c now w orcs c1 o1 orcs1 : dispatch c now w orcs = (c1, o1, orcs1) ->
  c_bf_msg c1 = c_bf_msg c /\
  exists ex, c_incoming c1 = c_incoming c ++ ex /\
    match w_type w with APP => ex = [(w_seq w, w_payload w)] | APP_FRAGMENT => True | _ => ex = [] end.
Proof.
  intros E.
  assert (Hsame : inbox c1 = inbox c -> c_bf_msg c1 = c_bf_msg c /\ exists ex, c_incoming c1 = c_incoming c ++ ex /\ ex = []).
  { intros K. injection K as B I. split; [exact B|]. exists []. rewrite app_nil_r. auto. }
  unfold dispatch in E. destruct (w_type w) eqn:Et.
  2-4: destruct (recv_handshake _ _ _) eqn:Eh; injection E as <- _ _; apply Hsame;
       exact (wr_keeps W_hs inbox (fun _ _ => eq_refl) (recv_handshake_wr Eh)).
  - injection E as <- _ _. apply Hsame; reflexivity.
  - injection E as <- _ _. apply Hsame; reflexivity.
  - injection E as <- _ _. apply Hsame; reflexivity.
  - injection E as <- _ _. split; [reflexivity|]. eexists. split; reflexivity.
  - destruct (recv_fragment _ _ _ _) eqn:Ef. injection E as <- _ _.
    apply recv_fragment_inbox in Ef as (B & (ex & I) & _). split; [exact B|]. exists ex. auto.
Qed.

Lemma recv_msgs_passed c now w r orcs bf c' o : bf_insert (c_bf_msg c) (w_seq w) = Ok bf ->
  recv_msgs c now (w :: r) orcs = (c', o) -> raised o = false ->
  exists c1 orcs1 o2 ex, c_bf_msg c1 = bf /\ c_incoming c1 = c_incoming c ++ ex /\
    (w_type w = APP -> ex = [(w_seq w, w_payload w)]) /\
    recv_msgs c1 now r orcs1 = (c', o2) /\ raised o2 = false.
Proof.
  intros Hins E Hnr. rewrite recv_msgs_cons, Hins in E.
  destruct (dispatch _ now w orcs) as [[c1 o1] orcs1] eqn:E1.
  apply dispatch_inbox in E1 as (B & ex & I & Happ).
  destruct (raised o1) eqn:Hr1; [injection E as <- <-; rewrite Hr1 in Hnr; discriminate|].
  destruct (recv_msgs c1 now r orcs1) as [c2 o2] eqn:E2. injection E as <- <-.
  rewrite raised_app, Hr1 in Hnr. exists c1, orcs1, o2, ex. repeat split; auto. intros Ht. rewrite Ht in Happ. exact Happ.
Qed.

Theorem recv_msgs_deliver ws : forall js c now orcs st c' o,
  length js = length ws -> W 256 (c_bf_msg c) (fst st) -> recorded st -> mwf st (combine ws js) ->
  recv_msgs c now ws orcs = (c', o) -> raised o = false ->
  let st' := fold_left mrec (combine ws js) st in
  W 256 (c_bf_msg c') (fst st') /\ recorded st' /\
  exists extra, c_incoming c' = c_incoming c ++ extra /\
    (forall j c0, In (j, c0) (snd st') ->
       In (j, c0) (snd st) \/
       exists w, In w ws /\ content w = c0 /\ (w_type w = APP -> In (w_payload w) (map snd extra))) /\
    (forall w, In w ws -> w_type w = APP ->
       In (w_payload w) (map snd extra) \/ exists j, In (j, content w) (snd st)).
Proof.
  induction ws as [|w r IH]; intros js c now orcs st c' o Hlen HW Hrec Hwf E Hnr.
  - cbn [recv_msgs] in E. injection E as <- <-. destruct js; [|discriminate]. cbn [combine fold_left].
    split; [exact HW|]. split; [exact Hrec|]. exists []. rewrite app_nil_r. split; [reflexivity|].
    split; [intros j c0 H; left; exact H|intros w []].
  - destruct js as [|j jr]; [discriminate|]. injection Hlen as Hlen.
    cbn [combine mwf fold_left fst snd] in *. destruct Hwf as (Hseq & Hok & Htruth & Hrest).
    pose proof (recorded_mrec st w j Hrec) as Hrec1.
    pose proof (mrec_step _ _ _ _ HW Hrec Hseq Hok Htruth) as Hcase. set (st1 := mrec st (w, j)) in *.
    (* either way the rest of the datagram is processed from a state whose window the ghost refines, after
       ex was appended; the index of w has a record that is w: an old one, or the new one and then w, if
       APP, is in ex *)
    assert (Hone : exists c1 orcs1 o2 ex, recv_msgs c1 now r orcs1 = (c', o2) /\ raised o2 = false /\
               W 256 (c_bf_msg c1) (fst st1) /\ c_incoming c1 = c_incoming c ++ ex /\
               ((snd st1 = snd st /\ In (j, content w) (snd st)) \/
                (snd st1 = (j, content w) :: snd st /\ (w_type w = APP -> In (w_payload w) (map snd ex))))).
    { destruct Hcase as [(Hins & HW1 & S1 & Hin)|(f' & Hins & HW1 & S1)].
      - rewrite recv_msgs_cons, Hins in E. exists c, (if is_hs (w_type w) then tl orcs else orcs), o, []. rewrite app_nil_r. auto 7.
      - destruct (recv_msgs_passed _ _ _ _ _ _ _ _ Hins E Hnr) as (c1 & orcs1 & o2 & ex & B & I & A & E2 & Hnr2).
        exists c1, orcs1, o2, ex. rewrite B. repeat split; auto. right. split; [exact S1|].
        intros Ht. rewrite (A Ht). left. reflexivity. }
    destruct Hone as (c1 & orcs1 & o2 & ex & E2 & Hnr2 & HW1 & Iex & HD).
    destruct (IH jr c1 now orcs1 st1 c' o2 Hlen HW1 Hrec1 Hrest E2 Hnr2) as (A & B & extra & C1 & C2 & C3).
    split; [exact A|]. split; [exact B|]. exists (ex ++ extra).
    split; [rewrite C1, Iex, app_assoc; reflexivity|]. rewrite map_app. split.
    + intros j0 c0 H0. destruct (C2 j0 c0 H0) as [H|(w' & H1 & H2 & H3)].
      * destruct HD as [[S1 _]|[S1 Hself]]; rewrite S1 in H; [left; exact H|].
        destruct H as [H|H]; [|left; exact H]. injection H as <- <-. right. exists w.
        split; [left; reflexivity|]. split; [reflexivity|]. intros Ht. apply in_or_app. left. exact (Hself Ht).
      * right. exists w'. split; [right; exact H1|]. split; [exact H2|].
        intros Ht. apply in_or_app. right. exact (H3 Ht).
    + intros w' [<-|Hw'] Hty.
      * destruct HD as [[_ Hin]|[_ Hself]]; [right; exists j; exact Hin|left; apply in_or_app; left; exact (Hself Hty)].
      * destruct (C3 w' Hw' Hty) as [H|(j' & H)]; [left; apply in_or_app; right; exact H|].
        destruct HD as [[S1 _]|[S1 Hself]]; rewrite S1 in H; [right; exists j'; exact H|].
        destruct H as [H|H]; [|right; exists j'; exact H].
        injection H as _ Ht Hp. left. apply in_or_app. left. rewrite <- Hp. apply Hself. congruence.
Qed.

(* recv_fragment raises EStruct (struct.error in FragmentSender.parsePayload) on a fragment shorter than its 6-byte header *)
Definition frag_ok (w : wmsg) : Prop := w_type w = APP_FRAGMENT -> (6 <= length (w_payload w))%nat.

Lemma recv_msgs_noraise ws : forall c now orcs c' o,
  has_hs ws = false -> Forall frag_ok ws -> recv_msgs c now ws orcs = (c', o) -> raised o = false.
Proof.
  induction ws as [|w r IH]; intros c now orcs c' o Hh Hf E.
  - injection E as <- <-. reflexivity.
  - rewrite recv_msgs_cons in E. unfold has_hs in Hh. cbn [existsb] in Hh. apply orb_false_elim in Hh as [Hw Hr].
    pose proof (Forall_inv Hf) as Fw. pose proof (Forall_inv_tail Hf) as Fr. unfold frag_ok in Fw.
    destruct (bf_insert (c_bf_msg c) (w_seq w)) as [bf|]; [|eapply IH; eassumption].
    destruct (dispatch _ now w orcs) as [[c1 o1] orcs'] eqn:E1.
    assert (H1 : o1 = []).
    { unfold dispatch in E1. destruct (w_type w) eqn:Et; try discriminate Hw; try (injection E1 as _ <- _; reflexivity).
      destruct (recv_fragment _ _ _ _) eqn:Ef. injection E1 as _ <- _.
      apply recv_fragment_inbox in Ef as (_ & _ & H). exact (H (Fw eq_refl)). }
    subst o1. cbn [raised existsb] in E.
    destruct (recv_msgs c1 now r orcs') as [c2 o2] eqn:E2. injection E as <- <-. cbn [app]. eapply IH; eassumption.
Qed.

Lemma open_dg_msgs key d ws : open_dgram key d = Ok ws -> dg_msgs d = ws.
Proof.
  intros E. unfold dg_msgs, body_payload.
  destruct key as [k|]; [destruct (open_sealed_payload _ _ _ E) as (p & -> & _ & D)|destruct (open_clear_payload _ _ E) as (p & -> & _ & D)];
    rewrite D; reflexivity.
Qed.

(* cb_only is RecvP's (the receive path's own wording of "callbacks and log lines only") *)
Lemma cb_only_raised o : cb_only o -> raised o = false.
Proof. intros H. apply cb_only_not_raised, cb_only_Forall, H. Qed.

Definition from_msgs (ws : list wmsg) (y : Z * list byte) : Prop :=
  exists w, In w ws /\ (w_type w = APP /\ y = (w_seq w, w_payload w) \/ w_type w = APP_FRAGMENT).

Lemma recv_msgs_appended ws : forall c now orcs c' o, recv_msgs c now ws orcs = (c', o) ->
  exists extra, c_incoming c' = c_incoming c ++ extra /\ Forall (from_msgs ws) extra.
Proof.
  induction ws as [|w r IH]; intros c now orcs c' o E.
  - injection E as <- <-. exists []. rewrite app_nil_r. auto.
  - rewrite recv_msgs_cons in E.
    assert (Hr : forall l, Forall (from_msgs r) l -> Forall (from_msgs (w :: r)) l).
    { apply Forall_impl. intros y (w' & H1 & H2). exists w'. split; [right; exact H1|exact H2]. }
    destruct (bf_insert (c_bf_msg c) (w_seq w)) as [bf|].
    2:{ destruct (IH _ _ _ _ _ E) as (ex & A & B). exists ex. auto. }
    destruct (dispatch _ now w orcs) as [[c1 o1] orcs1] eqn:E1.
    apply dispatch_inbox in E1 as (_ & ex & I1 & Hex). cbn in I1.
    assert (Hw : Forall (from_msgs (w :: r)) ex).
    { destruct (w_type w) eqn:Et; try (subst ex; apply Forall_nil).
      - subst ex. repeat constructor. exists w. split; [left; reflexivity|left; auto].
      - apply Forall_forall. intros y _. exists w. split; [left; reflexivity|right; exact Et]. }
    destruct (raised o1); [injection E as <- <-; exists ex; auto|].
    destruct (recv_msgs c1 now r orcs1) as [c2 o2] eqn:E2. injection E as <- <-.
    destruct (IH _ _ _ _ _ E2) as (ex2 & A & B). exists (ex ++ ex2). rewrite A, I1, app_assoc.
    split; [reflexivity|apply Forall_app; auto].
Qed.

Lemma keyless_opens_hello c d : c_key c = None -> opens c d = true ->
  Forall (fun w => is_hello (w_type w) = true) (dg_msgs d).
Proof.
  unfold opens. intros Hk H. apply andb_prop in H as [H1 H2]. apply Bool.negb_true_iff in H1.
  destruct (open_dgram (c_key c) d) as [ms|] eqn:Eo; [|discriminate]. rewrite (open_dg_msgs _ _ _ Eo).
  destruct (open_keyless c d ms Hk H1 Eo) as [->|(m & -> & Hm)]; repeat constructor. exact Hm.
Qed.

Lemma accepts_opens c x d : accepts c x = Some d -> dgram_in x = Some d /\ opens c d = true.
Proof.
  unfold accepts. destruct x as [|now [| |d0 orcs]|now|now d0 orcs| | | | |]; cbn [pre_recv dgram_in]; try discriminate.
  - destruct (status_eqb _ DROPPED); [discriminate|]. destruct (opens _ d0 && _) eqn:Eg; [|discriminate].
    intros H. injection H as <-. split; [reflexivity|]. apply andb_prop in Eg as [<- _]. unfold opens, keyless_refuses.
    rewrite (wr_keeps W_update c_key (fun _ _ => eq_refl) (client_update_wr (surjective_pairing _))). reflexivity.
  - destruct (opens c d0 && _) eqn:Eg; [|discriminate]. intros H. injection H as <-. apply andb_prop in Eg. tauto.
Qed.

Lemma recv_inbox c now d orcs c' o : recv c now d orcs = (c', o) ->
  if opens c d && is_ok (bf_insert (c_bf_pkt c) (h_seq (d_hdr d)))
  then exists c1 o2, inbox c1 = inbox c /\ recv_msgs c1 now (dg_msgs d) orcs = (c', o2) /\
                     (raised o = false -> raised o2 = false)
  else inbox c' = inbox c.
Proof.
  intros E. unfold opens.
  apply recv_cases in E as [(-> & _ & H)|(ms & bf & c1 & o1 & o2 & -> & Ho & -> & E1 & E2 & ->)].
  - destruct H as [->|[(er & ->)|(er & ->)]]; cbn [negb is_ok andb]; rewrite ?andb_false_r; reflexivity.
  - rewrite Ho. cbn [negb is_ok andb]. exists c1, o2. rewrite (open_dg_msgs _ _ _ Ho).
    split; [exact (wr_keeps W_resolve inbox (fun _ _ => eq_refl) (handle_ack_bits_wr E1))|].
    split; [exact E2|]. rewrite !raised_app. intros H. apply orb_false_elim in H as [_ H].
    apply orb_false_elim in H as [H _]. exact H.
Qed.

(* an event's own action leaves the inbox alone, or empties incoming_messages (get_messages, disconnect) *)
Definition emptied (c c' : conn) : Prop := c_incoming c' = c_incoming c \/ c_incoming c' = [].
Definition inbox_old (c c' : conn) (_ : list out) : Prop := c_bf_msg c' = c_bf_msg c /\ emptied c c'.

Lemma inbox_old_same c c' o : inbox c' = inbox c -> inbox_old c c' o.
Proof. intros K. injection K as B I. split; [exact B|left; exact I]. Qed.

Lemma inbox_old_trans a b c o1 o2 : inbox_old a b o1 -> inbox_old b c o2 -> inbox_old a c (o1 ++ o2).
Proof.
  intros [B1 I1] [B2 I2]. split; [congruence|]. destruct I2 as [I2|I2]; [|right; exact I2].
  destruct I1 as [I1|I1]; [left|right]; congruence.
Qed.

Lemma catom_inbox e x c c' o : catom e x c c' o -> inbox_old c c' o.
Proof.
  intros [p r k c1 o1 _ E|k _|w v ->|now hello _|_|b _|now r c1 o1 _ E|now er _]; try (apply inbox_old_same; reflexivity).
  - exact (inbox_old_same _ _ _ (wr_keeps W_send inbox (fun _ _ => eq_refl) (send_wr E))).
  - destruct (disconnect_cases c k) as [(_ & _ & ->)|(_ & ->)]; (split; [reflexivity|]); [left|right]; reflexivity.
  - exact (inbox_old_same _ _ _ (wr_keeps W_cfg inbox (fun _ _ => eq_refl) (setcfg_wr e c w v))).
  - split; [reflexivity|right; reflexivity].
  - exact (inbox_old_same _ _ _ (wr_keeps W_update inbox (fun _ _ => eq_refl) (client_update_wr E))).
Qed.

(* what a step does to the inbox: the datagram it accepts is run through recv_msgs from the inbox the step
   found, and what that leaves is what the step leaves *)
Theorem step_inbox e c x c' o : step e c x = (c', o) ->
  match accepts c x with
  | Some d => exists c1 now orcs c2 o2, inbox c1 = inbox c /\
                recv_msgs c1 now (dg_msgs d) orcs = (c2, o2) /\ (raised o = false -> raised o2 = false) /\
                inbox c' = inbox c2
  | None => c_bf_msg c' = c_bf_msg c /\ emptied c c'
  end.
Proof.
  intros E. apply step_shape in E as (c0 & c1 & o0 & o1 & ot & H0 & H1 & Ht & ->).
  assert (Kt : inbox c' = inbox c1).
  { destruct Ht as [_|c2 o2 o3 _ _ T]; [reflexivity|]. exact (wr_keeps W_tail inbox (fun _ _ => eq_refl) (tick_tail_wr T)). }
  pose proof (star_rel _ inbox_old (fun a => inbox_old_same a a [] eq_refl) inbox_old_trans (catom_inbox e x) _ _ _ H0) as K0.
  unfold accepts. destruct H1 as [Hp|now d orcs c2 o1 o1' Hp Hx Er]; rewrite Hp.
  - exact (inbox_old_trans _ _ _ o0 [] K0 (inbox_old_same _ _ _ Kt)).
  - (* the datagram reaches _recv_datagram in the state the step found, or after the client's timers *)
    assert (K : inbox c0 = inbox c).
    { destruct Hx as [(_ & -> & _)|(_ & -> & _)]; [reflexivity|].
      exact (wr_keeps W_update inbox (fun _ _ => eq_refl) (client_update_wr (surjective_pairing _))). }
    apply recv_inbox in Er. destruct (opens c0 d && _).
    + destruct Er as (cm & om & Km & Em & Hr). exists cm, now, orcs, c2, om.
      split; [congruence|]. split; [exact Em|]. split; [|exact Kt]. intros Hnr. apply Hr.
      rewrite !raised_app in Hnr. apply orb_false_elim in Hnr as [_ Hnr]. apply orb_false_elim in Hnr as [Hnr _].
      destruct Hx as [(_ & _ & ->)|(_ & _ & ->)]; [exact Hnr|rewrite <- Hnr; symmetry; apply raised_filter_ret].
    + apply (inbox_old_same c c' []). congruence.
Qed.
