(* Dict and set insertion under Python equality (py_eq of Model/Ser.v).  Both insertions are one scan
   for the first element equal to the new one: mem_py is that scan, dict_set is the same scan over
   the keys (dict_set_mem), so what can go wrong is said once, of mem_py. *)
From Coq Require Import Lia ZifyBool.
From Model Require Import Base Ser.
From Proofs Require Import BytesP.
Open Scope Z_scope.

(* not a tuple under its enum wrappers: core_eq is only undefined (outside the model) on tuples *)
Definition ntop (v : value) : Prop := forall l, strip v <> VTuple l.

Lemma core_eq_ok a b : (forall l, a <> VTuple l) -> exists r, core_eq a b = SOk r.
Proof.
  intros Ha. destruct a; try (exfalso; eapply Ha; reflexivity); destruct b; cbn; eauto.
Qed.

(* SerializableEnum.__eq__ raises AttributeError only against a value of another enum depth *)
Lemma py_eq_ntop a b : ntop a ->
  (exists r, py_eq a b = SOk r) \/ (py_eq a b = SErr (SE EAttr) /\ edepth a <> edepth b).
Proof.
  intros Ha. unfold py_eq. destruct (core_eq_ok (strip a) (strip b) Ha) as [r ->].
  destruct (edepth a =? edepth b) eqn:Hd; [eauto|]. cbn [sbind].
  destruct r; [right; split; [reflexivity | lia] | eauto].
Qed.

Lemma mem_py_err x l e : mem_py x l = SErr e -> exists y, In y l /\ py_eq y x = SErr e.
Proof.
  induction l as [|y l IH]; cbn [mem_py]; [discriminate|].
  destruct (py_eq y x) as [[|]|e'] eqn:Hy; cbn [sbind]; [discriminate | |].
  - intros H. destruct (IH H) as (z & Hz & Ez). exists z. split; [right; exact Hz | exact Ez].
  - intros [= ->]. exists y. split; [left; reflexivity | exact Hy].
Qed.

Lemma mem_py_fresh x l : Forall (fun y => py_eq y x = SOk false) l -> mem_py x l = SOk false.
Proof. induction 1 as [|y r Hy _ IH]; [reflexivity|]. cbn [mem_py]. rewrite Hy. exact IH. Qed.

Lemma mem_py_ntop x l e : Forall ntop l -> mem_py x l = SErr e -> e = SE EAttr.
Proof.
  intros Hl H. apply mem_py_err in H as (y & Hy & Ey). rewrite Forall_forall in Hl.
  destruct (py_eq_ntop y x (Hl y Hy)) as [[r Hr]|[Hr _]]; congruence.
Qed.

(* obj[k] = v: an equal key keeps its place and gets the value *)
Lemma dict_set_mem d k v :
  match mem_py k (map fst d) with
  | SOk false => dict_set d k v = SOk (d ++ [(k, v)])
  | SOk true => exists pre k0 v0 post, d = pre ++ (k0, v0) :: post /\ dict_set d k v = SOk (pre ++ (k0, v) :: post)
  | SErr e => dict_set d k v = SErr e
  end.
Proof.
  induction d as [|[k0 v0] d IH]; cbn [map fst mem_py dict_set]; [reflexivity|].
  destruct (py_eq k0 k) as [[|]|e]; cbn [sbind]; [exists [], k0, v0, d; split; reflexivity | | reflexivity].
  destruct (mem_py k (map fst d)) as [[|]|e].
  - destruct IH as (pre & k1 & v1 & post & -> & ->). exists ((k0, v0) :: pre), k1, v1, post. split; reflexivity.
  - rewrite IH. reflexivity.
  - rewrite IH. reflexivity.
Qed.

Lemma dict_put_spec d k v :
  match dict_put d k v with
  | SOk d' => d' = d ++ [(k, v)] \/ exists pre k0 v0 post, d = pre ++ (k0, v0) :: post /\ d' = pre ++ (k0, v) :: post
  | SErr e => (hashable k = false /\ e = SE EType) \/ mem_py k (map fst d) = SErr e
  end.
Proof.
  unfold dict_put. destruct (hashable k); [|left; split; reflexivity].
  pose proof (dict_set_mem d k v) as H. destruct (mem_py k (map fst d)) as [[|]|e].
  - destruct H as (pre & k0 & v0 & post & Hd & ->). right. exists pre, k0, v0, post. split; [exact Hd | reflexivity].
  - rewrite H. left. reflexivity.
  - rewrite H. right. reflexivity.
Qed.

Lemma set_add_spec s x :
  match set_add s x with
  | SOk s' => s' = s \/ s' = s ++ [x]
  | SErr e => (hashable x = false /\ e = SE EType) \/ mem_py x s = SErr e
  end.
Proof.
  unfold set_add. destruct (hashable x); [|left; split; reflexivity].
  destruct (mem_py x s) as [[|]|e]; cbn [sbind]; auto.
Qed.

Lemma dict_put_kvall (PK PV : value -> Prop) d k v d' :
  dict_put d k v = SOk d' -> kvall PK PV d -> PK k -> PV v -> kvall PK PV d'.
Proof.
  intros H Hd Hk Hv. pose proof (dict_put_spec d k v) as S. rewrite H in S.
  rewrite kvall_Forall in *. destruct S as [->|(pre & k0 & v0 & post & -> & ->)].
  - apply Forall_app. split; [exact Hd | constructor; [split; assumption | constructor]].
  - apply Forall_app in Hd as [Hpre Hpost]. apply Forall_app. split; [exact Hpre|].
    inversion Hpost as [|? ? [Hk0 _] Hpost']; subst. constructor; [split; assumption | exact Hpost'].
Qed.

Lemma dict_put_keys d k v d' : dict_put d k v = SOk d' -> map fst d' = map fst d \/ map fst d' = map fst d ++ [k].
Proof.
  intros H. pose proof (dict_put_spec d k v) as S. rewrite H in S.
  destruct S as [->|(pre & k0 & v0 & post & -> & ->)]; rewrite !map_app; [right|left]; reflexivity.
Qed.

Lemma set_add_lall (P : value -> Prop) s x s' : set_add s x = SOk s' -> lall P s -> P x -> lall P s'.
Proof.
  intros H Hs Hx. pose proof (set_add_spec s x) as S. rewrite H in S. destruct S as [->| ->]; [exact Hs|].
  rewrite lall_Forall in *. apply Forall_app. split; [exact Hs | constructor; [exact Hx | constructor]].
Qed.

(* What insertion raises among values that are not tuples: the new one is unhashable
   (TypeError), or an enum meets another enum depth (AttributeError) *)
Lemma dict_put_err d k v e : Forall ntop (map fst d) -> dict_put d k v = SErr e -> e = SE EAttr \/ e = SE EType.
Proof.
  intros Hd H. pose proof (dict_put_spec d k v) as S. rewrite H in S.
  destruct S as [[_ ->]|S]; [right; reflexivity | left; exact (mem_py_ntop _ _ _ Hd S)].
Qed.

Lemma set_add_err s x e : Forall ntop s -> set_add s x = SErr e -> e = SE EAttr \/ e = SE EType.
Proof.
  intros Hs H. pose proof (set_add_spec s x) as S. rewrite H in S.
  destruct S as [[_ ->]|S]; [right; reflexivity | left; exact (mem_py_ntop _ _ _ Hs S)].
Qed.
