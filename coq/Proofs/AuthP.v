(* Lemmas about Model/Auth.v, up to the exact behaviour of [prepare] (the parsing half of
   verify_password) on a string with four fields. *)
From Coq Require Import Lia ZifyBool.
From Model Require Import Base Base64 Auth.
From Proofs Require Import BytesP.
Open Scope Z_scope.

(* Auth.bytes_eqb is [list_eqb Byte.eqb] *)
Lemma bytes_eqb_eq : forall a b, bytes_eqb a b = true <-> a = b.
Proof. exact (list_eqb_eq _ Byte_eqb_spec). Qed.

Lemma bytes_eqb_refl : forall a, bytes_eqb a a = true.
Proof. exact (list_eqb_refl _ Byte_eqb_spec). Qed.

Lemma bytes_eqb_neq : forall a b, a <> b -> bytes_eqb a b = false.
Proof. exact (list_eqb_neq _ Byte_eqb_spec). Qed.

Lemma split_on_nonempty : forall s l, exists p ps, split_on s l = p :: ps.
Proof.
  intros s l. induction l as [|c l [p [ps IH]]]; cbn [split_on].
  - eauto.
  - rewrite IH. destruct (Byte.eqb c s); eauto.
Qed.

Lemma split_on_nosep : forall s l, ~ In s l -> split_on s l = [l].
Proof.
  intros s l. induction l as [|c l IH]; intro H; cbn [split_on]; [reflexivity|].
  rewrite IH by (intro; apply H; right; assumption).
  destruct (Byte_eqb_spec c s) as [E|_]; [|reflexivity]. exfalso. apply H. left. exact E.
Qed.

Lemma split_on_app : forall s a b, ~ In s a -> split_on s (a ++ s :: b) = a :: split_on s b.
Proof.
  intros s a b. induction a as [|c a IH]; intro H; cbn [app split_on].
  - destruct (split_on_nonempty s b) as [p [ps E]]. rewrite E.
    destruct (Byte_eqb_spec s s); [reflexivity|contradiction].
  - rewrite IH by (intro; apply H; right; assumption).
    destruct (Byte_eqb_spec c s) as [E|_]; [|reflexivity]. exfalso. apply H. left. exact E.
Qed.

(* the inverse of split: b':'.join(parts) *)
Fixpoint join (s : byte) (parts : list (list byte)) : list byte :=
  match parts with
  | [] => []
  | [p] => p
  | p :: ps => p ++ s :: join s ps
  end.

Lemma split_on_inv : forall s l, join s (split_on s l) = l /\ Forall (fun p => ~ In s p) (split_on s l).
Proof.
  intros s l. induction l as [|c l [J F]]; cbn [split_on].
  - split; [reflexivity|]. constructor; [intros []|constructor].
  - destruct (split_on_nonempty s l) as [p [ps E]]. rewrite E in *. pose proof F as [Np Fps]%Forall_cons_iff.
    destruct (Byte_eqb_spec c s) as [->|Nc].
    + split; [cbn [join app]; cbn [join] in J; rewrite J; reflexivity|].
      constructor; [intros []|exact F].
    + split; [destruct ps; cbn [join app] in *; rewrite J; reflexivity|].
      constructor; [|exact Fps]. intros [H|H]; [exact (Nc H) | exact (Np H)].
Qed.

Lemma split_firstn_app : forall s a b n, ~ In s a ->
  split_on s (firstn n (a ++ s :: b)) =
  if (n <=? length a)%nat then [firstn n a] else a :: split_on s (firstn (n - length a - 1) b).
Proof.
  intros s a b n H. rewrite firstn_app. destruct (n <=? length a)%nat eqn:E.
  - apply Nat.leb_le in E. replace (n - length a)%nat with 0%nat by lia. cbn [firstn]. rewrite app_nil_r.
    apply split_on_nosep. intro G. apply H. eapply In_firstn; eassumption.
  - apply Nat.leb_gt in E. rewrite firstn_all2 by lia.
    remember (n - length a - 1)%nat as k eqn:Ek.
    replace (n - length a)%nat with (S k) by lia. cbn [firstn].
    apply split_on_app. exact H.
Qed.

(* the values struct.pack(">HBBBB", ...) accepts *)
Definition params_in_range (k : kparams) : Prop :=
  0 <= k_N k <= 65535 /\ 0 <= k_r k <= 255 /\ 0 <= k_p k <= 255 /\ 0 <= k_sl k <= 255 /\ 0 <= k_len k <= 255.

Lemma unpack_result : forall b,
  match unpack_params b with
  | Ok k => params_in_range k
  | Err e => e = EValue
  end.
Proof.
  intro b. unfold unpack_params.
  destruct b as [|b0 [|b1 [|b2 [|b3 [|b4 [|b5 [|b6 r]]]]]]]; try reflexivity.
  unfold params_in_range; cbn [k_N k_r k_p k_sl k_len].
  pose proof (Z_of_byte_range b0). pose proof (Z_of_byte_range b1). pose proof (Z_of_byte_range b2).
  pose proof (Z_of_byte_range b3). pose proof (Z_of_byte_range b4). pose proof (Z_of_byte_range b5). lia.
Qed.

Lemma unpack_pack : forall k, params_in_range k -> unpack_params (pack_params k) = Ok k.
Proof.
  intros [N r p sl ln] H. unfold params_in_range in H. cbn [k_N k_r k_p k_sl k_len] in H.
  unfold pack_params, unpack_params. cbn [k_N k_r k_p k_sl k_len]. rewrite !Z_of_byte_of_Z.
  f_equal. f_equal; Z.to_euclidean_division_equations; lia.
Qed.

Lemma pack_params_inj : forall k1 k2, params_in_range k1 -> params_in_range k2 ->
  pack_params k1 = pack_params k2 -> k1 = k2.
Proof.
  intros k1 k2 R1 R2 E. apply unpack_pack in R1, R2. rewrite E in R1. congruence.
Qed.

Lemma lit_no_colon : ~ In colon lit_scrypt /\ ~ In colon lit_1.
Proof. split; intro H; repeat (destruct H as [H|H]; [discriminate H|]); exact H. Qed.

(* the shape of the string hash_password builds *)
Definition hash_string (f2 f3 : list byte) : list byte :=
  lit_scrypt ++ colon :: lit_1 ++ colon :: f2 ++ colon :: f3.

Lemma split_hash_string : forall f2 f3, ~ In colon f2 -> ~ In colon f3 ->
  split_on colon (hash_string f2 f3) = [lit_scrypt; lit_1; f2; f3].
Proof.
  intros f2 f3 H2 H3. unfold hash_string. destruct lit_no_colon as [Hs H1].
  rewrite split_on_app by exact Hs. rewrite split_on_app by exact H1.
  rewrite split_on_app by exact H2. rewrite split_on_nosep by exact H3. reflexivity.
Qed.

Lemma hash_string_inj : forall f2 f3 g2 g3,
  ~ In colon f2 -> ~ In colon f3 -> ~ In colon g2 -> ~ In colon g3 ->
  hash_string f2 f3 = hash_string g2 g3 -> f2 = g2 /\ f3 = g3.
Proof.
  intros f2 f3 g2 g3 F2 F3 G2 G3 E. pose proof (split_hash_string f2 f3 F2 F3) as S.
  rewrite E, split_hash_string in S by assumption. inversion S. auto.
Qed.

Lemma split_truncated : forall f2 f3 n, ~ In colon f2 -> ~ In colon f3 ->
  (n < length (hash_string f2 f3))%nat ->
  length (split_on colon (firstn n (hash_string f2 f3))) <> 4%nat \/
  exists m, (m < length f3)%nat /\ split_on colon (firstn n (hash_string f2 f3)) = [lit_scrypt; lit_1; f2; firstn m f3].
Proof.
  intros f2 f3 n H2 H3 Hn. unfold hash_string in *. destruct lit_no_colon as [Hs H1].
  rewrite split_firstn_app by exact Hs.
  destruct (n <=? length lit_scrypt)%nat eqn:E0; [left; discriminate|].
  rewrite split_firstn_app by exact H1.
  destruct (_ <=? length lit_1)%nat eqn:E1; [left; discriminate|].
  rewrite split_firstn_app by exact H2.
  destruct (_ <=? length f2)%nat eqn:E2; [left; discriminate|].
  right. exists (n - length lit_scrypt - 1 - length lit_1 - 1 - length f2 - 1)%nat.
  apply Nat.leb_gt in E0, E1, E2.
  repeat (rewrite app_length in Hn; cbn [length] in Hn).
  split; [lia|].
  rewrite split_on_nosep; [reflexivity|]. intro G. apply H3. eapply In_firstn; eassumption.
Qed.

Section Prepare.
  Variable b64d : list byte -> res (list byte).

  Definition prepared_of (k : kparams) (data : list byte) : prepared :=
    {| q_salt := firstn (Z.to_nat (k_sl k)) data; q_len := k_len k; q_N := k_N k; q_r := k_r k;
       q_p := k_p k; q_expected := skipn (Z.to_nat (k_sl k)) data |}.

  Lemma prepare_four : forall h f0 f1 f2 f3,
    split_on colon h = [f0; f1; f2; f3] ->
    prepare b64d h =
      (do params <- b64d f2;
       do data <- b64d f3;
       if negb (bytes_eqb f0 lit_scrypt) || negb (bytes_eqb f1 lit_1) then Err EValue else
       do k <- unpack_params params;
       if (k_len k <? 1) || negb (k_sl k + k_len k =? len data) then Err EValue else
       Ok (prepared_of k data)).
  Proof.
    intros h f0 f1 f2 f3 E. unfold prepare. rewrite E. reflexivity.
  Qed.

  Lemma prepare_not_four : forall h, length (split_on colon h) <> 4%nat -> prepare b64d h = Err EValue.
  Proof.
    intros h H. unfold prepare. destruct (Nat.eqb_spec (length (split_on colon h)) 4); [contradiction|reflexivity].
  Qed.

  Lemma prepare_result : forall h,
    match prepare b64d h with
    | Ok q =>
        exists f2 f3 params data k,
          split_on colon h = [lit_scrypt; lit_1; f2; f3] /\
          b64d f2 = Ok params /\ b64d f3 = Ok data /\ unpack_params params = Ok k /\
          1 <= k_len k /\ k_sl k + k_len k = len data /\ q = prepared_of k data
    | Err e => b64_err_value b64d -> e = EValue
    end.
  Proof.
    intro h. destruct (Nat.eq_dec (length (split_on colon h)) 4) as [L|L];
      [|rewrite prepare_not_four by exact L; reflexivity].
    destruct (split_on colon h) as [|f0 [|f1 [|f2 [|f3 [|f4 r]]]]] eqn:E; try discriminate L.
    rewrite (prepare_four _ _ _ _ _ E).
    destruct (b64d f2) as [params|e2] eqn:E2; cbn [bind]; [|intro HB; exact (HB _ _ E2)].
    destruct (b64d f3) as [data|e3] eqn:E3; cbn [bind]; [|intro HB; exact (HB _ _ E3)].
    destruct (bytes_eqb f0 lit_scrypt) eqn:B0; cbn [negb orb]; [|reflexivity].
    destruct (bytes_eqb f1 lit_1) eqn:B1; cbn [negb orb]; [|reflexivity].
    apply bytes_eqb_eq in B0, B1. subst f0 f1.
    pose proof (unpack_result params) as U.
    destruct (unpack_params params) as [k|ek] eqn:Ek; cbn [bind]; [|intros _; exact U].
    destruct ((k_len k <? 1) || negb (k_sl k + k_len k =? len data)) eqn:C; [reflexivity|].
    exists f2, f3, params, data, k. repeat split; auto; lia.
  Qed.

  Lemma prepare_hash_string : forall f2 f3 params data k,
    ~ In colon f2 -> ~ In colon f3 ->
    b64d f2 = Ok params -> b64d f3 = Ok data -> unpack_params params = Ok k ->
    prepare b64d (hash_string f2 f3) =
      if (k_len k <? 1) || negb (k_sl k + k_len k =? len data) then Err EValue else Ok (prepared_of k data).
  Proof.
    intros f2 f3 params data k H2 H3 E2 E3 Ek.
    rewrite (prepare_four _ _ _ _ _ (split_hash_string f2 f3 H2 H3)).
    rewrite E2, E3. cbn [bind]. rewrite !bytes_eqb_refl. cbn [negb orb]. rewrite Ek. reflexivity.
  Qed.
End Prepare.
