(* The connection's accept / process decisions along a receive history are those of the
   two abstract windows. *)
From Model Require Import Base SeqNum Wire Conn RecvSpec RecvHist.
From Proofs Require Import RecvHistP.
Open Scope Z_scope.

(* the call returned False *)
Definition dropped_out (o : list out) : bool :=
  match last o (ORet true) with ORet b => negb b | _ => false end.

(* One induction over the history gives all of C04_exact, from any pair of window states and for
   any two window widths. *)
Lemma run_g_spec nbp nbm k : 1 <= nbp -> 1 <= nbm -> forall l c stp stm,
  c_key c = Some k -> W nbp (c_bf_pkt c) stp -> W nbm (c_bf_msg c) stm -> Forall (good k) l ->
  w_half nbp stp (map a_n l) ->
  w_half nbm stm (presented (w_hist nbp stp (map a_n l)) l) ->
  let pf := w_hist nbp stp (map a_n l) in
  let '(c', acc, p) := run_g c l in
  acc = fresh_of pf (map a_n l)
  /\ p = fresh_of (w_hist nbm stm (presented pf l)) (presented pf l)
  /\ fst (run_recv c l) = c'
  /\ map dropped_out (snd (run_recv c l)) = pf.
Proof.
  intros Hnbp Hnbm. induction l as [|a r IH]; intros c stp stm Hk HWp HWm Hg Hhp Hhm; cbn zeta.
  - cbn. auto.
  - inversion Hg as [|? ? Hga Hgr]; subst.
    cbn [map w_half] in Hhp. destruct Hhp as [Hok Hhp].
    cbn [map w_hist presented] in Hhm |- *.
    pose proof (recv_g_W nbp nbm Hnbp Hnbm k c a stp stm Hk Hga HWp HWm Hok) as Hstep.
    pose proof (recv_g_erase k c a Hk Hga) as Her.
    cbn [run_g run_recv].
    destruct (recv_g c a) as [[[c1 o] acc] p].
    rewrite Her.
    destruct (w_dup nbp stp (a_n a)) eqn:Hdup.
    + destruct Hstep as (Hk1 & HWp1 & -> & -> & -> & -> & HWm1); [intros; discriminate|].
      specialize (IH (bump c) _ stm Hk1 HWp1 HWm1 Hgr Hhp Hhm). cbv zeta in IH.
      destruct (run_g (bump c) r) as [[c2 ns] js].
      destruct (run_recv (bump c) r) as [c2' os]. cbn [fst snd] in *.
      destruct IH as (A & B & C & D). cbn [fresh_of app map]. rewrite D. auto.
    + apply w_half_app in Hhm as [Hh1 Hh2].
      destruct Hstep as (Hk1 & HWp1 & -> & -> & HWm1 & [o' ->]); [intros; exact Hh1|].
      specialize (IH c1 _ _ Hk1 HWp1 HWm1 Hgr Hhp Hh2). cbv zeta in IH.
      destruct (run_g c1 r) as [[c2 ns] js].
      destruct (run_recv c1 r) as [c2' os]. cbn [fst snd] in *.
      destruct IH as (A & B & C & D). cbn [fresh_of map].
      rewrite w_hist_app, fresh_of_app by apply w_hist_length.
      rewrite A, B, D. unfold dropped_out at 1. rewrite last_last. auto.
Qed.
