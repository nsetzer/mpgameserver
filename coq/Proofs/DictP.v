(* The insertion-ordered dictionaries of Model/Conn.v (dget / dset / ddel over association lists keyed
   by Z), zmem and opt_list. *)
From Coq Require Import Lia.
From Model Require Import Base Conn.
Open Scope Z_scope.

Section Dict.
  Context {A : Type}.
  Implicit Types (d : list (Z * A)) (k : Z).

  Lemma dget_dset k k' (v : A) d : dget k' (dset k v d) = if k' =? k then Some v else dget k' d.
  Proof.
    induction d as [|[k0 v0] r IH]; cbn [dset dget].
    - destruct (k' =? k); reflexivity.
    - destruct (k =? k0) eqn:E0; cbn [dget].
      + apply Z.eqb_eq in E0. subst k0. destruct (k' =? k); reflexivity.
      + destruct (k' =? k0) eqn:E1; [|exact IH].
        apply Z.eqb_eq in E1. subst k0. assert (k' =? k = false) as -> by lia. reflexivity.
  Qed.

  Lemma dget_filter k (P : Z * A -> bool) d :
    (forall v, dget k d = Some v -> P (k, v) = true) -> dget k (filter P d) = dget k d.
  Proof.
    induction d as [|[k1 v1] d IH]; intros H; [reflexivity|]. cbn [filter dget] in *.
    destruct (k =? k1) eqn:E.
    - assert (k1 = k) by lia. subst k1. rewrite (H v1 eq_refl). cbn [dget]. rewrite E. reflexivity.
    - destruct (P (k1, v1)); cbn [dget]; rewrite ?E; apply IH; exact H.
  Qed.

  Lemma dget_filter_none k (P : Z * A -> bool) d : dget k d = None -> dget k (filter P d) = None.
  Proof. intros H. rewrite dget_filter; [exact H|]. rewrite H. discriminate. Qed.

  Lemma dget_ddel k k' d : dget k' (ddel k d) = if k' =? k then None else dget k' d.
  Proof.
    unfold ddel. induction d as [|[k0 v0] r IH]; cbn [filter dget fst].
    - destruct (k' =? k); reflexivity.
    - destruct (k0 =? k) eqn:E0; cbn [negb dget].
      + rewrite IH. apply Z.eqb_eq in E0. subst k0. destruct (k' =? k); reflexivity.
      + destruct (k' =? k0) eqn:E1; [|exact IH].
        apply Z.eqb_eq in E1. subst k0. assert (k' =? k = false) as -> by lia. reflexivity.
  Qed.

  Lemma dget_dset_same k (v : A) d : dget k (dset k v d) = Some v.
  Proof. rewrite dget_dset, Z.eqb_refl. reflexivity. Qed.
  Lemma dget_dset_other k k' (v : A) d : k <> k' -> dget k (dset k' v d) = dget k d.
  Proof. intros H. rewrite dget_dset. replace (k =? k') with false by lia. reflexivity. Qed.
  Lemma dget_ddel_same k d : dget k (ddel k d) = None.
  Proof. rewrite dget_ddel, Z.eqb_refl. reflexivity. Qed.
  Lemma dget_ddel_other k k' d : k <> k' -> dget k (ddel k' d) = dget k d.
  Proof. intros H. rewrite dget_ddel. replace (k =? k') with false by lia. reflexivity. Qed.

  Lemma dget_In k d v : dget k d = Some v -> In (k, v) d.
  Proof.
    induction d as [|[k' v'] r IH]; cbn [dget]; [discriminate|].
    destruct (k =? k') eqn:E; [intros H; injection H as ->; apply Z.eqb_eq in E; subst; left; reflexivity|].
    intros H. right. apply IH. exact H.
  Qed.

  Lemma dget_None_keys k d : dget k d = None <-> ~ In k (map fst d).
  Proof.
    induction d as [|[k' v'] r IH]; cbn [dget map fst In]; [tauto|].
    destruct (k =? k') eqn:E; [split; [discriminate|intros H; exfalso; apply H; left; lia]|].
    rewrite IH. split; [intros H [H'|H']; [lia|auto]|tauto].
  Qed.

  Lemma ddel_In k d x : In x (ddel k d) -> In x d /\ fst x <> k.
  Proof. unfold ddel. intros H. apply filter_In in H as [H1 H2]. split; [exact H1|]. lia. Qed.
  Lemma In_ddel k d x : In x d -> fst x <> k -> In x (ddel k d).
  Proof. unfold ddel. intros H1 H2. apply filter_In. split; [exact H1|]. lia. Qed.

  Lemma dset_In k (v : A) d x : In x (dset k v d) -> x = (k, v) \/ In x d.
  Proof.
    induction d as [|[k' v'] r IH]; cbn [dset]; [intros [<-|[]]; left; reflexivity|].
    destruct (k =? k'); intros [<-|H]; auto. { right. right. exact H. } { right. left. reflexivity. }
    destruct (IH H); auto. right. right. assumption.
  Qed.
  Lemma In_dset k (v : A) d x : In x d -> fst x <> k -> In x (dset k v d).
  Proof.
    induction d as [|[k' v'] r IH]; cbn [dset]; [intros []|].
    intros [<-|H] Hk; cbn [fst] in *.
    - destruct (k =? k') eqn:E; [lia|left; reflexivity].
    - destruct (k =? k'); right; auto.
  Qed.

  Lemma fold_ddel_In ms : forall d x, In x (fold_left (fun d m => ddel m d) ms d) -> In x d.
  Proof.
    induction ms as [|m ms IH]; intros d x H; [exact H|]. cbn [fold_left] in H. apply IH in H. apply ddel_In in H as [H _]. exact H.
  Qed.
  Lemma fold_ddel_nil ms : fold_left (fun d m => ddel m d) ms (@nil (Z * A)) = [].
  Proof. induction ms; cbn; auto. Qed.

  Lemma fold_dset_In {B} (key : B -> Z) (val : B -> A) ms : forall d x,
    In x (fold_left (fun d m => dset (key m) (val m) d) ms d) -> In x d \/ exists m, In m ms /\ x = (key m, val m).
  Proof.
    induction ms as [|m r IH]; intros d x Hx; cbn [fold_left] in Hx; [left; exact Hx|].
    destruct (IH _ _ Hx) as [H|(m' & H1 & H2)]; [|right; exists m'; split; [right; exact H1|exact H2]].
    apply dset_In in H as [->|H]; [right; exists m; split; [left|]; reflexivity|left; exact H].
  Qed.

  Lemma Forall_ddel (P : Z * A -> Prop) k d : Forall P d -> Forall P (ddel k d).
  Proof. rewrite !Forall_forall. intros H x Hx. apply ddel_In in Hx as [Hx _]. auto. Qed.
  Lemma Forall_dset (P : Z * A -> Prop) k v d : Forall P d -> P (k, v) -> Forall P (dset k v d).
  Proof. rewrite !Forall_forall. intros H Hv x Hx. apply dset_In in Hx as [->|Hx]; auto. Qed.
  Lemma Forall_fold_ddel (P : Z * A -> Prop) ms d : Forall P d -> Forall P (fold_left (fun d m => ddel m d) ms d).
  Proof. rewrite !Forall_forall. intros H x Hx. apply fold_ddel_In in Hx. auto. Qed.
  Lemma Forall_fold_dset {B} (P : Z * A -> Prop) (key : B -> Z) (val : B -> A) ms d :
    Forall P d -> Forall (fun m => P (key m, val m)) ms -> Forall P (fold_left (fun d m => dset (key m) (val m) d) ms d).
  Proof.
    rewrite !Forall_forall. intros H Hm x Hx. apply fold_dset_In in Hx as [Hx|(m & Hin & ->)]; auto.
  Qed.
  Lemma Forall_dget (P : Z * A -> Prop) k d v : Forall P d -> dget k d = Some v -> P (k, v).
  Proof. rewrite Forall_forall. intros H E. apply H, dget_In, E. Qed.

  Lemma ddel_keys k d : map fst (ddel k d) = filter (fun x => negb (x =? k)) (map fst d).
  Proof. unfold ddel. induction d as [|[k' v] r IH]; cbn; [reflexivity|]. destruct (k' =? k); cbn; rewrite IH; reflexivity. Qed.

  Lemma ddel_not_in k d : ~ In k (map fst d) -> ddel k d = d.
  Proof.
    unfold ddel. induction d as [|[k' v] r IH]; cbn; intros H; [reflexivity|].
    destruct (k' =? k) eqn:E; [exfalso; apply H; left; lia|]. cbn. f_equal. apply IH. intros Hin. apply H. right. exact Hin.
  Qed.

  Lemma ddel_NoDup k d : NoDup (map fst d) -> NoDup (map fst (ddel k d)).
  Proof. intros H. rewrite ddel_keys. apply NoDup_filter. exact H. Qed.

  Lemma ddel_len k d : NoDup (map fst d) -> In k (map fst d) -> len (ddel k d) = len d - 1.
  Proof.
    unfold len. induction d as [|[k' v] r IH]; cbn [map fst In]; intros ND Hin; [destruct Hin|].
    inversion ND as [|? ? Hni ND']; subst. unfold ddel. cbn [filter fst].
    destruct (k' =? k) eqn:E.
    - apply Z.eqb_eq in E. subst k'. cbn [negb]. fold (ddel k r). rewrite (ddel_not_in k r Hni). cbn [length]. lia.
    - cbn [negb length]. fold (ddel k r). destruct Hin as [->|Hin]; [lia|]. specialize (IH ND' Hin). cbn [length]. lia.
  Qed.

  Lemma in_keys_ddel k k' d : k' <> k -> In k' (map fst d) -> In k' (map fst (ddel k d)).
  Proof. intros Hn H. rewrite ddel_keys. apply filter_In. split; [exact H|lia]. Qed.

  Lemma dset_new_len k (v : A) d : ~ In k (map fst d) -> len (dset k v d) = len d + 1 /\ map fst (dset k v d) = map fst d ++ [k].
  Proof.
    unfold len. induction d as [|[k' v'] r IH]; cbn [dset map fst In length]; intros H; [split; reflexivity|].
    destruct (k =? k') eqn:E; [exfalso; apply H; left; lia|].
    destruct IH as [I1 I2]; [intros Hin; apply H; right; exact Hin|]. cbn [length map fst]. split; [lia|]. rewrite I2. reflexivity.
  Qed.

  Lemma keys_dset k (v : A) d x : In x (map fst d) -> In x (map fst (dset k v d)).
  Proof.
    induction d as [|[k' v'] r IH]; cbn [dset map fst In]; [intros []|].
    destruct (k =? k') eqn:E; cbn [map fst In]; [intros [->|H]; [left; lia|right; exact H]|].
    intros [->|H]; [left; reflexivity|right; auto].
  Qed.
  Lemma key_dset_self k (v : A) d : In k (map fst (dset k v d)).
  Proof. apply (in_map fst _ (k, v)), dget_In, dget_dset_same. Qed.
End Dict.

Lemma zmem_cons x y l : zmem x (y :: l) = (x =? y) || zmem x l.
Proof. reflexivity. Qed.

Lemma zmem_In x l : zmem x l = true <-> In x l.
Proof.
  unfold zmem. rewrite existsb_exists. split.
  - intros (y & I & E). apply Z.eqb_eq in E. congruence.
  - intros I. exists x. split; [exact I|apply Z.eqb_refl].
Qed.

Lemma opt_list_In {A} (l : list (option A)) x : In (Some x) l <-> In x (opt_list l).
Proof.
  induction l as [|[y|] r IH]; cbn [opt_list In]; [tauto| |].
  - rewrite <- IH. split; intros [H|H]; auto; left; congruence.
  - rewrite <- IH. split; [intros [H|H]; [discriminate|exact H]|auto].
Qed.
