(* C07, the sender's custody link at MESSAGE level.  A predicate Qm on whole queued
   messages (it sees the callback together with type, payload and message sequence number; QueueP's
   P sees type and payload only) that holds of every message the connection creates holds of every
   message it keeps anywhere and of every message it ever puts into a datagram (MI, which is
   StoredP.Stored Qm Qk field for field: MI_Stored); and every callback registered in pending_callbacks for a datagram sequence
   number is the callback of a message encoded into the datagram emitted with that number (Link). *)
From Coq Require Import Lia.
From Model Require Import Base SeqNum Conn Net Net3.
From Proofs Require Import DictP ConnFrameP AckP AssemblyP StoredP CustodyP.
Open Scope Z_scope.

Definition psub (c c' : conn) : Prop := forall s ks, dget s (c_pcbs c') = Some ks -> dget s (c_pcbs c) = Some ks.
Definition PK (c : conn) : Prop := forall s ks, dget s (c_pcbs c) = Some ks -> In s (map fst (c_packs c)).

Lemma psub_refl c : psub c c. Proof. intros s ks H. exact H. Qed.
Lemma psub_trans a b c : psub a b -> psub b c -> psub a c.
Proof. intros H1 H2 s ks H. apply H1, H2, H. Qed.
Lemma psub_eq c c' : c_pcbs c' = c_pcbs c -> psub c c'.
Proof. intros E s ks H. rewrite <- E. exact H. Qed.
Lemma PK_upd c c' : c_pcbs c' = c_pcbs c -> c_packs c' = c_packs c -> PK c -> PK c'.
Proof. intros A B H s ks Hs. rewrite B. rewrite A in Hs. exact (H s ks Hs). Qed.

(* the two together, as a relation for the walker *)
Definition reg_rel (c c' : conn) (_ : list out) : Prop := PK c -> PK c' /\ psub c c'.
Lemma reg_refl c : reg_rel c c []. Proof. intros H. split; [exact H|apply psub_refl]. Qed.
Lemma reg_trans a b c o1 o2 : reg_rel a b o1 -> reg_rel b c o2 -> reg_rel a c (o1 ++ o2).
Proof. intros H1 H2 H. destruct (H1 H) as [Hb S1]. destruct (H2 Hb) as [Hc S2]. split; [exact Hc|eapply psub_trans; eassumption]. Qed.
Lemma reg_same c c' o : c_pcbs c' = c_pcbs c -> c_packs c' = c_packs c -> reg_rel c c' o.
Proof. intros P A H. split; [eapply PK_upd; eassumption|apply psub_eq, P]. Qed.
Lemma reg_grows c c' o : grows c c' -> reg_rel c c' o.
Proof. intros [_ _ P A]. apply reg_same; assumption. Qed.

Lemma resolve_PK ok c s c' o : resolve ok c s = (c', o) -> reg_rel c c' o.
Proof.
  intros E H. destruct (resolve_reg E) as (A & P).
  pose proof (resolve_pcbs_sub _ _ _ _ _ E : psub c c') as S1.
  split; [|exact S1]. intros s' ks Hs. rewrite A. apply in_keys_ddel; [|exact (H s' ks (S1 s' ks Hs))].
  intros ->. rewrite P, Z.eqb_refl in Hs. discriminate.
Qed.

Lemma sweep_PK verdict snap c c' o : sweep verdict c snap = (c', o) -> reg_rel c c' o.
Proof. apply (sweep_walk reg_rel reg_refl reg_trans). intros a s t ok a' o' _ _. apply resolve_PK. Qed.

Lemma atom_reg e x c c' o : ev_open x -> atom e x c c' o -> reg_rel c c' o.
Proof.
  intros Hop H. destruct (atom_grows _ _ _ _ _ H) as [G|[(h & E)|(k & ->)]]; [apply reg_grows, G| |destruct Hop].
  unfold handle_ack_bits in E. rewrite ack_loop_sweep in E. exact (sweep_PK _ _ _ _ _ E).
Qed.

Lemma stamp_wmsg now m : wmsg_of (stamp now m) = wmsg_of m.
Proof. reflexivity. Qed.

Lemma map_stamp_wmsg now ms : map wmsg_of (map (stamp now) ms) = map wmsg_of ms.
Proof. rewrite map_map. apply map_ext, stamp_wmsg. Qed.

Definition reg_link (c c' : conn) (msgs : list pmsg) : Prop :=
  forall s ks, dget s (c_pcbs c') = Some ks ->
    dget s (c_pcbs c) = Some ks \/ (s = seq_succ (c_seq_send c) /\ ks = opt_list (map m_cb msgs)).

Lemma built_link c c' now r msgs :
  built_spec c c' now r msgs -> PK c -> PK c' /\ reg_link c c' msgs.
Proof.
  intros B HP. pose proof (bs_res _ _ _ _ _ B) as B6. destruct r as [[h ms]|].
  - destruct B6 as (_ & _ & _ & P & C). split; intros s ks Hs; rewrite C in Hs.
    + rewrite P. destruct (opt_list (map m_cb msgs)) as [|k0 cbs]; [apply keys_dset; exact (HP _ _ Hs)|].
      rewrite dget_dset in Hs. destruct (s =? seq_succ (c_seq_send c)) eqn:Es.
      * assert (s = seq_succ (c_seq_send c)) as -> by lia. apply key_dset_self.
      * apply keys_dset. exact (HP _ _ Hs).
    + destruct (opt_list (map m_cb msgs)) as [|k0 cbs] eqn:Ec; [left; exact Hs|].
      rewrite dget_dset in Hs. destruct (s =? seq_succ (c_seq_send c)) eqn:Es; [|left; exact Hs].
      right. split; [lia|]. congruence.
  - destruct B6 as (C & P & _). split; [eapply PK_upd; eassumption|]. intros s ks Hs. left. rewrite <- C. exact Hs.
Qed.

Section MQ.
  Variable Qm : pmsg -> Prop.
  Variable Qk : cb -> Prop.

  Record MI (c : conn) : Prop := {
    mi_out : Forall Qm (c_outgoing c);
    mi_prm : Forall (fun p => Qm (snd p)) (c_pretry_msg c);
    mi_pcbs : Forall (fun p => Forall Qk (snd p)) (c_pcbs c) }.

  Lemma MI_Stored c : MI c <-> Stored Qm Qk c.
  Proof. split; intros [A B D]; constructor; assumption. Qed.

  Definition Link (c c' : conn) (ds : list dgram) : Prop :=
    forall s ks, dget s (c_pcbs c') = Some ks ->
      dget s (c_pcbs c) = Some ks \/
      (s = seq_succ (c_seq_send c) /\
       forall k, In k ks -> forall d, In d ds -> exists m, Qm m /\ m_cb m = Some k /\ In (wmsg_of m) (dg_msgs d)).

  Definition WireQ (ds : list dgram) : Prop :=
    forall d, In d ds -> forall w, In w (dg_msgs d) -> exists m, Qm m /\ wmsg_of m = w.

  Lemma Link_psub c c' ds : psub c c' -> Link c c' ds.
  Proof. intros H s ks Hs. left. exact (H s ks Hs). Qed.

  Lemma Link_after c c1 c' ds : psub c c1 -> c_seq_send c1 = c_seq_send c -> Link c1 c' ds -> Link c c' ds.
  Proof. intros S1 Q L s ks Hs. destruct (L s ks Hs) as [H|[H1 H2]]; [left; exact (S1 s ks H)|right]. split; [congruence|exact H2]. Qed.

  Lemma wire_ok_WireQ o : wire_ok Qm o -> WireQ (flat_map dg_of o).
  Proof.
    intros H d Hd w Hw. unfold wire_ok in H. rewrite Forall_forall in H. destruct (H d Hd) as (ms & C & F).
    rewrite (carries_dg_msgs _ _ C) in Hw. apply in_map_iff in Hw as (m & <- & Hm).
    rewrite Forall_forall in F. exists m. auto.
  Qed.

  Hypothesis HQ : closed Qm Qk.

  Lemma build_packet_link e c now c1 pk : Stored Qm Qk c -> PK c -> build_packet e c now = (c1, pk) ->
    PK c1 /\ forall cx, Link c c1 (flat_map dg_of (match pk with Some p => emit cx p | None => [] end)).
  Proof.
    intros HN HP E. apply build_packet_spec in E as [(-> & ->)|(c0 & msgs & B & _ & _ & C & A & _)].
    { split; [exact HP|]. intros cx. apply Link_psub, psub_refl. }
    destruct (built_link _ _ _ _ _ B HP) as [P0 R]. destruct (built_Stored _ _ (q_stamp _ _ HQ) (q_cb _ _ HQ) _ _ _ _ _ B HN) as [_ F].
    split; [eapply PK_upd; eassumption|]. intros cx s ks Hs. rewrite C in Hs.
    destruct (R s ks Hs) as [H|[-> ->]]; [left; exact H|right]. split; [reflexivity|].
    intros k Hk d Hd. apply opt_list_In, in_map_iff in Hk as (m & Hk & Hm).
    rewrite Forall_forall in F. exists m. split; [exact (F m Hm)|]. split; [exact Hk|].
    destruct pk as [[h ms]|]; [|destruct Hd]. destruct (bs_res _ _ _ _ _ B) as (-> & Hc & Ht & _).
    pose proof (emit_carries cx h _ Hc Ht) as Hcar. rewrite Forall_forall in Hcar.
    rewrite (carries_dg_msgs _ _ (Hcar d Hd)), map_stamp_wmsg. apply in_map, Hm.
  Qed.

  Lemma tick_tail_link strict e c now c' o2 o3 : Stored Qm Qk c -> PK c -> tick_tail strict e c now = (c', o2, o3) ->
    PK c' /\ Link c c' (flat_map dg_of o2).
  Proof.
    intros HN HP E. apply tick_tail_cases in E as (c1 & pk & E1 & E2 & ->).
    destruct (build_packet_link _ _ _ _ _ HN HP E1) as [P1 L1].
    unfold check_timeout in E2. rewrite timeout_loop_sweep in E2. destruct (sweep_PK _ _ _ _ _ E2 P1) as [P2 S2].
    split; [exact P2|]. intros s ks Hs. apply (L1 c1 s ks), S2, Hs.
  Qed.

  (* only the tail emits, and it runs from the state the part before it leaves; an event other than the
     application's send creates the same messages whatever the state *)
  Lemma acts_tail_link e c x c' o :
    ev_open x -> (forall c0, ev_creates Qm e c0 x) -> Stored Qm Qk c -> PK c -> step e c x = (c', o) ->
    PK c' /\ Link c c' (flat_map dg_of o).
  Proof.
    intros Hop Hx HN HP E. apply step_acts in E as (c1 & o1 & ot & H1 & Ht & ->).
    destruct (star_rel _ reg_rel reg_refl reg_trans (fun a a' o' => atom_reg e x a a' o' Hop) _ _ _ H1 HP) as [P1 S1].
    rewrite flat_map_app, (dg_no_emit _ (acts_no_emit H1)).
    destruct Ht as [_|c2 o2 o3 _ _ T]; [split; [exact P1|apply Link_psub, S1]|].
    pose proof (acts_Stored _ _ HQ _ _ _ _ _ H1 Hx HN) as N1.
    destruct (tick_tail_link _ _ _ _ _ _ _ N1 P1 T) as [P2 L2]. split; [exact P2|].
    destruct (tick_tail_Stored _ _ (q_requeue _ _ HQ) (q_stamp _ _ HQ) (q_cb _ _ HQ) _ _ _ _ _ _ _ T N1) as (_ & _ & Ne3).
    replace (flat_map dg_of (if ev_strict x then o3 ++ o2 else o2 ++ o3)) with (flat_map dg_of o2)
      by (destruct (ev_strict x); rewrite flat_map_app, (dg_no_emit _ Ne3), ?app_nil_r; reflexivity).
    refine (Link_after _ _ _ _ S1 _ L2).
    exact (star_rel _ (fun a b _ => c_seq_send b = c_seq_send a) (fun _ => eq_refl) (fun a b d _ _ A B => eq_trans B A)
             (@atom_seq_send e x) _ _ _ H1).
  Qed.

  Theorem step_link e c x c' o :
    ev_open x -> ev_creates Qm e c x -> MI c -> PK c -> step e c x = (c', o) ->
    MI c' /\ PK c' /\ Link c c' (flat_map dg_of o) /\ WireQ (flat_map dg_of o).
  Proof.
    intros Hop Hx HN HP E. apply MI_Stored in HN.
    destruct (step_Stored _ _ HQ _ _ _ _ _ Hx E HN) as [N' W'].
    split; [apply MI_Stored, N'|].
    cut (PK c' /\ Link c c' (flat_map dg_of o)); [intros [A B]; split; [exact A|split; [exact B|apply wire_ok_WireQ, W']]|].
    destruct x; [|exact (acts_tail_link _ _ _ _ _ Hop (fun _ => Hx) HN HP E)..].
    destruct (reg_grows _ _ [] (send_grows _ _ _ _ _ _ _ E) HP) as [P1 S1]. split; [exact P1|apply Link_psub, S1].
  Qed.
End MQ.

Lemma MI_impl (Qm Qm' : pmsg -> Prop) (Qk Qk' : cb -> Prop) c :
  (forall m, Qm m -> Qm' m) -> (forall k, Qk k -> Qk' k) -> MI Qm Qk c -> MI Qm' Qk' c.
Proof. intros Hm Hk. rewrite !MI_Stored. apply Stored_impl; assumption. Qed.
