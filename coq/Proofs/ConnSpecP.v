(* What the functions of the connection model (Model/Conn.v) do, stated once as cases or equations -- what
   _send_type queues, the outcomes of send and of disconnect, the effects of a handshake message, resolving a
   datagram, the gate and the codec of a received datagram, the receive path, packet assembly, the two
   update() bodies, firing a callback; then which fields each part writes (wr: one mask and one lemma per
   part).  send_frags and client_hello are equations over send_type in the model as they stand and have no
   lemma of the first kind; recv_fragment is described by FragP.recv_fragment_spec; the server's update()
   needs that the sweep keeps the key and stands after the masks (server_tick_eq). *)
From Coq Require Import Lia.
From RecordUpdate Require Import RecordUpdate.
From Model Require Import Base SeqNum Wire Conn.
From Proofs Require Import DictP.
Import RecordSetNotations.
Open Scope Z_scope.

(* the oracle answer makes this endpoint act on a handshake message of type ty *)
Definition hs_accepted (c : conn) (ty : ptype) (o : hs_oracle) : bool :=
  (o_parse o =? 0) &&
  match ty, c_server c with
  | CLIENT_HELLO, true => o_version_ok o
  | SERVER_HELLO, false => true
  | CHALLENGE_RESP, true => match o_temp_token o with Some t => t =? o_token o | None => false end
  | _, _ => false
  end.

(* The second premise of HsIgnored keeps it apart from HsBadSig, which is not accepted either but
   changes the state. *)
Inductive hs_effect (c : conn) (ty : ptype) (o : hs_oracle) : conn -> list out -> Prop :=
  | HsIgnored out : hs_accepted c ty o = false ->
      (c_server c = false -> ty = SERVER_HELLO -> o_parse o <> 6) ->
      out = [] \/ (exists e, out = [ORaise e]) ->
      hs_effect c ty o c out
  | HsHello : c_server c = true -> ty = CLIENT_HELLO -> o_parse o = 0 -> o_version_ok o = true ->
      hs_effect c ty o
        (send_type (c <| c_token := o_token o |> <| c_key := Some (o_key o) |> <| c_status := CONNECTING |>)
           SERVER_HELLO (o_reply o) RNone INone) []
  | HsChallenge : c_server c = true -> ty = CHALLENGE_RESP -> o_parse o = 0 ->
      o_temp_token o = Some (o_token o) ->
      hs_effect c ty o (c <| c_status := CONNECTED |>) [OHandlerConnect]
  | HsBadSig : c_server c = false -> ty = SERVER_HELLO -> o_parse o = 6 ->
      hs_effect c ty o (c <| c_status := DISCONNECTED |>) [ORaise ESig]
  | HsServerHello : c_server c = false -> ty = SERVER_HELLO -> o_parse o = 0 ->
      hs_effect c ty o
        (send_type (c <| c_token := o_token o |> <| c_key := Some (o_key o) |>)
           CHALLENGE_RESP (o_reply o) RNone IChallenge <| c_status := CONNECTED |> <| c_hello_sent := 0 |>)
        (if c_conn_cb c then [OConnCb true] else []).

Lemma recv_handshake_effect c ty o :
  hs_effect c ty o (fst (recv_handshake c ty o)) (snd (recv_handshake c ty o)).
Proof.
  assert (Ig : forall out, hs_accepted c ty o = false ->
            (c_server c = false -> ty = SERVER_HELLO -> o_parse o <> 6) ->
            out = [] \/ (exists e, out = [ORaise e]) -> hs_effect c ty o (fst (c, out)) (snd (c, out)))
    by (intros; apply HsIgnored; assumption).
  unfold recv_handshake, hs_accepted in *.
  destruct ty, (c_server c) eqn:Sv;
    try (apply Ig; [apply Bool.andb_false_r|congruence|left; reflexivity]).
  - (* a client hello, at the server *)
    destruct (o_parse o =? 0) eqn:P; [|apply Ig; [reflexivity|congruence|eauto]].
    destruct (o_version_ok o) eqn:V; [|apply Ig; [reflexivity|congruence|eauto]].
    apply HsHello; auto. apply Z.eqb_eq, P.
  - (* a server hello, at the client *)
    destruct (o_parse o =? 6) eqn:P6; [apply HsBadSig; auto; apply Z.eqb_eq, P6|].
    destruct (o_parse o =? 0) eqn:P.
    + apply HsServerHello; auto. apply Z.eqb_eq, P.
    + apply Ig; [reflexivity| |eauto]. intros _ _. apply Z.eqb_neq, P6.
  - (* a challenge response, at the server *)
    destruct (o_parse o =? 0) eqn:P; [|apply Ig; [reflexivity|congruence|eauto]].
    destruct (o_temp_token o) as [t|] eqn:T; [|apply Ig; [reflexivity|congruence|eauto]].
    destruct (t =? o_token o) eqn:E; [|apply Ig; [reflexivity|congruence|eauto]].
    apply Z.eqb_eq in P, E. subst t. apply HsChallenge; auto.
Qed.

Lemma recv_handshake_inv c ty o c' out : recv_handshake c ty o = (c', out) -> hs_effect c ty o c' out.
Proof. intros E. pose proof (recv_handshake_effect c ty o) as H. rewrite E in H. exact H. Qed.

Lemma recv_handshake_refused c ty o c' out : hs_accepted c ty o = false -> recv_handshake c ty o = (c', out) ->
  (c' = c \/ (c_server c = false /\ c' = c <| c_status := DISCONNECTED |>)) /\
  (out = [] \/ exists e, out = [ORaise e]).
Proof.
  unfold hs_accepted. intros A E.
  destruct (recv_handshake_inv _ _ _ _ _ E) as [out' _ _ O|Sv -> P V|Sv -> P T|Sv -> P|Sv -> P].
  - auto.
  - rewrite Sv, P, V in A. cbn in A. discriminate A.
  - rewrite Sv, P, T, !Z.eqb_refl in A. cbn in A. discriminate A.
  - eauto 7.
  - rewrite Sv, P in A. cbn in A. discriminate A.
Qed.

Lemma hs_known ty : is_hs ty = true -> ty <> UNKNOWN.
Proof. intros H ->. discriminate H. Qed.

(* _handle_ack / _handle_timeout: count the outcome, fire the datagram's callbacks, forget the datagram *)
Definition count_outcome (ok : bool) (c : conn) : conn :=
  if ok then c <| c_acked := c_acked c + 1 |> else c <| c_timeouts := c_timeouts c + 1 |>.
Definition forget_retry (s : Z) (c : conn) : conn :=
  match dget s (c_pretry c) with
  | Some mseqs => c <| c_pretry_msg := fold_left (fun d m => ddel m d) mseqs (c_pretry_msg c) |>
                    <| c_pretry := ddel s (c_pretry c) |>
  | None => c
  end.
Definition forget (s : Z) (c : conn) : conn := forget_retry s c <| c_packs := ddel s (c_packs (forget_retry s c)) |>.

Lemma resolve_eq ok c s :
  resolve ok c s =
  match dget s (c_pcbs c) with
  | Some ks => let '(c1, o) := fire_all (count_outcome ok c) ks ok in (forget s (c1 <| c_pcbs := ddel s (c_pcbs c1) |>), o)
  | None => (forget s (count_outcome ok c), [])
  end.
Proof.
  unfold resolve, forget, forget_retry, count_outcome. destruct ok; cbn [c_pcbs set];
    (destruct (dget s (c_pcbs c)); [destruct (fire_all _ _ _)|]; reflexivity).
Qed.

Lemma set_pcbs_same c : c <| c_pcbs := c_pcbs c |> = c.
Proof. destruct c; reflexivity. Qed.

Lemma resolve_uniform ok c s :
  resolve ok c s =
  let '(c1, o) := fire_all (count_outcome ok c) (match dget s (c_pcbs c) with Some ks => ks | None => [] end) ok in
  (forget s (c1 <| c_pcbs := ddel s (c_pcbs c1) |>), o).
Proof.
  rewrite resolve_eq. destruct (dget s (c_pcbs c)) eqn:Eg; [reflexivity|]. cbn [fire_all].
  rewrite ddel_not_in, set_pcbs_same; [reflexivity|]. apply dget_None_keys. destruct ok; exact Eg.
Qed.

Lemma forget_fields s c : c_outgoing (forget s c) = c_outgoing c /\ c_done (forget s c) = c_done c /\
  c_pcbs (forget s c) = c_pcbs c /\ c_packs (forget s c) = ddel s (c_packs c).
Proof. unfold forget, forget_retry. destruct (dget s (c_pretry c)); repeat split. Qed.

Lemma forget_pretry s c : c_pretry (forget s c) = ddel s (c_pretry c).
Proof.
  unfold forget, forget_retry. destruct (dget s (c_pretry c)) eqn:Eg; [reflexivity|].
  cbn. symmetry. apply ddel_not_in, dget_None_keys, Eg.
Qed.

Lemma forget_prm s c : c_pretry_msg (forget s c) =
  match dget s (c_pretry c) with Some l => fold_left (fun d m => ddel m d) l (c_pretry_msg c) | None => c_pretry_msg c end.
Proof. unfold forget, forget_retry. destruct (dget s (c_pretry c)); reflexivity. Qed.

(* _handle_ack_bits and _check_timeout are one sweep over a snapshot of pending_acks; they differ in
   how an entry is judged: acknowledged, timed out, or left alone *)
Fixpoint sweep (verdict : conn -> Z -> Z -> option bool) (c : conn) (snap : list (Z * Z)) : conn * list out :=
  match snap with
  | [] => (c, [])
  | (s, t) :: r =>
      let '(c1, o1) := match verdict c s t with Some ok => resolve ok c s | None => (c, []) end in
      let '(c2, o2) := sweep verdict c1 r in (c2, o1 ++ o2)
  end.

Definition ack_verdict (h : header) (c : conn) (s t : Z) : option bool :=
  if hdr_acks (h_ack h) (h_ackbits h) s then Some true
  else if c_last_recv c - t >? c_out_timeout c then Some false else None.

Definition overdue (strict : bool) (now t timeout : Z) : bool := if strict then now - t >? timeout else now - t >=? timeout.
Definition timeout_verdict (strict : bool) (now : Z) (c : conn) (s t : Z) : option bool :=
  if overdue strict now t (c_out_timeout c) then Some false else None.

Lemma ack_loop_sweep h snap : forall c, ack_loop c h snap = sweep (ack_verdict h) c snap.
Proof.
  induction snap as [|[s t] r IH]; intros c; cbn [ack_loop sweep]; [reflexivity|]. unfold ack_verdict at 1.
  destruct (hdr_acks _ _ s); [|destruct (_ >? _)]; destruct (resolve _ c s) || idtac; rewrite IH; reflexivity.
Qed.

Lemma timeout_loop_sweep strict now snap : forall c, timeout_loop strict c now snap = sweep (timeout_verdict strict now) c snap.
Proof.
  induction snap as [|[s t] r IH]; intros c; cbn [timeout_loop sweep]; [reflexivity|]. unfold timeout_verdict at 1, overdue.
  destruct (if strict then _ else _); destruct (resolve _ c s) || idtac; rewrite IH; reflexivity.
Qed.

(* what recv_msgs does with a message that got past the message window *)
Definition dispatch (c : conn) (now : Z) (m : wmsg) (orcs : list hs_oracle) : conn * list out * list hs_oracle :=
  match w_type m with
  | APP => (recv_app c (w_seq m) (w_payload m), [], orcs)
  | APP_FRAGMENT => let '(c', o') := recv_fragment c now (w_seq m) (w_payload m) in (c', o', orcs)
  | DISCONNECT => (c <| c_status := DISCONNECTING |>, [], orcs)
  | KEEP_ALIVE | UNKNOWN => (c, [], orcs)
  | t => let '(c', o') := recv_handshake c t (hd no_oracle orcs) in (c', o', tl orcs)
  end.

Lemma recv_msgs_cons c now m r orcs :
  recv_msgs c now (m :: r) orcs =
  match bf_insert (c_bf_msg c) (w_seq m) with
  | Err _ => recv_msgs c now r (if is_hs (w_type m) then tl orcs else orcs)
  | Ok bf =>
      let '(c1, o1, orcs') := dispatch (c <| c_bf_msg := bf |>) now m orcs in
      if raised o1 then (c1, o1) else let '(c2, o2) := recv_msgs c1 now r orcs' in (c2, o1 ++ o2)
  end.
Proof. reflexivity. Qed.

Ltac dpair E c1 o1 E1 :=
  match type of E with context [match ?x with (_, _) => _ end] => destruct x as [c1 o1] eqn:E1 end.

(* the two outcomes of _recv_datagram *)
Lemma recv_cases c now d orcs c' o : recv c now d orcs = (c', o) ->
  (c' = c <| c_dropped := c_dropped c + 1 |> /\ o = [ORet false] /\
   (keyless_refuses c (d_hdr d) = true \/ (exists er, open_dgram (c_key c) d = Err er) \/
    exists er, bf_insert (c_bf_pkt c) (h_seq (d_hdr d)) = Err er))
  \/ exists ms bf c1 o1 o2,
       keyless_refuses c (d_hdr d) = false /\ open_dgram (c_key c) d = Ok ms /\
       bf_insert (c_bf_pkt c) (h_seq (d_hdr d)) = Ok bf /\
       handle_ack_bits (c <| c_bf_pkt := bf |> <| c_received := c_received c + 1 |> <| c_last_recv := now |>) (d_hdr d) = (c1, o1) /\
       recv_msgs c1 now ms orcs = (c', o2) /\ o = o1 ++ o2 ++ (if raised o2 then [] else [ORet true]).
Proof.
  unfold recv. intros E.
  destruct (keyless_refuses c (d_hdr d)); [injection E as <- <-; left; auto|].
  destruct (open_dgram (c_key c) d) as [ms|er]; [|injection E as <- <-; left; eauto 6].
  destruct (bf_insert (c_bf_pkt c) _) as [bf|er]; [|injection E as <- <-; left; eauto 6].
  dpair E c1 o1 E1. destruct (recv_msgs c1 now ms orcs) as [c2 o2] eqn:E2. injection E as <- <-.
  right. exists ms, bf, c1, o1, o2. auto 7.
Qed.

Lemma ptype_eqb_eq a b : ptype_eqb a b = true <-> a = b.
Proof.
  split; [|intros ->; unfold ptype_eqb; apply Z.eqb_refl].
  unfold ptype_eqb. destruct a, b; cbn; intros H; try reflexivity; discriminate.
Qed.

Lemma header_eqb_eq a b : header_eqb a b = true <-> a = b.
Proof.
  split.
  - unfold header_eqb. intros H.
    repeat (apply andb_prop in H; destruct H as [H ?]).
    destruct a, b; cbn in *.
    apply Bool.eqb_prop in H.
    match goal with H' : ptype_eqb _ _ = true |- _ => apply ptype_eqb_eq in H' end.
    repeat match goal with H' : (_ =? _) = true |- _ => apply Z.eqb_eq in H' end.
    subst. reflexivity.
  - intros ->. unfold header_eqb. destruct b; cbn.
    rewrite Bool.eqb_reflx, !Z.eqb_refl. cbn.
    replace (ptype_eqb h_type h_type) with true by (symmetry; apply ptype_eqb_eq; reflexivity).
    reflexivity.
Qed.

Lemma header_eqb_refl h : header_eqb h h = true.
Proof. apply header_eqb_eq. reflexivity. Qed.

(* Packet.from_bytes over the symbolic body: under a key, a body sealed under that key with the datagram's own
   header and an announced length within the window; without a key, a clear body of the announced length *)
Lemma open_sealed_payload k d ms : open_dgram (Some k) d = Ok ms ->
  exists p, d_body d = Sealed k (d_hdr d) p /\ len p <= h_len (d_hdr d) <= len p + 16
            /\ decode_msgs (h_type (d_hdr d)) (h_count (d_hdr d)) p = Ok ms.
Proof.
  unfold open_dgram. destruct (d_body d) as [k' sh p| |]; try discriminate.
  destruct (_ && _) eqn:E; [|discriminate]. cbn [bind]. intros H.
  apply andb_prop in E as [E Hhi]. apply andb_prop in E as [E Hlo]. apply andb_prop in E as [Hk Hh].
  apply header_eqb_eq in Hh as ->. apply Z.eqb_eq in Hk as <-.
  exists p. split; [reflexivity|]. split; [lia|exact H].
Qed.

Lemma open_clear_payload d ms : open_dgram None d = Ok ms ->
  exists p, d_body d = Clear p /\ h_len (d_hdr d) = len p
            /\ decode_msgs (h_type (d_hdr d)) (h_count (d_hdr d)) p = Ok ms.
Proof.
  unfold open_dgram. destruct (d_body d) as [k' sh p|p|]; cbn; try discriminate.
  destruct (h_len (d_hdr d) =? len p) eqn:E; cbn; [|discriminate].
  intros H. exists p. repeat split; [lia|exact H].
Qed.

(* the gate of _recv_datagram: a key holder refuses nothing here; without a key only a single hello passes *)
Lemma keyless_refuses_eq c h : keyless_refuses c h =
  match c_key c with Some _ => false | None => negb (h_count h =? 1) || negb (is_hello (h_type h)) end.
Proof. unfold keyless_refuses. destruct (c_key c); reflexivity. Qed.

Lemma open_keyless c d ms : c_key c = None -> keyless_refuses c (d_hdr d) = false -> open_dgram (c_key c) d = Ok ms ->
  ms = [] \/ exists m, ms = [m] /\ is_hello (w_type m) = true.
Proof.
  intros HK Ekl Eo. rewrite keyless_refuses_eq, HK in Ekl.
  apply Bool.orb_false_elim in Ekl as [Ecount Ehello]. apply Bool.negb_false_iff in Ecount. apply Bool.negb_false_iff in Ehello.
  rewrite HK in Eo. destruct (open_clear_payload d ms Eo) as (p & _ & _ & Ed). clear Eo. rename Ed into Eo.
  unfold decode_msgs in Eo. rewrite Ecount in Eo. destruct (_ <? _)%nat; [discriminate|].
  injection Eo as <-. right. eexists. split; [reflexivity|exact Ehello].
Qed.

(* the two passes of _build_packet_impl: what stays in the retry store, what stays queued, what goes
   into the packet (the due entries of the retry store that fit, then the queued messages that fit) *)
Definition select (e : env) (c : conn) (now delay : Z) : list (Z * pmsg) * list pmsg * list pmsg :=
  let '(prm, msgs0, cur0) :=
    match c_pretry_msg c with
    | [] => ([], [], 0)
    | _ => retry_pass e now delay (sort_items (c_pretry_msg c)) (c_pretry_msg c) [] 0
    end in
  let '(rem, msgs, _) := out_pass e (c_outgoing c) msgs0 cur0 in (prm, rem, msgs).

(* ka: a keep-alive is due; UNKNOWN stands for "nothing to send" *)
Definition packet_type (ka : bool) (c : conn) (msgs : list pmsg) : ptype :=
  match msgs with
  | [] => if ka && status_eqb (c_status c) CONNECTED then KEEP_ALIVE else UNKNOWN
  | m :: _ => m_type m
  end.

Definition packet_header (c : conn) (now : Z) (ty : ptype) (n : Z) : header :=
  {| h_to_server := negb (c_server c); h_ctime := now / TICKS; h_seq := seq_succ (c_seq_send c);
     h_ack := bf_cur (c_bf_pkt c); h_type := ty; h_len := 0; h_count := n;
     h_ackbits := bf_bits (c_bf_pkt c) |}.

(* the selected messages a RetrySender will have to re-send *)
Definition retried (now : Z) (msgs : list pmsg) : list pmsg :=
  filter (fun m => negb (retry_is_none (m_retry m))) (map (stamp now) msgs).

Definition register (c : conn) (now : Z) (msgs : list pmsg) : conn :=
  let s := seq_succ (c_seq_send c) in
  let c1 := c <| c_seq_send := s |> <| c_packs := dset s now (c_packs c) |>
              <| c_pretry_msg := fold_left (fun d m => dset (m_seq m) m d) (retried now msgs) (c_pretry_msg c) |> in
  let cbs := opt_list (map m_cb msgs) in
  let c2 := match cbs with [] => c1 | _ => c1 <| c_pcbs := dset s cbs (c_pcbs c1) |> end in
  let retr := retried now msgs in
  match retr with [] => c2 | _ => c2 <| c_pretry := dset s (map m_seq retr) (c_pretry c2) |> end.

Arguments register : simpl never.

Section Register.
  Variables (c : conn) (now : Z) (msgs : list pmsg).
  Let s := seq_succ (c_seq_send c).

  Lemma register_seq : c_seq_send (register c now msgs) = s.
  Proof. unfold register. destruct (retried now msgs), (opt_list (map m_cb msgs)); reflexivity. Qed.

  Lemma register_packs : c_packs (register c now msgs) = dset s now (c_packs c).
  Proof. unfold register. destruct (retried now msgs), (opt_list (map m_cb msgs)); reflexivity. Qed.

  Lemma register_prm : c_pretry_msg (register c now msgs) =
    fold_left (fun d m => dset (m_seq m) m d) (retried now msgs) (c_pretry_msg c).
  Proof. unfold register. destruct (retried now msgs), (opt_list (map m_cb msgs)); reflexivity. Qed.

  Lemma register_pcbs : c_pcbs (register c now msgs) =
    match opt_list (map m_cb msgs) with [] => c_pcbs c | cbs => dset s cbs (c_pcbs c) end.
  Proof. unfold register. destruct (retried now msgs), (opt_list (map m_cb msgs)); reflexivity. Qed.

  Lemma register_pretry : c_pretry (register c now msgs) =
    match retried now msgs with [] => c_pretry c | retr => dset s (map m_seq retr) (c_pretry c) end.
  Proof. unfold register. destruct (retried now msgs), (opt_list (map m_cb msgs)); reflexivity. Qed.

  Lemma register_keeps {A} (g : conn -> A) :
    (forall c v, g (c <| c_seq_send := v |>) = g c) -> (forall c v, g (c <| c_packs := v |>) = g c) ->
    (forall c v, g (c <| c_pretry_msg := v |>) = g c) -> (forall c v, g (c <| c_pcbs := v |>) = g c) ->
    (forall c v, g (c <| c_pretry := v |>) = g c) -> g (register c now msgs) = g c.
  Proof.
    intros G1 G2 G3 G4 G5. unfold register. destruct (retried now msgs), (opt_list (map m_cb msgs));
      rewrite ?G5, ?G4, G3, G2, G1; reflexivity.
  Qed.
End Register.

(* the message _send_type creates *)
Definition new_msg (c : conn) (ty : ptype) (p : list byte) (r : retry) (k : icb) : pmsg :=
  {| m_seq := seq_succ (c_seq_msg c); m_type := ty; m_payload := p;
     m_cb := mk_cb r k (c_next_rid c) (seq_succ (c_seq_msg c)) ty p; m_retry := r; m_atime := 0 |}.

Lemma send_type_out_eq c ty p r k : c_outgoing (send_type c ty p r k) = c_outgoing c ++ [new_msg c ty p r k].
Proof. reflexivity. Qed.

(* ConnectionBase.send: nothing unless CONNECTED; one APP message if the payload fits a datagram; above the
   fragmentation limit the fragment id is taken and ValueError raised; else the fragments are queued and
   their collector is opened in pending_fragments *)
Definition send_fragmented (e : env) (c : conn) (p : list byte) (r : retry) (k : icb) : conn :=
  let fid := seq_succ (c_seq_frag c) in
  let frags := split_frags (S (length p)) e p in
  let c1 := send_frags (c <| c_seq_frag := fid |>) fid (len frags) r 0 frags in
  c1 <| c_pfrags := dset fid {| fs_ucb := k; fs_acks := repeat None (length frags) |} (c_pfrags c1) |>.

Inductive send_effect (e : env) (c : conn) (p : list byte) (r : retry) (k : icb) : conn -> list out -> Prop :=
  | SendIdle : c_status c <> CONNECTED -> send_effect e c p r k c []
  | SendOne : c_status c = CONNECTED -> len p <= e_max_payload e -> send_effect e c p r k (send_type c APP p r k) []
  | SendTooLarge : c_status c = CONNECTED -> e_max_payload e < len p -> e_max_frag e * e_max_frags e < len p ->
      send_effect e c p r k (c <| c_seq_frag := seq_succ (c_seq_frag c) |>) [ORaise EValue]
  | SendFrags : c_status c = CONNECTED -> e_max_payload e < len p <= e_max_frag e * e_max_frags e ->
      send_effect e c p r k (send_fragmented e c p r k) [].

Lemma send_connected e c p r k : c_status c = CONNECTED ->
  send e c p r k =
  if len p >? e_max_payload e
  then if len p >? e_max_frag e * e_max_frags e then (c <| c_seq_frag := seq_succ (c_seq_frag c) |>, [ORaise EValue])
       else (send_fragmented e c p r k, [])
  else (send_type c APP p r k, []).
Proof. intros Hs. unfold send. rewrite Hs. reflexivity. Qed.

Lemma send_inv e c p r k c' o : send e c p r k = (c', o) -> send_effect e c p r k c' o.
Proof.
  destruct (status_eqb (c_status c) CONNECTED) eqn:Es.
  - assert (Hs : c_status c = CONNECTED) by (destruct (c_status c); try discriminate; reflexivity).
    rewrite (send_connected _ _ _ _ _ Hs). destruct (len p >? e_max_payload e) eqn:E1; [destruct (len p >? _ * _) eqn:E2|];
      intros E; injection E as <- <-; [apply SendTooLarge|apply SendFrags|apply SendOne]; auto; lia.
  - unfold send. rewrite Es. intros E. injection E as <- <-. apply SendIdle. intros Hs. rewrite Hs in Es. discriminate.
Qed.
Arguments send_inv {_ _ _ _ _ _ _} _.

(* ConnectionBase.disconnect: while CONNECTED or DISCONNECTING the queues and the tables of sent datagrams are
   dropped and the farewell is queued; in any case the connection ends DISCONNECTED *)
Definition cleared (c : conn) : conn :=
  c <| c_outgoing := [] |> <| c_incoming := [] |> <| c_pcbs := [] |> <| c_pretry := [] |> <| c_packs := [] |>.

Lemma disconnect_cases c k :
  (c_status c <> CONNECTED /\ c_status c <> DISCONNECTING /\ disconnect c k = c <| c_status := DISCONNECTED |>) \/
  ((c_status c = CONNECTED \/ c_status c = DISCONNECTING) /\
   disconnect c k = send_type (cleared c) DISCONNECT [] RNone k <| c_status := DISCONNECTED |>).
Proof. unfold disconnect. destruct (c_status c); cbn; auto 6; left; repeat split; discriminate. Qed.

(* Turns the outermost `let x := v in b` of the goal into a local definition.  build_impl is a
   chain of lets in which each state shadows the last; unfolding them (unfold, cbv zeta) copies every
   state into each later one. *)
Ltac hoist_let :=
  match goal with |- context C [let x := ?v in @?b x] =>
    let y := fresh x in pose (y := v); let G := context C [b y] in change G; cbv beta
  end.

(* _build_packet_impl: the only place where build_impl itself is opened.  What the two passes select is
   described in PackP (select_spec); select is unfolded there and by the few clients that need more of it. *)
Lemma build_impl_eq e c now ka delay :
  build_impl e c now ka delay =
  let '(prm, rem, msgs) := select e c now delay in
  let c1 := c <| c_pretry_msg := prm |> <| c_outgoing := rem |> in
  if ptype_eqb (packet_type ka c msgs) UNKNOWN then (c1, None)
  else (register c1 now msgs, Some (packet_header c now (packet_type ka c msgs) (len msgs), map (stamp now) msgs)).
Proof.
  cbv beta delta [build_impl select].
  destruct (match c_pretry_msg c with [] => _ | _ => _ end) as [[prm msgs0] cur0].
  destruct (out_pass e (c_outgoing c) msgs0 cur0) as [[rem msgs] x].
  repeat hoist_let.
  assert (E3 : c3 = register c0 now msgs) by reflexivity.
  (* the header reads the side and the receive window off the state after registration *)
  assert (Eh : h = packet_header c now ty (len msgs)).
  { unfold h, packet_header. rewrite E3, !(register_keeps c0 now msgs) by reflexivity. reflexivity. }
  rewrite E3, Eh. reflexivity.
Qed.

Lemma build_impl_hdr e c now ka delay c' r : build_impl e c now ka delay = (c', r) ->
  match r with
  | None => c_seq_send c' = c_seq_send c /\ c_packs c' = c_packs c
  | Some (h, ms) =>
      c_seq_send c' = seq_succ (c_seq_send c) /\ c_packs c' = dset (seq_succ (c_seq_send c)) now (c_packs c) /\
      h_seq h = seq_succ (c_seq_send c) /\ h_ctime h = now / TICKS /\ h_to_server h = negb (c_server c) /\
      h_ack h = bf_cur (c_bf_pkt c) /\ h_ackbits h = bf_bits (c_bf_pkt c)
  end.
Proof.
  rewrite build_impl_eq. destruct (select e c now delay) as [[prm rem] msgs]. cbv zeta.
  destruct (ptype_eqb _ _); intros E; injection E as <- <-; [split; reflexivity|].
  rewrite register_seq, register_packs. repeat split; reflexivity.
Qed.

Lemma build_packet_cases e c now c' r : build_packet e c now = (c', r) ->
  (now - c_last_send c < c_send_interval c /\ c' = c /\ r = None) \/
  exists c1, c_send_interval c <= now - c_last_send c /\
    build_impl e c now (now - c_last_ka c >? c_ka_interval c) (c_ka_interval c) = (c1, r) /\
    c' = match r with
         | Some _ => c1 <| c_last_send := now |> <| c_last_ka := now |> <| c_assembled := c_assembled c1 + 1 |>
         | None => c1
         end.
Proof.
  unfold build_packet. destruct (_ <? _) eqn:Hrate; [intros E; injection E as <- <-; left; split; [lia|auto]|].
  destruct (build_impl e c now _ _) as [c1 r1]. intros E. right. exists c1. split; [lia|].
  destruct r1; injection E as <- <-; auto.
Qed.

Lemma build_packet_open e c now c' r : c_send_interval c <= now - c_last_send c -> build_packet e c now = (c', r) ->
  exists c1, build_impl e c now (now - c_last_ka c >? c_ka_interval c) (c_ka_interval c) = (c1, r) /\
    c' = match r with
         | Some _ => c1 <| c_last_send := now |> <| c_last_ka := now |> <| c_assembled := c_assembled c1 + 1 |>
         | None => c1
         end.
Proof. intros Hg E. apply build_packet_cases in E as [(Hc & _)|(c1 & _ & H)]; [lia|eauto]. Qed.

(* emit is Packet.create + to_bytes: the header is the packet's with the payload length filled in *)
Definition with_len (h : header) (n : Z) : header :=
  {| h_to_server := h_to_server h; h_ctime := h_ctime h; h_seq := h_seq h; h_ack := h_ack h;
     h_type := h_type h; h_len := n; h_count := h_count h; h_ackbits := h_ackbits h |}.

Lemma emit_cases c h ms :
  (exists er, encode_msgs (map wmsg_of ms) = Err er /\ emit c (h, ms) = [ORaise er]) \/
  exists p, encode_msgs (map wmsg_of ms) = Ok p /\
    emit c (h, ms) = [OEmit (with_len h (len p)) (if ptype_eqb (h_type h) SERVER_HELLO then None else c_key c) p].
Proof.
  unfold emit. destruct (encode_msgs _) as [p|er]; [right|left; eauto]. exists p. split; [reflexivity|].
  cbn [h_type]. destruct (c_key c); destruct (ptype_eqb _ _); reflexivity.
Qed.

Lemma emit_no_cb c pk id b : ~ In (OCallback id b) (emit c pk).
Proof. destruct pk as [h ms]. destruct (emit_cases c h ms) as [(er & _ & ->)|(p & _ & ->)]; intros [H|[]]; discriminate. Qed.

Lemma emit_key a b pk : c_key a = c_key b -> emit a pk = emit b pk.
Proof. intros K. unfold emit. rewrite K. reflexivity. Qed.

(* what UdpClient.update does with what the socket handed it *)
Definition not_ret (x : out) : bool := match x with ORet _ => false | _ => true end.
Definition rx_recv (c : conn) (now : Z) (r : rx) : conn * list out :=
  match r with
  | RxNone => (c, [])
  | RxBadHeader er => (c, [ORaise er])
  | RxDgram d orcs => let '(c', o') := recv c now d orcs in (c', filter not_ret o')
  end.

Lemma rx_recv_cases c now r c' o : rx_recv c now r = (c', o) ->
  (c' = c /\ (o = [] \/ exists er, o = [ORaise er])) \/
  exists d orcs o', r = RxDgram d orcs /\ recv c now d orcs = (c', o') /\ o = filter not_ret o'.
Proof.
  destruct r as [|er|d orcs]; cbn [rx_recv]; intros E; [injection E as <- <-; left; eauto..|].
  destruct (recv c now d orcs) as [c1 o1] eqn:Er. injection E as <- <-. right. exists d, orcs, o1. auto.
Qed.

(* the tail both update() bodies share: assemble a packet, hand it to the socket, sweep for time-outs;
   returns the outputs of the two parts apart because the server loop reports them in the other order *)
Definition tick_tail (strict : bool) (e : env) (c : conn) (now : Z) : conn * list out * list out :=
  let '(c1, pk) := build_packet e c now in
  let '(c2, o3) := check_timeout strict c1 now in
  (c2, match pk with Some p => emit c1 p | None => [] end, o3).

Lemma tick_tail_cases strict e c now c' o2 o3 : tick_tail strict e c now = (c', o2, o3) ->
  exists c1 pk, build_packet e c now = (c1, pk) /\ check_timeout strict c1 now = (c', o3) /\
                o2 = match pk with Some p => emit c1 p | None => [] end.
Proof.
  unfold tick_tail. destruct (build_packet e c now) as [c1 pk]. destruct (check_timeout strict c1 now) as [c2 o] eqn:E2.
  intros E. injection E as <- <- <-. exists c1, pk. auto.
Qed.

(* ClientServerConnection.update before the socket is read: the liveness check, then the hello timer *)
Lemma client_update_cases c now c' o : client_update c now = (c', o) ->
  exists c0, (c0 = c \/ c0 = c <| c_status := DROPPED |>) /\
    (c' = c0 /\ o = [] \/
     c' = c0 <| c_status := DISCONNECTED |> <| c_hello_sent := 0 |> /\ (o = [] \/ o = [OConnCb false])).
Proof.
  unfold client_update. intros E. set (c0 := if _ && (now >? _) then _ else c) in E.
  assert (H0 : c0 = c \/ c0 = c <| c_status := DROPPED |>) by (unfold c0; destruct (_ && (now >? _)); auto).
  clearbody c0. exists c0. split; [exact H0|].
  destruct (_ && _); injection E as <- <-; [right|left]; split; auto. destruct (c_conn_cb c0); auto.
Qed.

Lemma client_update_out c now c' o : client_update c now = (c', o) -> o = [] \/ o = [OConnCb false].
Proof. intros E. apply client_update_cases in E as (c0 & _ & [[_ ->]|[_ H]]); auto. Qed.

Lemma client_update_idle c now : c_hello_sent c = 0 ->
  (c_last_recv c >? 0) && (now >? c_last_recv c + 5 * TICKS) = false -> client_update c now = (c, []).
Proof. intros Hh Hs. unfold client_update. rewrite Hs, Hh. reflexivity. Qed.

Lemma client_tick_eq e c now r :
  client_tick e c now r =
  let '(c0, o0) := client_update c now in
  if status_eqb (c_status c0) DROPPED then (c0, o0)
  else let '(c1, o1) := rx_recv c0 now r in
       if raised o1 then (c1, o0 ++ o1)
       else if now - c_last_send c1 >? c_send_interval c1 then
              let '(c2, o2, o3) := tick_tail false e c1 now in (c2, o0 ++ o1 ++ o2 ++ o3)
            else (c1, o0 ++ o1).
Proof.
  unfold client_tick, tick_tail, rx_recv. destruct (client_update c now) as [c0 o0].
  destruct (status_eqb _ _); [reflexivity|].
  destruct r as [|er|d orcs]; [| |destruct (recv c0 now d orcs) as [c1 o1]];
    (destruct (raised _); [reflexivity|]; destruct (_ >? _); [|reflexivity];
     destruct (build_packet _ _ _) as [c2 pk]; destruct (check_timeout _ _ _); reflexivity).
Qed.

(* What firing an inner callback does, as cases.  It leaves the state alone, and only a user callback
   reports (the flag it was fired with) -- unless it is the collector of a fragmented send whose context is
   still held: then the flag is stored in the context, and once every fragment has reported the context is
   deleted and the user callback (if any) hears whether all flags are true. *)
Definition frag_acks (fs : fsender) (idx : Z) (ok : bool) : list (option bool) :=
  set_nth (Z.to_nat idx) (Some ok) (fs_acks fs).

Inductive icb_fired (c : conn) (i : icb) (ok : bool) : conn -> list out -> Prop :=
  | IcbPlain o : (forall id b, In (OCallback id b) o -> i = IUser id /\ ok = b) -> icb_fired c i ok c o
  | IcbLast fid idx fs o : i = IFrag fid idx -> dget fid (c_pfrags c) = Some fs ->
      forallb is_some (frag_acks fs idx ok) = true ->
      (forall id b, In (OCallback id b) o -> fs_ucb fs = IUser id /\ forallb is_true (frag_acks fs idx ok) = b) ->
      icb_fired c i ok (c <| c_pfrags := ddel fid (c_pfrags c) |>) o
  | IcbStore fid idx fs : i = IFrag fid idx -> dget fid (c_pfrags c) = Some fs ->
      forallb is_some (frag_acks fs idx ok) = false ->
      icb_fired c i ok
        (c <| c_pfrags := dset fid {| fs_ucb := fs_ucb fs; fs_acks := frag_acks fs idx ok |} (c_pfrags c) |>) [].

Lemma fire_icb_cases c i ok c' o : fire_icb c i ok = (c', o) -> icb_fired c i ok c' o.
Proof.
  unfold fire_icb. intros E. destruct i as [|id|fid idx| | |].
  - injection E as <- <-. apply IcbPlain. intros id b [].
  - injection E as <- <-. apply IcbPlain. intros id' b [H|[]]. injection H as -> ->. auto.
  - destruct (dget fid (c_pfrags c)) as [fs|] eqn:Eg; [|injection E as <- <-; apply IcbPlain; intros id b []].
    fold (frag_acks fs idx ok) in E. destruct (forallb is_some _) eqn:Ea; injection E as <- <-.
    + apply (IcbLast c _ ok fid idx fs); auto. intros id b H. destruct (fs_ucb fs); try solve [destruct H].
      destruct H as [H|[]]. injection H as -> ->. auto.
    + apply (IcbStore c _ ok fid idx fs); auto.
  - injection E as <- <-. apply IcbPlain. intros id b H. destruct ok; [destruct H|destruct H as [H|[]]; discriminate].
  - injection E as <- <-. apply IcbPlain. intros id b H. destruct ok; [destruct H|destruct H as [H|[]]; discriminate].
  - injection E as <- <-. apply IcbPlain. intros id b [H|[]]. discriminate.
Qed.

(* A callback object is its inner callback fired after the RetrySender has noted its identity, or is
   silent: the sender is done already, or re-queues its message. *)
Lemma fire_cb_cases c k ok c' o : fire_cb c k ok = (c', o) ->
  (exists q, c' = c <| c_outgoing := q |> /\ o = []) \/
  exists d i, (k = Plain i \/ exists rid mseq ty p, k = Retry rid mseq ty p i) /\
    fire_icb (c <| c_done := d |>) i ok = (c', o).
Proof.
  unfold fire_cb. intros E. destruct k as [i|rid mseq ty p i].
  - right. exists (c_done c), i. split; [auto|]. rewrite <- E. f_equal. destruct c; reflexivity.
  - destruct (zmem rid (c_done c)); [injection E as <- <-; left; exists (c_outgoing c); split; [destruct c|]; reflexivity|].
    destruct ok; cbn [negb] in E; [right; exists (rid :: c_done c), i; split; [right; eauto|exact E]|].
    injection E as <- <-. left. eauto.
Qed.

(* Which fields each part writes.  wr m c c': c' is c with at most the fields of the mask m overwritten.
   Each part of the call tree has its mask and one lemma; that a projection, a frame record or an invariant
   which reads none of the mask's fields is kept is then wr_keeps with a side condition closed by
   computation on variables. *)
Inductive field :=
  F_server | F_key | F_status | F_incoming | F_outgoing | F_packs | F_pcbs | F_pretry | F_pretry_msg | F_pfrags
| F_rfrags | F_seq_send | F_seq_msg | F_seq_frag | F_bf_pkt | F_bf_msg | F_out_timeout | F_temp_timeout
| F_send_interval | F_ka_interval | F_last_recv | F_last_send | F_last_ka | F_sent | F_dropped | F_received
| F_acked | F_timeouts | F_assembled | F_done | F_next_rid | F_hello_sent | F_conn_cb | F_token.

Definition mask := field -> bool.
Definition pick {A} (b : bool) (x y : A) : A := if b then y else x.

Definition over (m : mask) (c d : conn) : conn :=
  {| c_server := pick (m F_server) (c_server c) (c_server d); c_key := pick (m F_key) (c_key c) (c_key d);
     c_status := pick (m F_status) (c_status c) (c_status d); c_incoming := pick (m F_incoming) (c_incoming c) (c_incoming d);
     c_outgoing := pick (m F_outgoing) (c_outgoing c) (c_outgoing d); c_packs := pick (m F_packs) (c_packs c) (c_packs d);
     c_pcbs := pick (m F_pcbs) (c_pcbs c) (c_pcbs d); c_pretry := pick (m F_pretry) (c_pretry c) (c_pretry d);
     c_pretry_msg := pick (m F_pretry_msg) (c_pretry_msg c) (c_pretry_msg d); c_pfrags := pick (m F_pfrags) (c_pfrags c) (c_pfrags d);
     c_rfrags := pick (m F_rfrags) (c_rfrags c) (c_rfrags d); c_seq_send := pick (m F_seq_send) (c_seq_send c) (c_seq_send d);
     c_seq_msg := pick (m F_seq_msg) (c_seq_msg c) (c_seq_msg d); c_seq_frag := pick (m F_seq_frag) (c_seq_frag c) (c_seq_frag d);
     c_bf_pkt := pick (m F_bf_pkt) (c_bf_pkt c) (c_bf_pkt d); c_bf_msg := pick (m F_bf_msg) (c_bf_msg c) (c_bf_msg d);
     c_out_timeout := pick (m F_out_timeout) (c_out_timeout c) (c_out_timeout d);
     c_temp_timeout := pick (m F_temp_timeout) (c_temp_timeout c) (c_temp_timeout d);
     c_send_interval := pick (m F_send_interval) (c_send_interval c) (c_send_interval d);
     c_ka_interval := pick (m F_ka_interval) (c_ka_interval c) (c_ka_interval d);
     c_last_recv := pick (m F_last_recv) (c_last_recv c) (c_last_recv d); c_last_send := pick (m F_last_send) (c_last_send c) (c_last_send d);
     c_last_ka := pick (m F_last_ka) (c_last_ka c) (c_last_ka d); c_sent := pick (m F_sent) (c_sent c) (c_sent d);
     c_dropped := pick (m F_dropped) (c_dropped c) (c_dropped d); c_received := pick (m F_received) (c_received c) (c_received d);
     c_acked := pick (m F_acked) (c_acked c) (c_acked d); c_timeouts := pick (m F_timeouts) (c_timeouts c) (c_timeouts d);
     c_assembled := pick (m F_assembled) (c_assembled c) (c_assembled d); c_done := pick (m F_done) (c_done c) (c_done d);
     c_next_rid := pick (m F_next_rid) (c_next_rid c) (c_next_rid d); c_hello_sent := pick (m F_hello_sent) (c_hello_sent c) (c_hello_sent d);
     c_conn_cb := pick (m F_conn_cb) (c_conn_cb c) (c_conn_cb d); c_token := pick (m F_token) (c_token c) (c_token d) |}.

(* With the witness, and not as c' = over m c c': that form cannot be substituted. *)
Definition wr (m : mask) (c c' : conn) : Prop := exists d, c' = over m c d.

Lemma pick_same {A} b (x : A) : pick b x x = x. Proof. destruct b; reflexivity. Qed.
Lemma pick_pick {A} b (x y z : A) : pick b (pick b x y) z = pick b x z. Proof. destruct b; reflexivity. Qed.

Lemma wr_refl m c : wr m c c.
Proof. exists c. destruct c. unfold over. cbn. rewrite !pick_same. reflexivity. Qed.

Lemma wr_trans m a b c : wr m a b -> wr m b c -> wr m a c.
Proof. intros [d1 ->] [d2 ->]. exists d2. unfold over. cbn. rewrite !pick_pick. reflexivity. Qed.

(* for a closed mask and c' a record update of a variable c the premise holds by computation *)
Lemma wr_intro m c c' : c' = over m c c' -> wr m c c'.
Proof. intros H. exists c'. exact H. Qed.

(* every field of m is one of m'; for closed masks by computation *)
Notation part_of m m' := (forall c d, over m c d = over m' c (over m c d)) (only parsing).

Lemma wr_sub m m' : part_of m m' -> forall c c', wr m c c' -> wr m' c c'.
Proof. intros H c c' [d ->]. eexists. apply H. Qed.
Arguments wr_sub m m' _ {c c'} _.

Lemma wr_seq m1 m2 m a b c : part_of m1 m -> part_of m2 m -> wr m1 a b -> wr m2 b c -> wr m a c.
Proof. intros S1 S2 H1 H2. exact (wr_trans m a b c (wr_sub m1 m S1 H1) (wr_sub m2 m S2 H2)). Qed.

Lemma wr_keeps {A} m (g : conn -> A) : (forall c d, g (over m c d) = g c) -> forall c c', wr m c c' -> g c' = g c.
Proof. intros G c c' [d ->]. apply G. Qed.
Arguments wr_keeps {A} m g _ {c c'} _.

Lemma wr_rel (X : conn -> conn -> Prop) m : (forall c d, X c (over m c d)) -> forall c c', wr m c c' -> X c c'.
Proof. intros H c c' [d ->]. apply H. Qed.

Definition W_queue : mask := fun f => match f with F_seq_msg | F_next_rid | F_outgoing | F_sent => true | _ => false end.
Definition W_send : mask := fun f => match f with F_seq_frag | F_pfrags => true | _ => W_queue f end.
Definition W_disc : mask := fun f =>
  match f with F_incoming | F_pcbs | F_pretry | F_packs | F_status => true | _ => W_queue f end.
Definition W_hello : mask := fun f => match f with F_status | F_hello_sent => true | _ => W_queue f end.
Definition W_cfg : mask := fun f =>
  match f with F_ka_interval | F_out_timeout | F_temp_timeout | F_send_interval => true | _ => false end.
Definition W_icb : mask := fun f => match f with F_pfrags => true | _ => false end.
Definition W_cb : mask := fun f => match f with F_done | F_outgoing | F_pfrags => true | _ => false end.
Definition W_forget : mask := fun f => match f with F_pretry_msg | F_pretry | F_packs => true | _ => false end.
Definition W_resolve : mask := fun f => match f with F_acked | F_timeouts | F_pcbs => true | _ => W_forget f || W_cb f end.
Definition W_frag : mask := fun f => match f with F_rfrags | F_incoming => true | _ => false end.
Definition W_hs : mask := fun f => match f with F_token | F_key => true | _ => W_hello f end.
Definition W_msgs : mask := fun f => match f with F_bf_msg => true | _ => W_frag f || W_hs f end.
Definition W_recv : mask := fun f =>
  match f with F_dropped | F_bf_pkt | F_received | F_last_recv => true | _ => W_resolve f || W_msgs f end.
Definition W_status : mask := fun f => match f with F_status => true | _ => false end.
Definition W_update : mask := fun f => match f with F_status | F_hello_sent => true | _ => false end.
Definition W_register : mask := fun f =>
  match f with F_seq_send | F_packs | F_pretry_msg | F_pcbs | F_pretry => true | _ => false end.
(* _build_packet_impl leaves the clocks to _build_packet *)
Definition W_impl : mask := fun f => match f with F_outgoing => true | _ => W_register f end.
Definition W_build : mask := fun f =>
  match f with F_last_send | F_last_ka | F_assembled => true | _ => W_impl f end.
Definition W_tail : mask := fun f => W_build f || W_resolve f.

Lemma send_out e c p r k c' o : send e c p r k = (c', o) -> o = [] \/ o = [ORaise EValue].
Proof. intros E. destruct (send_inv E); auto. Qed.
Arguments send_out {_ _ _ _ _ _ _} _.

Lemma recv_fragment_out c now mseq frag c' o : recv_fragment c now mseq frag = (c', o) -> o = [] \/ o = [ORaise EStruct].
Proof. unfold recv_fragment. intros E. destruct (_ <? _)%nat; injection E as _ <-; auto. Qed.
Arguments recv_fragment_out {_ _ _ _ _ _} _.

Lemma send_type_wr c ty p r k : wr W_queue c (send_type c ty p r k).
Proof. apply wr_intro. reflexivity. Qed.

Lemma send_frags_wr frags : forall c fid n r i, wr W_queue c (send_frags c fid n r i frags).
Proof.
  induction frags as [|f rest IH]; intros; cbn [send_frags]; [apply wr_refl|].
  eapply wr_trans; [apply send_type_wr|apply IH].
Qed.

Lemma send_wr e c p r k c' o : send e c p r k = (c', o) -> wr W_send c c'.
Proof.
  intros E. destruct (send_inv E) as [_|_ _|_ _ _|_ _];
    [apply wr_refl|apply (wr_sub W_queue); [reflexivity|apply send_type_wr]|apply wr_intro; reflexivity|].
  unfold send_fragmented. eapply wr_trans; [|apply wr_intro; reflexivity].
  eapply wr_trans; cycle 1; [apply (wr_sub W_queue); [reflexivity|apply send_frags_wr]|apply wr_intro; reflexivity].
Qed.
Arguments send_wr {_ _ _ _ _ _ _} _.

Lemma status_wr t v : wr W_status t (t <| c_status := v |>).
Proof. apply wr_intro. reflexivity. Qed.
Lemma status_hello_wr t v h : wr W_update t (t <| c_status := v |> <| c_hello_sent := h |>).
Proof. apply wr_intro. reflexivity. Qed.

Lemma disconnect_wr c k : wr W_disc c (disconnect c k).
Proof.
  destruct (disconnect_cases c k) as [(_ & _ & ->)|(_ & ->)]; [apply (wr_sub W_status); [reflexivity|apply status_wr]|].
  eapply wr_trans; [|apply (wr_sub W_status); [reflexivity|apply status_wr]].
  eapply wr_trans; [|apply (wr_sub W_queue); [reflexivity|apply send_type_wr]]. apply wr_intro. reflexivity.
Qed.

Lemma client_hello_wr c now hello : wr W_hello c (client_hello c now hello).
Proof.
  unfold client_hello. apply (wr_seq W_queue W_update W_hello _ (send_type c CLIENT_HELLO hello RNone IHello)); try reflexivity;
    [apply send_type_wr|apply status_hello_wr].
Qed.

(* the pattern splits w as far as the match in step looks: 0, the positives down to 1 = xH and 2 = xO xH, the
   negatives *)
Lemma setcfg_wr e c w v : wr W_cfg c (fst (step e c (ESetCfg w v))).
Proof. destruct w as [|[[q|q|]|[q|q|]|]|q]; apply wr_intro; reflexivity. Qed.

Lemma fire_icb_wr c i ok c' o : fire_icb c i ok = (c', o) -> wr W_icb c c'.
Proof.
  intros E. apply fire_icb_cases in E as [? _|? ? ? ? _ _ _ _|? ? ? _ _ _]; [apply wr_refl|apply wr_intro; reflexivity..].
Qed.
Arguments fire_icb_wr {_ _ _ _ _} _.

Lemma fire_cb_wr c k ok c' o : fire_cb c k ok = (c', o) -> wr W_cb c c'.
Proof.
  intros E. apply fire_cb_cases in E as [(q & -> & _)|(d & i & _ & E)]; [apply wr_intro; reflexivity|].
  apply (wr_seq W_cb W_icb W_cb _ (c <| c_done := d |>)); try reflexivity; [apply wr_intro; reflexivity|eapply fire_icb_wr, E].
Qed.
Arguments fire_cb_wr {_ _ _ _ _} _.

Lemma fire_all_wr ok ks : forall c c' o, fire_all c ks ok = (c', o) -> wr W_cb c c'.
Proof.
  induction ks as [|k ks IH]; intros c c' o E; cbn [fire_all] in E; [injection E as <- _; apply wr_refl|].
  destruct (fire_cb c k ok) as [c1 o1] eqn:E1. destruct (fire_all c1 ks ok) as [c2 o2] eqn:E2. injection E as <- _.
  eapply wr_trans; [eapply fire_cb_wr, E1|eapply IH, E2].
Qed.
Arguments fire_all_wr {_ _ _ _ _} _.

Lemma forget_wr s c : wr W_forget c (forget s c).
Proof. unfold forget, forget_retry. destruct (dget s _); apply wr_intro; reflexivity. Qed.

Lemma count_outcome_wr ok c : wr W_resolve c (count_outcome ok c).
Proof. destruct ok; apply wr_intro; reflexivity. Qed.

Lemma unreg_wr s c : wr W_resolve c (c <| c_pcbs := ddel s (c_pcbs c) |>).
Proof. apply wr_intro. reflexivity. Qed.

Lemma resolve_wr ok c s c' o : resolve ok c s = (c', o) -> wr W_resolve c c'.
Proof.
  rewrite resolve_eq. destruct (dget s (c_pcbs c)) as [ks|].
  - destruct (fire_all _ ks ok) as [c1 o1] eqn:E1. intros E. injection E as <- _.
    eapply wr_trans; [apply count_outcome_wr|]. eapply wr_trans; [apply (wr_sub W_cb); [reflexivity|eapply fire_all_wr, E1]|].
    eapply wr_trans; [apply unreg_wr|]. apply (wr_sub W_forget); [reflexivity|apply forget_wr].
  - intros E. injection E as <- _. eapply wr_trans; [apply count_outcome_wr|]. apply (wr_sub W_forget); [reflexivity|apply forget_wr].
Qed.
Arguments resolve_wr {_ _ _ _ _} _.

Lemma resolve_reg ok c s c' o : resolve ok c s = (c', o) ->
  c_packs c' = ddel s (c_packs c) /\ forall s', dget s' (c_pcbs c') = if s' =? s then None else dget s' (c_pcbs c).
Proof.
  rewrite resolve_uniform. destruct (fire_all _ _ ok) as [c1 o1] eqn:E1. intros E. injection E as <- _.
  destruct (forget_fields s (c1 <| c_pcbs := ddel s (c_pcbs c1) |>)) as (_ & _ & -> & ->). cbn [c_packs c_pcbs set].
  pose proof (wr_keeps W_cb (fun a => (c_packs a, c_pcbs a)) (fun _ _ => eq_refl) (fire_all_wr E1)) as K. injection K as -> ->.
  split; [destruct ok; reflexivity|intros s'; rewrite dget_ddel; destruct ok; reflexivity].
Qed.
Arguments resolve_reg {ok c s c' o} _.

Lemma resolve_pcbs_sub ok c s c' o : resolve ok c s = (c', o) ->
  forall s' ks, dget s' (c_pcbs c') = Some ks -> dget s' (c_pcbs c) = Some ks.
Proof. intros E s' ks. rewrite (proj2 (resolve_reg E)). destruct (s' =? s); [discriminate|auto]. Qed.

Lemma sweep_wr verdict snap : forall c c' o, sweep verdict c snap = (c', o) -> wr W_resolve c c'.
Proof.
  induction snap as [|[s t] r IH]; intros c c' o E; cbn [sweep] in E; [injection E as <- _; apply wr_refl|].
  dpair E c1 o1 E1. destruct (sweep verdict c1 r) as [c2 o2] eqn:E2. injection E as <- _.
  eapply wr_trans; [|eapply IH, E2]. destruct (verdict c s t); [eapply resolve_wr, E1|injection E1 as <- _; apply wr_refl].
Qed.
Arguments sweep_wr {_ _ _ _ _} _.

Lemma handle_ack_bits_wr c h c' o : handle_ack_bits c h = (c', o) -> wr W_resolve c c'.
Proof. unfold handle_ack_bits. rewrite ack_loop_sweep. apply sweep_wr. Qed.
Arguments handle_ack_bits_wr {_ _ _ _} _.

Lemma check_timeout_wr strict c now c' o : check_timeout strict c now = (c', o) -> wr W_resolve c c'.
Proof. unfold check_timeout. rewrite timeout_loop_sweep. apply sweep_wr. Qed.
Arguments check_timeout_wr {_ _ _ _ _} _.

Lemma recv_app_wr c s p : wr W_frag c (recv_app c s p).
Proof. apply wr_intro. reflexivity. Qed.

Lemma recv_fragment_wr c now mseq frag c' o : recv_fragment c now mseq frag = (c', o) -> wr W_frag c c'.
Proof.
  unfold recv_fragment. intros E. destruct (_ <? _)%nat; injection E as <- _; [apply wr_refl|].
  unfold recv_app. destruct (fr_complete _); apply wr_intro; reflexivity.
Qed.
Arguments recv_fragment_wr {_ _ _ _ _ _} _.

Lemma recv_handshake_wr c ty oo c' os : recv_handshake c ty oo = (c', os) -> wr W_hs c c'.
Proof.
  intros E. destruct (recv_handshake_inv _ _ _ _ _ E) as [os' _ _ _|_ _ _ _|_ _ _ _|_ _ _|_ _ _].
  - apply wr_refl.
  - eapply wr_trans; [|apply (wr_sub W_queue); [reflexivity|apply send_type_wr]]. apply wr_intro. reflexivity.
  - apply wr_intro. reflexivity.
  - apply wr_intro. reflexivity.
  - eapply wr_trans; [|apply (wr_sub W_update); [reflexivity|apply status_hello_wr]].
    eapply wr_trans; [|apply (wr_sub W_queue); [reflexivity|apply send_type_wr]]. apply wr_intro. reflexivity.
Qed.
Arguments recv_handshake_wr {_ _ _ _ _} _.

Lemma dispatch_wr c now m orcs c' o orcs' : dispatch c now m orcs = (c', o, orcs') -> wr W_msgs c c'.
Proof.
  unfold dispatch. intros E. destruct (w_type m);
    try (injection E as <- _ _; try apply wr_refl; try (apply wr_intro; reflexivity); fail);
    try (destruct (recv_handshake c _ _) as [c1 o1] eqn:E1; injection E as <- _ _; apply (wr_sub W_hs); [reflexivity|eapply recv_handshake_wr, E1]).
  destruct (recv_fragment c now _ _) as [c1 o1] eqn:E1. injection E as <- _ _. apply (wr_sub W_frag); [reflexivity|eapply recv_fragment_wr, E1].
Qed.
Arguments dispatch_wr {_ _ _ _ _ _ _} _.

Lemma recv_handshake_key_held c ty oo c' os : recv_handshake c ty oo = (c', os) -> c_key c <> None -> c_key c' <> None.
Proof.
  intros E HK. destruct (recv_handshake_inv _ _ _ _ _ E) as [os' _ _ _|_ _ _ _|_ _ _ _|_ _ _|_ _ _]; try exact HK; discriminate.
Qed.

Lemma dispatch_key_held c now m orcs c' o orcs' : dispatch c now m orcs = (c', o, orcs') -> c_key c <> None -> c_key c' <> None.
Proof.
  unfold dispatch. intros E HK.
  assert (Hh : forall ty, (let '(c1, o1) := recv_handshake c ty (hd no_oracle orcs) in (c1, o1, tl orcs)) = (c', o, orcs') -> c_key c' <> None).
  { intros ty E1. destruct (recv_handshake c ty _) as [c1 o1] eqn:Eh. injection E1 as <- _ _. exact (recv_handshake_key_held _ _ _ _ _ Eh HK). }
  destruct (w_type m); try (exact (Hh _ E)); try (injection E as <- _ _; exact HK).
  destruct (recv_fragment c now _ _) as [c1 o1] eqn:Ef. injection E as <- _ _.
  rewrite (wr_keeps W_frag c_key (fun _ _ => eq_refl) (recv_fragment_wr Ef)). exact HK.
Qed.

Lemma recv_msgs_wr ms : forall c now orcs c' o, recv_msgs c now ms orcs = (c', o) -> wr W_msgs c c'.
Proof.
  induction ms as [|m r IH]; intros c now orcs c' o E; [injection E as <- _; apply wr_refl|].
  rewrite recv_msgs_cons in E. destruct (bf_insert _ _) as [bf|]; [|eapply IH, E].
  destruct (dispatch _ now m orcs) as [[c1 o1] orcs'] eqn:E1. apply dispatch_wr in E1.
  assert (H1 : wr W_msgs c c1) by (eapply wr_trans; [|exact E1]; apply wr_intro; reflexivity).
  destruct (raised o1); [injection E as <- _; exact H1|].
  destruct (recv_msgs c1 now r orcs') as [c2 o2] eqn:E2. injection E as <- _. eapply wr_trans; [exact H1|eapply IH, E2].
Qed.
Arguments recv_msgs_wr {_ _ _ _ _ _} _.

Lemma recv_wr c now d orcs c' o : recv c now d orcs = (c', o) -> wr W_recv c c'.
Proof.
  intros E. apply recv_cases in E as [(-> & _)|(ms & bf & c1 & o1 & o2 & _ & _ & _ & E1 & E2 & _)]; [apply wr_intro; reflexivity|].
  eapply wr_trans; [|apply (wr_sub W_msgs); [reflexivity|eapply recv_msgs_wr, E2]].
  eapply wr_trans; [|apply (wr_sub W_resolve); [reflexivity|eapply handle_ack_bits_wr, E1]]. apply wr_intro. reflexivity.
Qed.
Arguments recv_wr {_ _ _ _ _ _} _.

Lemma client_update_wr c now c' o : client_update c now = (c', o) -> wr W_update c c'.
Proof.
  intros E. apply client_update_cases in E as (c0 & H0 & H).
  assert (W0 : wr W_update c c0) by (destruct H0 as [->| ->]; [apply wr_refl|apply (wr_sub W_status); [reflexivity|apply status_wr]]).
  destruct H as [[-> _]|[-> _]]; [exact W0|]. eapply wr_trans; [exact W0|apply status_hello_wr].
Qed.
Arguments client_update_wr {_ _ _ _} _.

Lemma register_wr c now msgs : wr W_register c (register c now msgs).
Proof. unfold register. destruct (retried now msgs), (opt_list (map m_cb msgs)); apply wr_intro; reflexivity. Qed.

Lemma build_impl_wr e c now ka delay c' r : build_impl e c now ka delay = (c', r) -> wr W_impl c c'.
Proof.
  rewrite build_impl_eq. destruct (select e c now delay) as [[prm rem] msgs]. cbv zeta.
  destruct (ptype_eqb _ _); intros E; injection E as <- _; [apply wr_intro; reflexivity|].
  eapply wr_trans; [|apply (wr_sub W_register); [reflexivity|apply register_wr]]. apply wr_intro. reflexivity.
Qed.
Arguments build_impl_wr {_ _ _ _ _ _ _} _.

Lemma build_packet_wr e c now c' r : build_packet e c now = (c', r) -> wr W_build c c'.
Proof.
  intros E. apply build_packet_cases in E as [(_ & -> & _)|(c1 & _ & E1 & ->)]; [apply wr_refl|].
  apply build_impl_wr, (wr_sub W_impl W_build (fun _ _ => eq_refl)) in E1.
  destruct r; [|exact E1]. eapply wr_trans; [exact E1|]. apply wr_intro. reflexivity.
Qed.
Arguments build_packet_wr {_ _ _ _ _} _.

Lemma build_packet_hdr e c now c' r : build_packet e c now = (c', r) ->
  match r with
  | None => c_seq_send c' = c_seq_send c /\ c_packs c' = c_packs c /\
            c_last_send c' = c_last_send c /\ c_assembled c' = c_assembled c
  | Some (h, ms) =>
      c_seq_send c' = seq_succ (c_seq_send c) /\ c_packs c' = dset (seq_succ (c_seq_send c)) now (c_packs c) /\
      c_last_send c' = now /\ c_assembled c' = c_assembled c + 1 /\ c_send_interval c <= now - c_last_send c /\
      h_seq h = seq_succ (c_seq_send c) /\ h_ctime h = now / TICKS /\ h_to_server h = negb (c_server c) /\
      h_ack h = bf_cur (c_bf_pkt c) /\ h_ackbits h = bf_bits (c_bf_pkt c)
  end.
Proof.
  intros E. apply build_packet_cases in E as [(_ & -> & ->)|(c1 & Hrate & E1 & ->)]; [auto|].
  pose proof (wr_keeps W_impl (fun c => (c_last_send c, c_assembled c)) (fun _ _ => eq_refl) (build_impl_wr E1)) as K.
  injection K as L M.
  apply build_impl_hdr in E1. destruct r as [[h ms]|]; cbn.
  - destruct E1 as (Q & P & F1 & F2 & F3 & F4 & F5). repeat split; try assumption; lia.
  - destruct E1. auto.
Qed.

Lemma tick_tail_wr strict e c now c' o2 o3 : tick_tail strict e c now = (c', o2, o3) -> wr W_tail c c'.
Proof.
  intros E. apply tick_tail_cases in E as (c1 & pk & E1 & E2 & _).
  exact (wr_seq W_build W_resolve W_tail _ _ _ (fun _ _ => eq_refl) (fun _ _ => eq_refl) (build_packet_wr E1) (check_timeout_wr E2)).
Qed.
Arguments tick_tail_wr {_ _ _ _ _ _ _} _.

(* ServerClientConnection.update hands the packet to the socket after its sweep: emit reads the key off
   the state the sweep returns, and the sweep keeps the key *)
Lemma server_tick_eq e c now :
  server_tick e c now =
  if now - c_last_send c >? c_send_interval c
  then let '(c2, o2, o3) := tick_tail true e c now in (c2, o3 ++ o2) else (c, []).
Proof.
  unfold server_tick, tick_tail. destruct (_ >? _); [|reflexivity].
  destruct (build_packet _ _ _) as [c1 pk]. destruct (check_timeout _ _ _) as [c2 o3] eqn:E.
  destruct pk; [|reflexivity].
  rewrite (emit_key c2 c1 _ (wr_keeps W_resolve c_key (fun _ _ => eq_refl) (check_timeout_wr E))). reflexivity.
Qed.

Lemma server_tick_cases e c now c' o : server_tick e c now = (c', o) ->
  (now - c_last_send c <= c_send_interval c /\ c' = c /\ o = []) \/
  (c_send_interval c < now - c_last_send c /\ exists o2 o3, tick_tail true e c now = (c', o2, o3) /\ o = o3 ++ o2).
Proof.
  rewrite server_tick_eq. destruct (_ >? _) eqn:G; [|intros E; injection E as <- <-; left; split; [lia|auto]].
  destruct (tick_tail true e c now) as [[c2 o2] o3]. intros E. injection E as <- <-. right. split; [lia|eauto].
Qed.

Lemma server_tick_wr e c now c' o : server_tick e c now = (c', o) -> wr W_tail c c'.
Proof.
  intros E. apply server_tick_cases in E as [(_ & -> & _)|(_ & o2 & o3 & E & _)]; [apply wr_refl|exact (tick_tail_wr E)].
Qed.
Arguments server_tick_wr {_ _ _ _ _} _.
