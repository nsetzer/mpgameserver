(* The receive path of Conn.v before the windows: what open_dgram accepts is the
   symbolic notion of an authentic datagram, and the exact effect of a refused datagram. *)
From Coq Require Import Lia.
From RecordUpdate Require Import RecordUpdate.
From Model Require Import Base SeqNum Wire Conn RecvSpec.
From Proofs Require Import ConnFrameP.
Import RecordSetNotations.
Open Scope Z_scope.

Lemma authenticb_spec k d : authenticb k d = true <-> authentic k d.
Proof.
  unfold authenticb, authentic. split.
  - destruct (d_body d) as [k' sh p| |]; try discriminate. intros H.
    apply andb_prop in H as [Hk Hh].
    apply header_eqb_eq in Hh. apply Z.eqb_eq in Hk. subst. exists p. reflexivity.
  - intros [p ->]. rewrite Z.eqb_refl, header_eqb_refl. reflexivity.
Qed.

Lemma open_key_payload k d ms : open_dgram (Some k) d = Ok ms ->
  exists p, d_body d = Sealed k (d_hdr d) p /\ len p <= h_len (d_hdr d) <= len p + 16
            /\ decode_msgs (h_type (d_hdr d)) (h_count (d_hdr d)) p = Ok ms.
Proof. exact (open_sealed_payload k d ms). Qed.

Lemma open_key_authentic k d ms : open_dgram (Some k) d = Ok ms -> authentic k d.
Proof. intros H. destruct (open_sealed_payload k d ms H) as (p & Hb & _). exists p. exact Hb. Qed.

Lemma open_key_refuses k d : ~ authentic k d -> exists e, open_dgram (Some k) d = Err e.
Proof.
  intros Hn. destruct (open_dgram (Some k) d) as [ms|e] eqn:E; [|eauto].
  exfalso. apply Hn. eapply open_key_authentic; eauto.
Qed.

(* callbacks and log lines only: no handler-connect, return value or exception (ConnFrameP.cb_only with the
   Forall spelled out, shadowing it from here on: cb_only_Forall) *)
Definition cb_only (o : list out) : Prop :=
  forall x, In x o -> match x with OCallback _ _ | OLog _ => True | _ => False end.

Lemma cb_only_Forall o : cb_only o <-> ConnFrameP.cb_only o.
Proof. symmetry. apply Forall_forall. Qed.

Lemma recv_drop_key c now d orcs k : c_key c = Some k -> ~ authentic k d ->
  recv c now d orcs = (bump c, [ORet false]).
Proof.
  intros Hk Hn. unfold recv. rewrite keyless_refuses_eq, Hk.
  destruct (open_key_refuses k d Hn) as [e He]. rewrite He. reflexivity.
Qed.

Lemma recv_accept_authentic c now d orcs k : c_key c = Some k ->
  recv c now d orcs <> (bump c, [ORet false]) -> authentic k d.
Proof.
  intros Hk Hne. destruct (authenticb k d) eqn:E; [apply authenticb_spec; exact E|].
  exfalso. apply Hne. apply (recv_drop_key c now d orcs k Hk).
  intros Ha. apply authenticb_spec in Ha. congruence.
Qed.
