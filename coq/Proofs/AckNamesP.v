(* C07 / C05, the peer's half of "success means accepted": the (ack, ack_bits) fields a
   connection puts into the headers it emits name exactly datagrams it has accepted.  C08's window
   refinement (SeqNumP.R) lifted to the connection, for every event history.  Received datagrams
   are labelled with the sender's true (unbounded) datagram index n: their wire sequence number is
   wire n, and arrivals stay within HALF of the newest accepted index (the half-range hypothesis). *)
From Coq Require Import Lia.
From RecordUpdate Require Import RecordUpdate.
From Model Require Import Base SeqNum Wire Conn Net Net2.
From Proofs Require Import SeqNumP ConnFrameP NonceP.
Import RecordSetNotations.
Open Scope Z_scope.

Definition ghost := option (Z * list Z).          (* newest accepted index, all accepted indices *)

(* the datagram window of c refines the ghost g (RecvHistP.W at width 32; ghost, ghost_add, accepted_idx, near and
   dgram_of below are Net2.idxset, idx_add, idx_acc, idx_near and Net.dgram_in, in which Net2's joint ghost is written) *)
Definition GI (c : conn) (g : ghost) : Prop :=
  match g with
  | None => c_bf_pkt c = bf_new 32
  | Some (m, acc) => R (c_bf_pkt c) m acc /\ bf_nbits (c_bf_pkt c) = 32
  end.

Definition ghost_add (g : ghost) (n : Z) : ghost :=
  match g with None => Some (n, [n]) | Some (m, acc) => Some (Z.max m n, n :: acc) end.

Definition accepted_idx (g : ghost) : list Z := match g with None => [] | Some (_, acc) => acc end.

Definition near (g : ghost) (n : Z) : Prop := forall m acc, g = Some (m, acc) -> Z.abs (n - m) <= HALF.

Lemma GI_same c c' g : c_bf_pkt c' = c_bf_pkt c -> GI c g -> GI c' g.
Proof. intros E. unfold GI. rewrite E. auto. Qed.

Lemma recv_msgs_bfp ms c now orcs c' o : recv_msgs c now ms orcs = (c', o) -> c_bf_pkt c' = c_bf_pkt c.
Proof. intros E. exact (wr_keeps W_msgs c_bf_pkt (fun _ _ => eq_refl) (recv_msgs_wr E)). Qed.

Lemma build_packet_bfp e c now c' r : build_packet e c now = (c', r) -> c_bf_pkt c' = c_bf_pkt c.
Proof. intros E. exact (wr_keeps W_build c_bf_pkt (fun _ _ => eq_refl) (build_packet_wr E)). Qed.

Definition names_accepted (g : ghost) (h : header) : Prop :=
  forall m acc, g = Some (m, acc) -> forall i, 1 <= i -> Z.abs (i - m) <= HALF ->
    hdr_acks (h_ack h) (h_ackbits h) (wire i) = true -> In i acc /\ m - i <= 32.

Lemma GI_names c g h : GI c g -> h_ack h = bf_cur (c_bf_pkt c) -> h_ackbits h = bf_bits (c_bf_pkt c) -> names_accepted g h.
Proof.
  intros HG Ha Hb m acc -> i Hi Hnear Hack. cbn in HG. destruct HG as [HR Hnb].
  rewrite hdr_acks_contains, Ha, Hb in Hack.
  assert (Hf : {| bf_nbits := 32; bf_bits := bf_bits (c_bf_pkt c); bf_cur := bf_cur (c_bf_pkt c) |} = c_bf_pkt c)
    by (destruct (c_bf_pkt c); cbn in *; congruence).
  rewrite Hf, (R_contains _ _ _ i HR Hnear), Hnb in Hack.
  unfold spec_dup in Hack. apply andb_prop in Hack as [Hack H3]. apply andb_prop in Hack as [H1 H2].
  split; [|lia]. fold (InB i acc) in H1. apply InB_In. exact H1.
Qed.

Definition dgram_of (x : ev) : option dgram :=
  match x with ERecv _ d _ => Some d | EClientTick _ (RxDgram d _) => Some d | _ => None end.

Lemma recv_window c now d orcs c' o : recv c now d orcs = (c', o) ->
  if opens c d && is_ok (bf_insert (c_bf_pkt c) (h_seq (d_hdr d)))
  then exists bf, bf_insert (c_bf_pkt c) (h_seq (d_hdr d)) = Ok bf /\ c_bf_pkt c' = bf
  else c_bf_pkt c' = c_bf_pkt c.
Proof.
  intros E. unfold opens.
  apply recv_cases in E as [(-> & _ & [G|[(er & G)|(er & G)]])|(ms & bf & c1 & o1 & o2 & G1 & G2 & G3 & E1 & E2 & _)];
    rewrite ?G, ?G1, ?G2, ?G3, ?andb_false_r; try reflexivity.
  exists bf. split; [reflexivity|].
  apply recv_msgs_bfp in E2. rewrite E2, (wr_keeps W_resolve c_bf_pkt (fun _ _ => eq_refl) (handle_ack_bits_wr E1)). reflexivity.
Qed.

Lemma tick_tail_fields strict e c now c1 pk c2 o2 :
  build_packet e c now = (c1, pk) -> check_timeout strict c1 now = (c2, o2) ->
  c_bf_pkt c2 = c_bf_pkt c /\
  forall cx, Forall (fun h => h_ack h = bf_cur (c_bf_pkt c) /\ h_ackbits h = bf_bits (c_bf_pkt c)) (emits (match pk with Some p => emit cx p | None => [] end)).
Proof.
  intros E1 E2. pose proof (build_packet_bfp _ _ _ _ _ E1) as B1. apply build_packet_hdr in E1.
  pose proof (wr_keeps W_resolve c_bf_pkt (fun _ _ => eq_refl) (check_timeout_wr E2)) as B2.
  split; [congruence|]. intros cx. destruct pk as [[h ms]|]; [|constructor].
  destruct E1 as (_ & _ & _ & _ & _ & _ & _ & _ & Fa & Fb).   (* the last two of build_packet_hdr: h_ack, h_ackbits *)
  destruct (emits_emit cx h ms) as [->|(n & ->)]; [constructor|]. repeat constructor; [exact Fa|exact Fb].
Qed.

Lemma client_update_window c now : c_bf_pkt (fst (client_update c now)) = c_bf_pkt c /\ c_key (fst (client_update c now)) = c_key c.
Proof.
  pose proof (client_update_wr (c := c) (now := now) (surjective_pairing _)) as W.
  split; [exact (wr_keeps W_update c_bf_pkt (fun _ _ => eq_refl) W)|exact (wr_keeps W_update c_key (fun _ _ => eq_refl) W)].
Qed.

Lemma opens_same c c' d : c_key c' = c_key c -> opens c' d = opens c d.
Proof. intros E. unfold opens, keyless_refuses. rewrite E. reflexivity. Qed.

Lemma tick_tail_bfp strict e c now c' o2 o3 : tick_tail strict e c now = (c', o2, o3) -> c_bf_pkt c' = c_bf_pkt c.
Proof. intros E. apply tick_tail_cases in E as (c1 & pk & E1 & E2 & _). exact (proj1 (tick_tail_fields _ _ _ _ _ _ _ _ E1 E2)). Qed.

Lemma catom_window e x c c' o : catom e x c c' o -> c_bf_pkt c' = c_bf_pkt c /\ c_key c' = c_key c.
Proof.
  intros [p r k c1 o1 _ E|k _|w v ->|now hello _|_|b _|now r c1 o1 _ E|now er _]; try (split; reflexivity).
  - pose proof (wr_keeps W_send (fun a => (c_bf_pkt a, c_key a)) (fun _ _ => eq_refl) (send_wr E)) as K. injection K. auto.
  - pose proof (wr_keeps W_disc (fun a => (c_bf_pkt a, c_key a)) (fun _ _ => eq_refl) (disconnect_wr c k)) as K. injection K. auto.
  - pose proof (wr_keeps W_cfg (fun a => (c_bf_pkt a, c_key a)) (fun _ _ => eq_refl) (setcfg_wr e c w v)) as K. injection K. auto.
  - pose proof (wr_keeps W_update (fun a => (c_bf_pkt a, c_key a)) (fun _ _ => eq_refl) (client_update_wr E)) as K. injection K. auto.
Qed.

(* the part before the datagram and the tail leave the window alone: after a step it is what the receive in its middle makes of it *)
Lemma step_window_bf e c x c' o : step e c x = (c', o) ->
  match accepts c x with
  | Some d => dgram_in x = Some d /\ opens c d = true /\
              exists bf, bf_insert (c_bf_pkt c) (h_seq (d_hdr d)) = Ok bf /\ c_bf_pkt c' = bf
  | None => c_bf_pkt c' = c_bf_pkt c
  end.
Proof.
  intros E. unfold accepts. apply step_shape in E as (c0 & c1 & o0 & o1 & ot & H0 & H1 & Ht & _).
  assert (K0 : c_bf_pkt c0 = c_bf_pkt c /\ c_key c0 = c_key c).
  { revert H0. apply (star_rel (catom e x) (fun a b _ => c_bf_pkt b = c_bf_pkt a /\ c_key b = c_key a));
      [auto|intros a b d _ _ [] []; split; congruence|apply catom_window]. }
  assert (Bt : c_bf_pkt c' = c_bf_pkt c1) by (destruct Ht as [_|c2 o2 o3 _ _ T]; [reflexivity|eapply tick_tail_bfp, T]).
  destruct K0 as [B0 K0]. rewrite Bt. destruct H1 as [Hp|now d orcs c1 o1 o1' Hp Hf Er]; rewrite Hp; [exact B0|].
  apply recv_window in Er. rewrite (opens_same c c0 d K0), B0 in Er |- *. destruct (opens c d && _) eqn:Eg; [|exact Er].
  apply andb_prop in Eg as [Eg _]. split; [destruct Hf as [(-> & _)|(-> & _)]; reflexivity|]. auto.
Qed.

(* the one packet of a step is assembled after the receive, and the sweep behind it leaves the window alone *)
Lemma step_emits_fields e c x c' o : step e c x = (c', o) ->
  Forall (fun h => h_ack h = bf_cur (c_bf_pkt c') /\ h_ackbits h = bf_bits (c_bf_pkt c')) (emits o).
Proof.
  intros E. apply step_packet in E as [N|(c1 & c2 & pk & o1 & o3 & _ & _ & E1 & E2 & Hy)]; [rewrite (emits_no_emit _ N); constructor|].
  destruct (tick_tail_fields _ _ _ _ _ _ _ _ E1 E2) as [B F]. rewrite B. specialize (F c2). rewrite Forall_forall in *. intros h Hh. apply F.
  unfold emits in *. apply in_flat_map in Hh as (y & Hy1 & Hy2). apply in_flat_map. exists y. split; [|exact Hy2].
  apply Hy; [destruct y; try destruct Hy2; reflexivity|exact Hy1].
Qed.

Lemma GI_accept c g s l bf c' :
  GI c g -> bf_insert (c_bf_pkt c) s = Ok bf -> c_bf_pkt c' = bf -> s = wire l -> 1 <= l -> near g l ->
  GI c' (ghost_add g l).
Proof.
  intros HG Hins Hc' -> Hl Hnear. unfold GI in *. rewrite Hc'. destruct g as [[m acc]|]; cbn [ghost_add].
  - destruct HG as [HR Hnb]. pose proof (R_step _ _ _ l HR (Hnear _ _ eq_refl)) as Hs.
    destruct (spec_dup _ m acc l); [congruence|].
    destruct Hs as (f' & E1 & E2 & E3). assert (f' = bf) as -> by congruence. split; [exact E3|congruence].
  - rewrite HG in Hins. destruct (R_first 32 l ltac:(lia) Hl) as [E1 E2].
    assert (bf = {| bf_nbits := 32; bf_bits := 0; bf_cur := wire l |}) as -> by congruence. split; [exact E2|reflexivity].
Qed.

(* the ack fields of what a step emits name only accepted indices: C08's refinement lifted to a step *)
Theorem step_ghost e c x n g c' o :
  GI c g ->
  (forall d, dgram_of x = Some d -> h_seq (d_hdr d) = wire n /\ 1 <= n /\ near g n) ->
  step e c x = (c', o) ->
  exists g', GI c' g' /\ (g' = g \/ g' = ghost_add g n) /\ Forall (names_accepted g') (emits o).
Proof.
  intros HG Hidx E. pose proof (step_window_bf _ _ _ _ _ E) as W. pose proof (step_emits_fields _ _ _ _ _ E) as F.
  assert (exists g', GI c' g' /\ (g' = g \/ g' = ghost_add g n)) as (g' & G' & D).
  { destruct (accepts c x) as [d|]; [|exists g; split; [eapply GI_same; eassumption|auto]].
    destruct W as (Hd & _ & bf & Hins & Hbf). destruct (Hidx d Hd) as (I1 & I2 & I3).
    exists (ghost_add g n). split; [eapply GI_accept; eassumption|auto]. }
  exists g'. split; [exact G'|]. split; [exact D|].
  eapply Forall_impl; [|exact F]. intros h [Ha Hb]. eapply GI_names; eassumption.
Qed.
