(* SerCostP.v — the logging decoder of Model/SerCost.v:
   (1) erasure: forgetting the read log gives exactly Ser.dec_value (same result, same bytes left,
       same number of value decodes, number of reads = length of the log);
   (2) the log: every read returned between 0 and its (non-negative) size argument, and the
       bytes returned by all reads together are exactly the bytes the stream moved forward. *)
From Coq Require Import Lia ZifyBool.
From Model Require Import Base Ser SerCost.
From Proofs Require Import BytesP SerDecP.
Open Scope Z_scope.

Definition entry_ok (p : Z * Z) : Prop := 0 <= snd p /\ (0 <= fst p -> snd p <= fst p).
Definition log_ok (l : list (Z * Z)) : Prop := Forall entry_ok l.

Lemma log_bytes_app a b : log_bytes (a ++ b) = log_bytes a + log_bytes b.
Proof. induction a as [|p a IH]; simpl; [reflexivity|]. unfold log_bytes in *. simpl. rewrite IH. lia. Qed.

Definition CW {A} (mc : CM A) (m : M A) : Prop :=
  forall cs, match mc cs with
             | (r, cs') =>
                 m (erase cs) = (r, erase cs') /\
                 exists new, c_log cs' = new ++ c_log cs /\ log_ok new /\
                             log_bytes new = len (c_rem cs) - len (c_rem cs')
             end.

Lemma CW_nil {A} (r : sres A) cs (m : M A) :
  m (erase cs) = (r, erase cs) ->
  m (erase cs) = (r, erase cs) /\
  exists new, c_log cs = new ++ c_log cs /\ log_ok new /\ log_bytes new = len (c_rem cs) - len (c_rem cs).
Proof. intros H. split; [exact H|]. exists []. repeat split; [constructor|simpl; lia]. Qed.

Lemma CW_ret {A} (a : A) : CW (cret a) (ret a).
Proof. intros cs. apply CW_nil. reflexivity. Qed.
Lemma CW_fail {A} e : CW (@cfail A e) (fail e).
Proof. intros cs. apply CW_nil. reflexivity. Qed.
Lemma CW_lift {A} (r : sres A) : CW (clift r) (lift r).
Proof. intros cs. apply CW_nil. reflexivity. Qed.
Lemma CW_left : CW c_left m_left.
Proof. intros cs. apply CW_nil. reflexivity. Qed.
Lemma CW_tick : CW c_tick tick_val.
Proof.
  intros cs. unfold c_tick. split; [reflexivity|]. exists []. repeat split; [constructor|simpl; lia].
Qed.

Lemma CW_bind {A B} (mc : CM A) (m : M A) (fc : A -> CM B) (f : A -> M B) :
  CW mc m -> (forall a, CW (fc a) (f a)) -> CW (cbind mc fc) (mbind m f).
Proof.
  intros Hm Hf cs. unfold cbind, mbind. specialize (Hm cs).
  destruct (mc cs) as [[a|e] cs1]; destruct Hm as (Hs & new1 & Hl1 & Ho1 & Hb1); rewrite Hs.
  - specialize (Hf a cs1). destruct (fc a cs1) as [r cs2]. destruct Hf as (Hs2 & new2 & Hl2 & Ho2 & Hb2).
    split; [exact Hs2|]. exists (new2 ++ new1). rewrite Hl2, Hl1, app_assoc. split; [reflexivity|].
    split; [apply Forall_app; split; assumption|]. rewrite log_bytes_app. lia.
  - split; [reflexivity|]. exists new1. auto.
Qed.

Lemma CW_read n : CW (c_read n) (m_read n).
Proof.
  intros cs. unfold c_read. rewrite m_read_eq. cbn [erase c_rem c_nval c_log rem nrd nval].
  set (k := if n <? 0 then length (c_rem cs) else Z.to_nat n).
  assert (Hk : 0 <= n -> len (firstn k (c_rem cs)) <= n).
  { intros Hn. pose proof (len_firstn_le k (c_rem cs)). subst k. destruct (n <? 0) eqn:Hn0; lia. }
  clearbody k. split.
  - unfold erase. cbn [c_rem c_nval c_log]. rewrite len_cons. f_equal. f_equal. lia.
  - exists [(n, len (firstn k (c_rem cs)))]. split; [reflexivity|]. split.
    + constructor; [|constructor]. split; simpl; [apply len_nonneg|exact Hk].
    + unfold log_bytes. simpl. pose proof (len_split k (c_rem cs)). lia.
Qed.

Lemma CW_conv {A} (mc : CM A) m : CW mc m -> CW (c_conv mc) (conv m).
Proof.
  intros H cs. unfold c_conv, conv. specialize (H cs).
  destruct (mc cs) as [[a|e] cs']; destruct H as [-> Hl]; [|destruct e]; auto.
Qed.

(* The two decoders are the same text over different primitives and CW is kept by every primitive and
   by bind, so each step below follows the program: bind, case analysis on what the program inspects,
   or one of the lemmas above / hypotheses. *)
Ltac cw_step :=
  match goal with
  | |- CW (cbind _ _) (mbind _ _) => apply CW_bind; [|intro]
  | |- CW (match ?x with _ => _ end) _ => destruct x
  | |- CW (c_conv _) _ => apply CW_conv
  | |- CW (c_read _) _ => apply CW_read
  | |- CW (cret _) _ => apply CW_ret
  | |- CW (cfail _) _ => apply CW_fail
  | |- CW (clift _) _ => apply CW_lift
  | |- CW c_left _ => apply CW_left
  | |- CW c_tick _ => apply CW_tick
  | |- _ => solve [auto]
  end.

Lemma CW_rd f k : CW (c_rd f k) (rd f k).
Proof. destruct f; cbn [c_rd rd]; repeat cw_step. Qed.

Lemma CW_rep {A} n (mc : CM A) m : CW mc m -> CW (c_rep n mc) (rep n m).
Proof. intros H. induction n; cbn [c_rep rep]; repeat cw_step. Qed.

Lemma CW_dec_len subc sub cap : CW subc sub -> CW (c_dec_len subc cap) (dec_len sub cap).
Proof. intros H. unfold c_dec_len, dec_len. repeat cw_step. Qed.

Lemma CW_map_loop subc sub n : CW subc sub -> forall acc, CW (c_dec_map_loop subc n acc) (dec_map_loop sub n acc).
Proof. intros H. induction n; intros acc; cbn [c_dec_map_loop dec_map_loop]; repeat cw_step. Qed.

Lemma CW_fields subc sub defs : CW subc sub -> forall n, CW (c_dec_fields subc n defs) (dec_fields sub n defs).
Proof. intros H. induction defs; intros n; cbn [c_dec_fields dec_fields]; repeat cw_step. Qed.

Section Dec.
  Variable fc : fconv.
  Variable pk : value -> option serr.
  Variable reg : registry.

  Lemma CW_dec_body subc sub f1 :
    CW subc sub -> CW (c_dec_body fc pk reg subc f1) (dec_body fc pk reg sub f1).
  Proof.
    intros H. pose proof (CW_rd) as Hrd. pose proof (fun n => CW_rep n _ _ H) as Hrep.
    pose proof (fun cap => CW_dec_len _ _ cap H) as Hlen. pose proof (fun n => CW_map_loop _ _ n H) as Hmap.
    pose proof (fun defs => CW_fields _ _ defs H) as Hfld.
    unfold c_dec_body, dec_body, c_dec_base, dec_base, c_dec_cls, dec_cls. repeat cw_step.
  Qed.

  Lemma CW_dec_value fuel : CW (c_dec_value fc pk reg fuel) (dec_value fc pk reg fuel).
  Proof.
    apply (dec_value_ind fc pk reg (fun n m => CW (c_dec_value fc pk reg n) m)); [apply CW_fail|].
    intros [|f2] sub H; apply CW_dec_body, H.
  Qed.

  Lemma cost_erasure_proof fuel bs :
    match c_dec_value fc pk reg fuel (cst0 bs) with
    | (r, cs) => dec_value fc pk reg fuel (st0 bs) = (r, erase cs)
    end.
  Proof.
    pose proof (CW_dec_value fuel (cst0 bs)) as H.
    destruct (c_dec_value fc pk reg fuel (cst0 bs)) as [r cs]. apply H.
  Qed.

  Lemma bytes_returned_proof fuel bs :
    match c_dec_value fc pk reg fuel (cst0 bs) with
    | (r, cs) =>
        log_bytes (c_log cs) = len bs - len (c_rem cs) /\
        0 <= len (c_rem cs) /\ log_bytes (c_log cs) <= len bs /\
        Forall (fun p => 0 <= snd p /\ (0 <= fst p -> snd p <= fst p)) (c_log cs)
    end.
  Proof.
    pose proof (CW_dec_value fuel (cst0 bs)) as H.
    destruct (c_dec_value fc pk reg fuel (cst0 bs)) as [r cs].
    destruct H as (_ & new & Hl & Ho & Hb). cbn [cst0 c_log c_rem] in *. rewrite app_nil_r in Hl. subst new.
    pose proof (len_nonneg (c_rem cs)). repeat split; try lia. exact Ho.
  Qed.
End Dec.
