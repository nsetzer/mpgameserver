(* Fragmentation and reassembly (C06): FragmentSender.build splits exactly, send
   queues the fragment messages / refuses oversized payloads, and _recvAppFragment reassembles
   under any arrival order, repetition and interleaving as long as the expiry sweep does not
   hit the context. *)
From Coq Require Import Lia ZifyBool.
From RecordUpdate Require Import RecordUpdate.
From Model Require Import Base SeqNum Wire Conn PackEnv Frag.
From Proofs Require Import DictP WireP C09P ConnSpecP ConnUpdP.
Open Scope Z_scope.

(* what Packet.setMTU guarantees about the fragment size (for every mtu >= 512) *)
Definition env_ok (e : env) : Prop := 1 <= e_max_frag e /\ e_max_frag e + 6 <= e_max_payload e.

Lemma env_spec_ok mtu : 512 <= mtu -> env_ok (env_spec mtu).
Proof. intros H. unfold env_ok, env_spec. cbn [e_max_frag e_max_payload]. destruct (mtu <? 1096) eqn:E; lia. Qed.

Lemma env_of_mtu_ok mtu e : 512 <= mtu -> env_of_mtu mtu = Ok e ->
  env_ok e /\ e_max_frags e = 8192 /\ e_max_payload e = mtu - 66
  /\ (mtu <= 65535 -> e_max_payload e < e_max_frag e * e_max_frags e).
Proof.
  intros Hm He. rewrite env_of_mtu_spec in He. injection He as <-.
  split; [apply env_spec_ok; exact Hm|]. unfold env_spec. cbn [e_max_frags e_max_payload e_max_frag].
  split; [reflexivity|]. split; [reflexivity|]. intros Hu. destruct (mtu <? 1096) eqn:E; lia.
Qed.

Lemma split_frags_spec e : env_ok e -> forall fuel p, (length p < fuel)%nat ->
  let fr := split_frags fuel e p in
  concat fr = p
  /\ Forall (fun f => f <> [] /\ len f + 6 <= e_max_payload e) fr
  /\ (p <> [] -> fr <> [] /\ len fr * e_max_frag e <= len p + e_max_frag e - 1)
  /\ (p = [] -> fr = []).
Proof.
  intros [Hf1 Hf2]. induction fuel as [|fuel IH]; intros p Hlt; [lia|].
  cbn [split_frags]. destruct (length p =? 0)%nat eqn:E0.
  - assert (p = []) by (destruct p; [reflexivity|cbn in E0; discriminate]). subst p.
    cbn [concat]. split; [reflexivity|]. split; [constructor|].
    split; [intros Hc; contradiction Hc; reflexivity|reflexivity].
  - assert (Hne : p <> []) by (intros ->; cbn in E0; discriminate).
    assert (Hlp : 1 <= len p) by (unfold len; destruct p; [contradiction Hne; reflexivity|cbn [length]; lia]).
    destruct (len p <? e_max_payload e - 6) eqn:E1.
    + cbn [concat]. rewrite app_nil_r. split; [reflexivity|]. split; [constructor; [split; [exact Hne|lia]|constructor]|].
      split; [intros _; split; [discriminate|change (len [p]) with 1; lia]|intros ->; contradiction Hne; reflexivity].
    + set (nf := Z.to_nat (e_max_frag e)).
      assert (Hnf : (nf <= length p)%nat) by (unfold len in *; lia).
      assert (Hsk : (length (skipn nf p) < fuel)%nat) by (rewrite skipn_length; lia).
      destruct (IH (skipn nf p) Hsk) as (C1 & C2 & C3 & C4).
      cbn [concat]. rewrite C1, firstn_skipn. split; [reflexivity|].
      assert (Hfl : length (firstn nf p) = nf) by (rewrite firstn_length; lia).
      split; [constructor; [|exact C2]|].
      * split; [intros Hx; rewrite Hx in Hfl; cbn in Hfl; lia|unfold len; rewrite Hfl; lia].
      * split; [|intros ->; contradiction Hne; reflexivity]. intros _. split; [discriminate|].
        rewrite len_cons. destruct (skipn nf p) as [|b rest] eqn:Es.
        -- rewrite (C4 eq_refl). change (len (@nil (list byte))) with 0. lia.
        -- destruct (C3 ltac:(discriminate)) as [_ C3'].
           assert (Hls : len (b :: rest) = len p - e_max_frag e).
           { rewrite <- Es. unfold len. rewrite skipn_length. lia. }
           rewrite Hls in C3'. lia.
Qed.

(* FragmentSender.build: the fragments of every payload that must be fragmented *)
Theorem split_join_proof e p : env_ok e -> 1 <= e_max_frags e ->
  e_max_payload e < len p <= e_max_frag e * e_max_frags e ->
  let fr := fragments e p in
  concat fr = p
  /\ Forall (fun f => f <> [] /\ len f + 6 <= e_max_payload e) fr
  /\ 2 <= len fr <= e_max_frags e.
Proof.
  intros He Hfs Hp. pose proof He as [Hf1 Hf2]. unfold fragments.
  destruct (split_frags_spec e He (S (length p)) p ltac:(lia)) as (C1 & C2 & C3 & _).
  assert (Hne : p <> []) by (intros ->; cbn in Hp; lia).
  destruct (C3 Hne) as [C3a C3b].
  split; [exact C1|]. split; [exact C2|]. split.
  - (* at least two: the first slice leaves a non-empty remainder *)
    cbn [split_frags] in *.
    replace (length p =? 0)%nat with false in * by (unfold len in Hp; lia).
    replace (len p <? e_max_payload e - 6) with false in * by lia.
    set (nf := Z.to_nat (e_max_frag e)) in *.
    assert (Hrest : skipn nf p <> []).
    { intros Hx. assert (length (skipn nf p) = 0%nat) by (rewrite Hx; reflexivity).
      rewrite skipn_length in H. unfold len in Hp. lia. }
    destruct (split_frags_spec e He (length p) (skipn nf p) ltac:(rewrite skipn_length; unfold len in Hp; lia))
      as (_ & _ & D3 & _).
    destruct (D3 Hrest) as [D3a _]. rewrite len_cons.
    destruct (split_frags (length p) e (skipn nf p)) as [|f1 fr1]; [exfalso; apply D3a; reflexivity|]. rewrite len_cons.
    pose proof (len_nonneg fr1). lia.
  - pose proof (len_nonneg (split_frags (S (length p)) e p)). nia.
Qed.

Lemma send_type_frame c ty p r k :
  c_seq_frag (send_type c ty p r k) = c_seq_frag c /\ c_status (send_type c ty p r k) = c_status c.
Proof. split; reflexivity. Qed.

Lemma send_frags_outgoing frags : forall c fid n r i,
  map m_payload (c_outgoing (send_frags c fid n r i frags)) = map m_payload (c_outgoing c) ++ frag_payloads fid n i frags
  /\ map m_type (c_outgoing (send_frags c fid n r i frags)) = map m_type (c_outgoing c) ++ repeat APP_FRAGMENT (length frags).
Proof.
  induction frags as [|f frags IH]; intros c fid n r i; cbn [send_frags frag_payloads repeat length].
  - rewrite !app_nil_r. split; reflexivity.
  - destruct (IH (send_type c APP_FRAGMENT (be 2 fid ++ be 2 (1 + i) ++ be 2 n ++ f) r (IFrag fid i)) fid n r (i + 1)) as [I1 I2].
    rewrite I1, I2, send_type_out_eq, !map_app. cbn [map new_msg m_payload m_type]. rewrite <- !app_assoc. split; reflexivity.
Qed.

(* a payload above the single-datagram limit and within the fragment limit is queued as the
   fragment messages of its fragments, under a fresh fragment id, nothing else *)
Theorem send_fragmented_proof e c p r k :
  c_status c = CONNECTED -> e_max_payload e < len p <= e_max_frag e * e_max_frags e ->
  let fid := seq_succ (c_seq_frag c) in
  let fr := fragments e p in
  snd (send e c p r k) = []
  /\ map m_payload (c_outgoing (fst (send e c p r k))) = map m_payload (c_outgoing c) ++ frag_payloads fid (len fr) 0 fr
  /\ map m_type (c_outgoing (fst (send e c p r k))) = map m_type (c_outgoing c) ++ repeat APP_FRAGMENT (length fr).
Proof.
  intros Hst Hp. rewrite (send_connected _ _ _ _ _ Hst).
  replace (len p >? e_max_payload e) with true by lia.
  replace (len p >? e_max_frag e * e_max_frags e) with false by lia.
  unfold send_fragmented. cbv zeta. cbn [fst snd]. split; [reflexivity|]. rewrite upd_outgoing_pfrags.
  destruct (send_frags_outgoing (split_frags (S (length p)) e p) (c <| c_seq_frag := seq_succ (c_seq_frag c) |>)
              (seq_succ (c_seq_frag c)) (len (split_frags (S (length p)) e p)) r 0) as [I1 I2].
  rewrite I1, I2, upd_outgoing_seq_frag. unfold fragments. split; reflexivity.
Qed.

(* payloads up to the single-datagram limit are not fragmented: one APP message *)
Theorem no_frag_small_proof e c p r k :
  c_status c = CONNECTED -> len p <= e_max_payload e ->
  send e c p r k = (send_type c APP p r k, [])
  /\ exists m, c_outgoing (fst (send e c p r k)) = c_outgoing c ++ [m]
               /\ m_payload m = p /\ m_type m = APP /\ m_retry m = r.
Proof.
  intros Hst Hp. rewrite (send_connected _ _ _ _ _ Hst).
  replace (len p >? e_max_payload e) with false by lia. split; [reflexivity|]. cbn [fst].
  exists (new_msg c APP p r k). repeat split.
Qed.

(* a payload above the fragmentation limit is refused with ValueError and nothing is queued *)
Theorem too_large_refused_proof e c p r k :
  c_status c = CONNECTED -> len p > e_max_payload e -> len p > e_max_frag e * e_max_frags e ->
  snd (send e c p r k) = [ORaise EValue]
  /\ c_outgoing (fst (send e c p r k)) = c_outgoing c
  /\ c_pfrags (fst (send e c p r k)) = c_pfrags c.
Proof.
  intros Hst H1 H2. rewrite (send_connected _ _ _ _ _ Hst).
  replace (len p >? e_max_payload e) with true by lia.
  replace (len p >? e_max_frag e * e_max_frags e) with true by lia.
  cbv zeta. cbn [fst snd]. repeat split.
Qed.

Fixpoint slots (have : list bool) (frags : list (list byte)) : list (option (list byte)) :=
  match have, frags with
  | b :: hr, f :: fr => (if b then Some f else None) :: slots hr fr
  | _, _ => []
  end.

Lemma slots_length have frags : length have = length frags -> length (slots have frags) = length frags.
Proof.
  revert frags. induction have as [|b h IH]; intros [|f fr] H; cbn in *; try lia. rewrite IH; lia.
Qed.

Lemma slots_repeat_false frags : slots (repeat false (length frags)) frags = repeat None (length frags).
Proof. induction frags as [|f fr IH]; [reflexivity|]. cbn. rewrite IH. reflexivity. Qed.

Lemma slots_receive have : forall frags i, length have = length frags -> (i < length frags)%nat ->
  match nth_error (slots have frags) i with
  | Some None => set_nth i (Some (nth i frags [])) (slots have frags)
  | _ => slots have frags
  end = slots (set_nth i true have) frags.
Proof.
  induction have as [|b h IH]; intros [|f fr] i Hl Hi; cbn [length] in *; try lia.
  destruct i as [|i]; cbn [slots nth_error set_nth nth].
  - destruct b; reflexivity.
  - specialize (IH fr i ltac:(lia) ltac:(lia)).
    destruct (nth_error (slots h fr) i) as [[x|]|] eqn:E; cbn [set_nth]; rewrite <- IH; reflexivity.
Qed.

Lemma slots_complete have : forall frags, length have = length frags -> Forall (fun f => f <> []) frags ->
  forallb truthy (slots have frags) = all_true have.
Proof.
  unfold all_true. induction have as [|b h IH]; intros [|f fr] Hl Hne; cbn [length] in *; try lia; [reflexivity|].
  inversion Hne; subst. cbn [slots forallb]. rewrite IH by (try lia; assumption).
  destruct b; [|reflexivity]. destruct f; [contradiction H1; reflexivity|reflexivity].
Qed.

Lemma slots_payload have : forall frags, length have = length frags -> all_true have = true ->
  concat (map (fun o => match o with Some b => b | None => [] end) (slots have frags)) = concat frags.
Proof.
  unfold all_true. induction have as [|b h IH]; intros [|f fr] Hl Ha; cbn [length] in *; try lia; [reflexivity|].
  cbn [forallb] in Ha. apply andb_prop in Ha as [Hb Ha]. subst b. cbn [slots map concat]. rewrite IH by (try lia; assumption).
  reflexivity.
Qed.

Lemma set_nth_length {A} i (x : A) l : length (set_nth i x l) = length l.
Proof. revert i. induction l as [|y l IH]; intros [|i]; cbn; try reflexivity. rewrite IH. reflexivity. Qed.

Lemma any_true_repeat n : any_true (repeat false n) = false.
Proof. unfold any_true. induction n; [reflexivity|]. cbn. exact IHn. Qed.

Lemma any_true_set i have : (i < length have)%nat -> any_true (set_nth i true have) = true.
Proof.
  unfold any_true. revert i. induction have as [|b h IH]; intros [|i] H; cbn [length] in *; try lia; cbn [set_nth existsb].
  - reflexivity.
  - rewrite IH by lia. apply orb_true_r.
Qed.

(* the model state agrees with the abstract receiver for fragment id fid *)
Definition frag_rel (fid : Z) (frags : list (list byte)) (c : conn) (st : rstate) : Prop :=
  length (r_have st) = length frags /\
  if any_true (r_have st)
  then dget fid (c_rfrags c) = Some {| fr_frags := slots (r_have st) frags; fr_ctime := r_t0 st;
                                       fr_msgseq := r_seq st; fr_count := len frags |}
  else dget fid (c_rfrags c) = None.

Lemma frag_payload_parse fid idx n f : 0 <= fid < 2 ^ 16 -> 0 <= idx < 2 ^ 16 -> 0 <= n < 2 ^ 16 ->
  let fr := frag_payload fid idx n f in
  (length fr <? 6)%nat = false /\ unbe (sub fr 0 2) = fid /\ unbe (sub fr 2 2) = idx /\ unbe (sub fr 4 2) = n
  /\ skipn 6 fr = f.
Proof.
  intros H1 H2 H3. unfold frag_payload. cbn [be app length Nat.ltb Nat.leb sub skipn firstn].
  rewrite !unbe2 by assumption. repeat split.
Qed.

(* _recvAppFragment on a fragment message long enough to parse *)
Lemma recv_fragment_spec c now mseq frag : (length frag <? 6)%nat = false ->
  let fid := unbe (sub frag 0 2) in
  let fr0 := match dget fid (c_rfrags c) with
             | Some fr => fr
             | None => {| fr_frags := repeat None (Z.to_nat (unbe (sub frag 4 2))); fr_ctime := now; fr_msgseq := 0;
                          fr_count := unbe (sub frag 4 2) |}
             end in
  let fr := fr_receive fr0 (unbe (sub frag 2 2)) mseq (skipn 6 frag) in
  let d := dset fid fr (c_rfrags c) in
  let c' := fst (recv_fragment c now mseq frag) in
  snd (recv_fragment c now mseq frag) = []
  /\ c_incoming c' = c_incoming c ++ (if fr_complete fr then [(fr_msgseq fr, fr_payload fr)] else [])
  /\ c_rfrags c' = filter (fun p => negb (fr_expired now (snd p))) (if fr_complete fr then ddel fid d else d).
Proof.
  intros E. unfold recv_fragment. rewrite E. cbv zeta.
  destruct (fr_complete _); repeat split; try reflexivity. cbn [fst]. rewrite app_nil_r. reflexivity.
Qed.

Lemma any_true_none have : any_true have = false -> have = repeat false (length have).
Proof.
  unfold any_true. induction have as [|b h IH]; [reflexivity|]. cbn [existsb length repeat].
  destruct b; [discriminate|]. intros H. f_equal. exact (IH H).
Qed.

Lemma frag_rel_context fid frags c st now : frag_rel fid frags c st ->
  match dget fid (c_rfrags c) with
  | Some fr => fr
  | None => {| fr_frags := repeat None (Z.to_nat (len frags)); fr_ctime := now; fr_msgseq := 0; fr_count := len frags |}
  end = {| fr_frags := slots (r_have st) frags; fr_ctime := if any_true (r_have st) then r_t0 st else now;
           fr_msgseq := if any_true (r_have st) then r_seq st else 0; fr_count := len frags |}.
Proof.
  intros [Hl Hrel]. destruct (any_true (r_have st)) eqn:Es; rewrite Hrel; [reflexivity|].
  rewrite (any_true_none _ Es), Hl, slots_repeat_false. unfold len. rewrite Nat2Z.id. reflexivity.
Qed.

Lemma fr_receive_slots have frags i t0 sq0 mseq : length have = length frags -> (i < length frags)%nat ->
  fr_receive {| fr_frags := slots have frags; fr_ctime := t0; fr_msgseq := sq0; fr_count := len frags |}
             (Z.of_nat i + 1) mseq (nth i frags [])
  = {| fr_frags := slots (set_nth i true have) frags; fr_ctime := t0;
       fr_msgseq := if (i =? 0)%nat then mseq else sq0; fr_count := len frags |}.
Proof.
  intros Hl Hi. unfold fr_receive. cbn [fr_frags fr_ctime fr_msgseq fr_count].
  assert (Hsl : len (slots have frags) = len frags) by (unfold len; rewrite slots_length; [reflexivity|exact Hl]).
  replace ((1 <=? Z.of_nat i + 1) && (Z.of_nat i + 1 <=? len (slots have frags))) with true by (unfold len in *; lia).
  replace (Z.to_nat (Z.of_nat i + 1 - 1)) with i by lia.
  rewrite (slots_receive have frags i Hl Hi).
  replace (Z.of_nat i + 1 =? 1) with (i =? 0)%nat by lia. reflexivity.
Qed.

Lemma recv_mine fid frags c st i mseq now :
  0 <= fid < 2 ^ 16 -> len frags < 2 ^ 16 -> Forall (fun f => f <> []) frags ->
  frag_rel fid frags c st -> (i < length frags)%nat ->
  (any_true (r_have st) = true -> in_time (length (r_have st)) (r_t0 st) now) ->
  let c' := fst (fev_apply fid frags c (FMine i mseq now)) in
  let '(st', d) := spec_step st (FMine i mseq now) in
  snd (fev_apply fid frags c (FMine i mseq now)) = []
  /\ frag_rel fid frags c' st'
  /\ c_incoming c' = c_incoming c ++ match d with Some sq => [(sq, concat frags)] | None => [] end.
Proof.
  intros Hfid Hn Hne Hrel Hi Htime. cbn [fev_apply spec_step]. pose proof Hrel as [Hl _].
  pose proof (len_nonneg frags) as Hn0.
  destruct (frag_payload_parse fid (Z.of_nat i + 1) (len frags) (nth i frags []) Hfid ltac:(unfold len in *; lia) ltac:(lia))
    as (P0 & P1 & P2 & P3 & P4).
  destruct (recv_fragment_spec c now mseq _ P0) as (So & Si & Sr).
  rewrite P1, P2, P3, P4, (frag_rel_context _ _ _ _ now Hrel), (fr_receive_slots _ _ _ _ _ _ Hl Hi) in Si, Sr.
  unfold fr_complete, fr_payload in Si, Sr. cbn [fr_frags fr_msgseq] in Si, Sr.
  set (have' := set_nth i true (r_have st)) in *.
  assert (Hl' : length have' = length frags) by (unfold have'; rewrite set_nth_length; exact Hl).
  rewrite (slots_complete have' frags Hl' Hne) in Si, Sr.
  destruct (all_true have') eqn:Hall; cbv beta iota zeta; (split; [exact So|]).
  - (* complete: delivered, context removed *)
    split; [|rewrite Si, (slots_payload have' frags Hl' Hall); reflexivity].
    split; [cbn [rstate0 r_have]; rewrite repeat_length; exact Hl'|].
    cbn [rstate0 r_have]. rewrite any_true_repeat, Sr. apply dget_filter_none, dget_ddel_same.
  - (* still open: the sweep leaves a context alone within its time bound *)
    split; [|exact Si]. split; [exact Hl'|]. cbn [r_have r_t0 r_seq].
    unfold have' at 1. rewrite any_true_set, Sr by (rewrite Hl; exact Hi).
    rewrite dget_filter; [apply dget_dset_same|].
    intros v Hv. rewrite dget_dset_same in Hv. injection Hv as <-.
    unfold fr_expired. cbn [snd fr_ctime fr_count].
    destruct (any_true (r_have st)) eqn:Es.
    + specialize (Htime eq_refl). unfold in_time in Htime. rewrite Hl in Htime. unfold len. Z.div_mod_to_equations. lia.
    + unfold TICKS, len. Z.div_mod_to_equations. lia.
Qed.

Lemma recv_other fid frags c st frag mseq now :
  frag_rel fid frags c st -> other_ok fid (FOther frag mseq now) ->
  (any_true (r_have st) = true -> in_time (length (r_have st)) (r_t0 st) now) ->
  frag_rel fid frags (fst (fev_apply fid frags c (FOther frag mseq now))) st.
Proof.
  intros [Hl Hrel] Hok Htime. cbn [fev_apply].
  destruct (length frag <? 6)%nat eqn:E6; [unfold recv_fragment; rewrite E6; split; assumption|].
  destruct Hok as [Hs|Hid]; [lia|].
  destruct (recv_fragment_spec c now mseq frag E6) as (_ & _ & Sr). cbv zeta in Sr.
  set (fid' := unbe (sub frag 0 2)) in *.
  split; [exact Hl|]. rewrite Sr.
  match goal with |- context [filter _ ?d] => assert (Hd : dget fid d = dget fid (c_rfrags c)) end.
  { assert (Hne : fid <> fid') by (intros Hx; apply Hid; symmetry; exact Hx).
    destruct (fr_complete _); rewrite ?dget_ddel_other by exact Hne; apply dget_dset_other, Hne. }
  rewrite dget_filter, Hd; [exact Hrel|]. intros v Hv. rewrite Hd in Hv.
  destruct (any_true (r_have st)) eqn:Es; rewrite Hrel in Hv; [|discriminate]. injection Hv as <-.
  unfold fr_expired. cbn [snd fr_ctime fr_count]. specialize (Htime eq_refl). unfold in_time in Htime.
  rewrite Hl in Htime. unfold len. lia.
Qed.

Lemma delivered_by_app c c' l : c_incoming c' = c_incoming c ++ l -> delivered_by c c' = l.
Proof. unfold delivered_by. intros ->. apply skipn_app_exact. Qed.

(* any history: what the model delivers at the arrivals of this payload's fragments is what the
   abstract receiver says — the payload, exactly at the arrivals that complete a round *)
Theorem reassemble_refines fid frags :
  0 <= fid < 2 ^ 16 -> len frags < 2 ^ 16 -> Forall (fun f => f <> []) frags ->
  forall xs c st,
  frag_rel fid frags c st ->
  Forall (fun x => match x with FMine i _ _ => (i < length frags)%nat | _ => True end) xs ->
  Forall (other_ok fid) xs -> timely st xs ->
  let '(c', ds) := feed fid frags c xs in
  let '(st', sp) := spec_run st xs in
  frag_rel fid frags c' st'
  /\ Forall2 (fun x dd => match x with
                         | (FMine _ _ _, Some sq) => dd = [(sq, concat frags)]
                         | (FMine _ _ _, None) => dd = []
                         | (FOther _ _ _, _) => True
                         end) (combine xs sp) ds.
Proof.
  intros Hfid Hn Hne. induction xs as [|x xs IH]; intros c st Hrel Hidx Hoth Htim.
  - cbn. split; [exact Hrel|constructor].
  - inversion Hidx as [|? ? Hi Hidx']; subst. inversion Hoth as [|? ? Ho Hoth']; subst.
    destruct Htim as [Ht Htim']. cbn [feed spec_run].
    destruct x as [i mseq now|frag mseq now].
    + pose proof (recv_mine fid frags c st i mseq now Hfid Hn Hne Hrel Hi Ht) as Hm. cbv zeta in Hm.
      destruct (spec_step st (FMine i mseq now)) as [st1 d] eqn:Es.
      destruct Hm as (_ & Hrel1 & Hinc). cbn [fst] in Htim'.
      set (c1 := fst (fev_apply fid frags c (FMine i mseq now))) in *.
      specialize (IH c1 st1 Hrel1 Hidx' Hoth' Htim').
      destruct (feed fid frags c1 xs) as [c2 ds]. destruct (spec_run st1 xs) as [st2 sp].
      destruct IH as [IH1 IH2]. split; [exact IH1|]. cbn [combine]. constructor; [|exact IH2].
      rewrite (delivered_by_app _ _ _ Hinc). destruct d; reflexivity.
    + pose proof (recv_other fid frags c st frag mseq now Hrel Ho Ht) as Hrel1.
      cbn [spec_step fst] in *.
      set (c1 := fst (fev_apply fid frags c (FOther frag mseq now))) in *.
      specialize (IH c1 st Hrel1 Hidx' Hoth' Htim').
      destruct (feed fid frags c1 xs) as [c2 ds]. destruct (spec_run st xs) as [st2 sp].
      destruct IH as [IH1 IH2]. split; [exact IH1|]. cbn [combine]. constructor; [exact I|exact IH2].
Qed.

Fixpoint mine_idx (xs : list fev) : list nat :=
  match xs with [] => [] | FMine i _ _ :: r => i :: mine_idx r | FOther _ _ _ :: r => mine_idx r end.

Lemma all_true_hole l i : nth i l true = false -> all_true l = false.
Proof.
  unfold all_true. revert i. induction l as [|b l IH]; intros [|i] H; cbn in *; try discriminate.
  - subst b. reflexivity.
  - rewrite (IH i H). apply andb_false_r.
Qed.

Lemma all_true_full l : (forall j, (j < length l)%nat -> nth j l false = true) -> all_true l = true.
Proof. intros H. apply forallb_forall. intros x Hx. apply (In_nth _ _ false) in Hx as (j & Hj & <-). exact (H j Hj). Qed.

Lemma nth_set_nth {A} (x : A) l : forall k j d,
  nth j (set_nth k x l) d = if ((j =? k) && (k <? length l))%nat then x else nth j l d.
Proof. induction l as [|y l IH]; intros [|k] [|j] d; cbn; rewrite ?andb_false_r; try reflexivity. apply IH. Qed.

Lemma timely_app a : forall st b, timely st (a ++ b) -> timely st a /\ timely (fst (spec_run st a)) b.
Proof.
  induction a as [|x a IH]; intros st b H; [split; [exact I|exact H]|].
  cbn [app timely spec_run] in *. destruct H as [H1 H2]. destruct (IH _ _ H2) as [I1 I2].
  split; [split; assumption|]. destruct (spec_step st x) as [st1 d]. cbn [fst] in *.
  destruct (spec_run st1 a) as [st2 ds]. exact I2.
Qed.

Lemma nth_repeat_false n j d : (j < n)%nat -> nth j (repeat false n) d = false.
Proof. revert j. induction n; intros [|j] H; cbn; try lia; try reflexivity. apply IHn. lia. Qed.

(* while index i is missing the abstract receiver is silent, and its have-vector is the characteristic
   function of the indices that arrived *)
Lemma spec_run_quiet i xs : forall st, nth i (r_have st) true = false -> ~ In i (mine_idx xs) ->
  exists st', spec_run st xs = (st', map (fun _ => None) xs) /\ length (r_have st') = length (r_have st)
    /\ forall j, (j < length (r_have st))%nat ->
         nth j (r_have st') false = nth j (r_have st) false || existsb (Nat.eqb j) (mine_idx xs).
Proof.
  induction xs as [|x xs IH]; intros st Hi Hnin.
  - exists st. repeat split. intros j _. symmetry. apply orb_false_r.
  - destruct x as [k mseq now|frag mseq now]; cbn [spec_run spec_step mine_idx In existsb] in *;
      [|destruct (IH st Hi Hnin) as (st' & E & R); rewrite E; exists st'; split; [reflexivity|exact R]].
    assert (Hh : nth i (set_nth k true (r_have st)) true = false).
    { rewrite nth_set_nth. replace (i =? k)%nat with false by lia. exact Hi. }
    rewrite (all_true_hole _ _ Hh).
    match goal with |- context [spec_run ?s xs] => destruct (IH s Hh ltac:(tauto)) as (st' & E & L & N) end.
    cbn [r_have] in L, N. rewrite set_nth_length in L, N. rewrite E. exists st'. split; [reflexivity|]. split; [exact L|].
    intros j Hj. rewrite (N j Hj), nth_set_nth. destruct (Nat.eqb_spec j k) as [->|]; [|reflexivity].
    replace (k <? _)%nat with true by lia. cbn. symmetry. apply orb_true_r.
Qed.

Lemma spec_any_order n pre i mseq now :
  (i < n)%nat -> ~ In i (mine_idx pre) -> (forall j, (j < n)%nat -> j <> i -> In j (mine_idx pre)) ->
  exists st1 sq, spec_run (rstate0 n) pre = (st1, map (fun _ => None) pre)
                 /\ spec_step st1 (FMine i mseq now) = (rstate0 n, Some sq).
Proof.
  intros Hi Hnin Hcov.
  destruct (spec_run_quiet i pre (rstate0 n) (nth_repeat_false n i true Hi) Hnin) as (st1 & E & Hl & Hf).
  cbn [rstate0 r_have] in Hl, Hf. rewrite repeat_length in Hl, Hf.
  exists st1. eexists. split; [exact E|]. cbn [spec_step]. rewrite all_true_full, set_nth_length, Hl; [reflexivity|].
  intros j Hj. rewrite set_nth_length, Hl in Hj. rewrite nth_set_nth.
  destruct (Nat.eqb_spec j i) as [->|Hji]; [replace (i <? _)%nat with true by lia; reflexivity|].
  rewrite (Hf j Hj). apply orb_true_iff. right. apply existsb_exists. exists j. split; [apply Hcov; assumption|apply Nat.eqb_refl].
Qed.

Lemma frag_rel0 fid frags c n : n = length frags ->
  frag_rel fid frags c (rstate0 n) <-> dget fid (c_rfrags c) = None.
Proof. intros ->. unfold frag_rel. cbn [rstate0 r_have]. rewrite any_true_repeat, repeat_length. tauto. Qed.

(* any order, any repetition, any interleaving: feeding the fragment messages of a payload delivers
   it exactly when the last missing index arrives, once, and nothing before *)
Theorem reassemble_any_order_proof fid frags pre i mseq now c :
  0 <= fid < 2 ^ 16 -> len frags < 2 ^ 16 -> Forall (fun f => f <> []) frags ->
  dget fid (c_rfrags c) = None ->
  (i < length frags)%nat -> ~ In i (mine_idx pre) ->
  (forall j, (j < length frags)%nat -> j <> i -> In j (mine_idx pre)) ->
  Forall (fun x => match x with FMine j _ _ => (j < length frags)%nat | _ => True end) pre ->
  Forall (other_ok fid) pre ->
  timely (rstate0 (length frags)) (pre ++ [FMine i mseq now]) ->
  let '(c1, ds) := feed fid frags c pre in
  Forall2 (fun x dd => match x with FMine _ _ _ => dd = [] | FOther _ _ _ => True end) pre ds
  /\
  let c2 := fst (fev_apply fid frags c1 (FMine i mseq now)) in
  exists sq, c_incoming c2 = c_incoming c1 ++ [(sq, concat frags)]
             /\ dget fid (c_rfrags c2) = None
             /\ snd (fev_apply fid frags c1 (FMine i mseq now)) = [].
Proof.
  intros Hfid Hn Hne Hnone Hi Hnin Hcov Hidx Hoth Htim.
  apply (frag_rel0 fid frags c _ eq_refl) in Hnone.
  destruct (timely_app pre _ _ Htim) as [Ht1 [Ht2 _]].
  destruct (spec_any_order _ pre i mseq now Hi Hnin Hcov) as (st1 & sq & Es & E1).
  pose proof (reassemble_refines fid frags Hfid Hn Hne pre c _ Hnone Hidx Hoth Ht1) as Href.
  rewrite Es in Href, Ht2. destruct (feed fid frags c pre) as [c1 ds]. destruct Href as [Hrel1 Hds]. split.
  - revert Hds. apply Forall2_combine_map. intros [] dd H; exact H.
  - pose proof (recv_mine fid frags c1 st1 i mseq now Hfid Hn Hne Hrel1 Hi Ht2) as Hm. cbv zeta in Hm.
    rewrite E1 in Hm. destruct Hm as (Ho & Hr & Hinc). apply frag_rel0 in Hr; [|reflexivity].
    exists sq. split; [exact Hinc|]. split; [exact Hr|exact Ho].
Qed.
