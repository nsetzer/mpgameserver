(* The size of values (Model/SerCost.v: one per node plus string and bytes payload).  SerDecP.v
   bounds the size of a decoded value by the work done with these. *)
From Coq Require Import Lia.
From Model Require Import Base Utf8 Ser SerCost.
From Proofs Require Import BytesP SerP SerSetP.
Open Scope Z_scope.

Lemma lsize_nil : lsize [] = 0. Proof. reflexivity. Qed.
Lemma lsize_cons x l : lsize (x :: l) = vsize x + lsize l. Proof. reflexivity. Qed.
Lemma dsize_nil : dsize [] = 0. Proof. reflexivity. Qed.
Lemma dsize_cons k v d : dsize ((k, v) :: d) = vsize k + vsize v + dsize d. Proof. reflexivity. Qed.
Lemma vsize_list l : vsize (VList l) = 1 + lsize l. Proof. reflexivity. Qed.
Lemma vsize_tuple l : vsize (VTuple l) = 1 + lsize l. Proof. reflexivity. Qed.
Lemma vsize_set l : vsize (VSet l) = 1 + lsize l. Proof. reflexivity. Qed.
Lemma vsize_obj t l : vsize (VObj t l) = 1 + lsize l. Proof. reflexivity. Qed.
Lemma vsize_dict d : vsize (VDict d) = 1 + dsize d. Proof. reflexivity. Qed.
Lemma vsize_enum t x : vsize (VEnum t x) = 1 + vsize x. Proof. reflexivity. Qed.
Lemma vsize_str s : vsize (VStr s) = 1 + len s. Proof. reflexivity. Qed.
Lemma vsize_bytes b : vsize (VBytes b) = 1 + len b. Proof. reflexivity. Qed.
(* sizes in terms of lsize / dsize, without unfolding the folds *)
Ltac sz := rewrite ?vsize_list, ?vsize_tuple, ?vsize_set, ?vsize_obj, ?vsize_dict, ?vsize_enum, ?vsize_str,
                   ?vsize_bytes, ?lsize_cons, ?dsize_cons, ?lsize_nil, ?dsize_nil.

Lemma lsize_app a b : lsize (a ++ b) = lsize a + lsize b.
Proof. induction a; cbn [app]; sz; lia. Qed.
Lemma dsize_app a b : dsize (a ++ b) = dsize a + dsize b.
Proof. induction a as [|[k v] a IH]; cbn [app]; sz; lia. Qed.

Lemma vsize_pos v : 1 <= vsize v.
Proof.
  assert (HL : forall l, Forall (fun x => 1 <= vsize x) l -> 0 <= lsize l).
  { induction 1; sz; lia. }
  induction v using value_ind'; sz; try (cbn [vsize]; lia); try (apply HL in H; lia).
  - pose proof (len_nonneg s). lia.
  - pose proof (len_nonneg b). lia.
  - assert (0 <= dsize kv) by (induction H as [|[k x] r [Hk Hx] _ IH]; sz; cbn [fst snd] in *; lia). lia.
Qed.
Lemma lsize_nonneg l : 0 <= lsize l.
Proof. induction l as [|x l IH]; sz; [lia|]. pose proof (vsize_pos x). lia. Qed.
Lemma dsize_nonneg d : 0 <= dsize d.
Proof. induction d as [|[k v] d IH]; sz; [lia|]. pose proof (vsize_pos k). pose proof (vsize_pos v). lia. Qed.

Lemma utf8_dec_len_n : forall n l s, (length l <= n)%nat -> utf8_dec l = Some s -> (length s <= length l)%nat.
Proof.
  (* utf8_dec calls itself on a tail one to four bytes down, hence the induction on a bound of the length.
     The [repeat] walks the decoder's tests on the head: every branch fails or puts one code point in
     front of the decoding of a shorter tail, to which IH applies. *)
  induction n as [|n IH]; intros l s Hn H.
  - destruct l; [simpl in H; inversion H; simpl; lia|simpl in Hn; lia].
  - destruct l as [|b0 r0]; [simpl in H; inversion H; simpl; lia|].
    simpl in H. simpl in Hn.
    repeat match type of H with
           | (if ?c then _ else _) = _ => destruct c
           | match ?r with [] => _ | _ :: _ => _ end = _ => destruct r; simpl in Hn
           | match utf8_dec ?r with Some _ => _ | None => _ end = _ =>
               let E := fresh "E" in destruct (utf8_dec r) eqn:E; [apply IH in E; [|simpl; lia]|]
           | None = Some _ => discriminate
           | Some _ = Some _ => inversion H; subst; clear H
           end; simpl in *; try discriminate; try lia.
Qed.
Lemma utf8_decode_len b s : utf8_decode b = Some s -> len s <= len b.
Proof.
  unfold utf8_decode. intros H. apply (utf8_dec_len_n _ _ _ (le_n _)) in H.
  rewrite map_length in H. unfold len. lia.
Qed.

Lemma dict_put_size d k v d' : dict_put d k v = SOk d' -> dsize d' <= dsize d + vsize k + vsize v.
Proof.
  intros H. pose proof (dict_put_spec d k v) as S. rewrite H in S.
  destruct S as [->|(pre & k0 & v0 & post & -> & ->)]; rewrite !dsize_app; sz; [lia|].
  pose proof (vsize_pos k). pose proof (vsize_pos v0). lia.
Qed.
Lemma set_add_size s x s' : set_add s x = SOk s' -> lsize s' <= lsize s + vsize x.
Proof.
  intros H. pose proof (set_add_spec s x) as S. rewrite H in S. pose proof (vsize_pos x).
  destruct S as [->| ->]; [|rewrite lsize_app; sz]; lia.
Qed.

(* set(l) of values that are not tuples *)
Lemma set_build_spec (P : value -> Prop) l : forall acc,
  (forall y, P y -> ntop y) -> lall P acc -> lall P l ->
  match set_build acc l with
  | SOk s => lall P s /\ lsize s <= lsize acc + lsize l
  | SErr e => e = SE EAttr \/ e = SE EType
  end.
Proof.
  induction l as [|x l IH]; intros acc Hnt Hacc Hl; cbn [set_build]; [split; [exact Hacc | sz; lia]|].
  destruct Hl as [Hx Hl]. destruct (set_add acc x) as [acc'|e] eqn:Ha; cbn [sbind].
  - specialize (IH acc' Hnt (set_add_lall P _ _ _ Ha Hacc Hx) Hl). apply set_add_size in Ha.
    destruct (set_build acc' l); [|exact IH]. destruct IH as [H1 H2]. split; [exact H1 | sz; lia].
  - apply set_add_err in Ha; [exact Ha|]. apply lall_Forall in Hacc. revert Hacc. apply Forall_impl. exact Hnt.
Qed.
