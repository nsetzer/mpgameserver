(* C15P.v — proofs of the C15 statements: the typed JSON conversion of Model/Json.v reproduces every
   object of the documented annotation grammar, directly and through a JSON text round trip. *)
From Coq Require Import Lia.
From Model Require Import Base Json.
From Proofs Require Import ListP JsonP.
Open Scope Z_scope.

(* what happens to toJson's result before fromJson sees it: nothing (b = false) or
   json.loads(json.dumps(.)) (b = true).  The same b is the `lim` flag of the domain predicate. *)
Definition tr (b : bool) (v : pv) : res pv := if b then json_rt v else Ok v.
Definition trk (b : bool) (k : pv) : res pv := if b then (do s <- key_str k; Ok (PStr s)) else Ok k.

Lemma json_rt_list : forall l, json_rt (PList l) = do l' <- mapM json_rt l; Ok (PList l').
Proof. reflexivity. Qed.

Lemma json_rt_dict : forall kv,
  json_rt (PDict kv) =
  do kv' <- mapM (fun p => match p with
                           | (k, x) => do s <- key_str k; do x' <- json_rt x; Ok (PStr s, x')
                           end) kv;
  Ok (PDict (dict_build kv')).
Proof. reflexivity. Qed.

Lemma tr_same : forall b v, (b = true -> json_rt v = Ok v) -> tr b v = Ok v.
Proof. intros [|] v H; simpl; auto. Qed.

Lemma trk_str : forall b s, trk b (PStr s) = Ok (PStr s).
Proof. intros [|] s; reflexivity. Qed.

Lemma tr_list : forall b A (f g : A -> pv) l, (forall a, In a l -> tr b (f a) = Ok (g a)) ->
  tr b (PList (map f l)) = Ok (PList (map g l)).
Proof.
  intros [|] A f g l H; unfold tr in *.
  - rewrite json_rt_list, (mapM_map _ _ _ json_rt f g l H). reflexivity.
  - do 2 f_equal. apply map_ext_in. intros a Ha. specialize (H a Ha). congruence.
Qed.

Lemma tr_dict : forall b A (f g : A -> pv * pv) l,
  (forall a, In a l -> trk b (fst (f a)) = Ok (fst (g a)) /\ tr b (snd (f a)) = Ok (snd (g a))) ->
  nodupb (map fst (map g l)) = true -> tr b (PDict (map f l)) = Ok (PDict (map g l)).
Proof.
  intros [|] A f g l H N; unfold tr, trk in *.
  - rewrite json_rt_dict, (mapM_map _ _ _ _ f g l). simpl. rewrite dict_build_nodup; auto.
    intros a Ha. destruct (H a Ha) as [K V]. destruct (f a) as [k x], (g a) as [k' x']. simpl in *.
    destruct (key_str k); inversion K. rewrite V. reflexivity.
  - do 2 f_equal. apply map_ext_in. intros a Ha. destruct (H a Ha) as [K V].
    destruct (f a), (g a). simpl in *. congruence.
Qed.

(* RT t pl T F v: the attempt T to convert v yields a value that pl accepts and the transport t lets
   through, and F converts what arrives back into v.  The value sent and the value received are named
   by projection from T, not bound by "exists": over a list of v they are then `map`s over that list. *)
Definition sent (T : res pv) : pv := match T with Ok j => j | Err _ => PNone end.
Definition rcvd (t : pv -> res pv) (T : res pv) : pv := sent (t (sent T)).
Definition RT (t : pv -> res pv) (pl : pv -> bool) (T : res pv) (F : pv -> res pv) (v : pv) : Prop :=
  T = Ok (sent T) /\ t (sent T) = Ok (rcvd t T) /\ F (rcvd t T) = Ok v /\ pl (sent T) = true.

Lemma RT_intro : forall t pl T F v j j',
  T = Ok j -> t j = Ok j' -> F j' = Ok v -> pl j = true -> RT t pl T F v.
Proof. intros t pl T F v j j' -> B C D. unfold RT, rcvd, sent. simpl. rewrite B. auto. Qed.

Lemma RT_inj : forall t pl T1 T2 F v1 v2, RT t pl T1 F v1 -> RT t pl T2 F v2 -> v1 <> v2 ->
  sent T1 <> sent T2 /\ rcvd t T1 <> rcvd t T2.
Proof.
  intros t pl T1 T2 F v1 v2 (_ & _ & C1 & _) (_ & _ & C2 & _) N.
  assert (R : rcvd t T1 <> rcvd t T2) by (intros E; rewrite E in C1; congruence).
  split; auto. intros E. apply R. unfold rcvd. rewrite E. reflexivity.
Qed.

Lemma trk_plain : forall b k k', trk b k = Ok k' -> plain_key b k = true -> plain_key b k' = true.
Proof.
  intros [|] k k' H P; unfold trk in H.
  - destruct (key_str k); inversion H. reflexivity.
  - congruence.
Qed.

Section WithCt.
Variable ct : ctab.
Variable upper : str -> str.
Hypothesis WF : wf_ctab ct upper = true.

Lemma wf_enum : forall eid ms, find_enum ct eid = Some ms ->
  str_nodupb (map fst ms) = true /\ forall n v, In (n, v) ms -> upper n = n.
Proof.
  intros. unfold wf_ctab in WF. apply andb_true_iff in WF as [_ W].
  rewrite forallb_forall in W. apply assocZ_in in H. specialize (W _ H). simpl in W.
  apply andb_true_iff in W as [W1 W2]. split; auto.
  intros. rewrite forallb_forall in W2. specialize (W2 _ H0). simpl in W2. apply str_eqb_eq; auto.
Qed.

Lemma wf_obj : forall cid fds, find_obj ct cid = Some fds -> str_nodupb (map f_name fds) = true.
Proof.
  intros. unfold wf_ctab in WF. apply andb_true_iff in WF as [W _].
  rewrite forallb_forall in W. apply assocZ_in in H. apply (W _ H).
Qed.

Lemma enum_rt : forall selfT selfF eid raw, enum_has_value ct eid raw = true ->
  exists n, basic_toJson ct selfT (TEnum eid) (PEnum eid raw) = Ok (PStr n) /\
            basic_fromJson ct upper selfF (TEnum eid) (PStr n) = Ok (PEnum eid raw).
Proof.
  intros selfT selfF eid raw H. unfold enum_has_value in H.
  destruct (find_enum ct eid) as [ms|] eqn:FE; try discriminate.
  destruct (value2name ms raw) as [n|] eqn:VN; try discriminate.
  destruct (wf_enum _ _ FE) as [ND UP]. pose proof (value2name_in _ _ _ VN) as IN.
  exists n. split.
  - unfold basic_toJson, enum_init. rewrite FE, Z.eqb_refl. unfold bind, enum_name. rewrite FE, VN. reflexivity.
  - unfold basic_fromJson. rewrite FE. rewrite (UP _ _ IN). rewrite (name2value_nodup _ _ _ ND IN).
    unfold enum_init. rewrite FE, VN. reflexivity.
Qed.

End WithCt.

(* One level of the conversion: nested objects go through selfT / selfF, of which IH says what the
   section proves of this level. *)
Section Level.
Variable ct : ctab.
Variable upper : str -> str.
Hypothesis WF : wf_ctab ct upper = true.
Variable b : bool.
Variable selfT : pv -> res pv.            (* value.toJson() of nested objects *)
Variable selfF : Z -> pv -> res pv.       (* cls.fromJson of nested objects *)
Variable selfH : pv -> Z -> bool.         (* "is a well-typed instance of class cid" for nested objects *)
Hypothesis selfH_obj : forall v cid, selfH v cid = true -> exists c fs, v = PObj c fs.
Hypothesis IH : forall v cid, selfH v cid = true ->
  exists kv kv', selfT v = Ok (PDict kv) /\ tr b (PDict kv) = Ok (PDict kv') /\
                 selfF cid (PDict kv') = Ok v /\ plainb b (PDict kv) = true.

Definition bsent (e : ety) (v : pv) : pv := sent (basic_toJson ct selfT e v).
Definition brcvd (t : pv -> res pv) (e : ety) (v : pv) : pv := rcvd t (basic_toJson ct selfT e v).
Definition RTb (t : pv -> res pv) (pl : pv -> bool) (e : ety) (v : pv) : Prop :=
  RT t pl (basic_toJson ct selfT e v) (basic_fromJson ct upper selfF e) v.

Lemma ht_basic_hashable : forall e v, ht_basic ct selfH b e v = true -> hashable v = true.
Proof.
  intros. destruct e; try (destruct v; simpl in H; try discriminate; reflexivity).
  simpl in H. destruct (selfH_obj _ _ H) as (c & fs & ->). reflexivity.
Qed.

Lemma ht_basic_notnan : forall e v, ht_basic ct selfH b e v = true -> is_nan_val v = false.
Proof.
  intros. destruct v; auto. destruct e; simpl in H; try discriminate.
  - apply andb_true_iff in H as [_ H]. apply negb_true_iff in H. exact H.
  - destruct (selfH_obj _ _ H) as (c & fs & E). discriminate.
Qed.

Lemma basic_rt : forall e v, ht_basic ct selfH b e v = true ->
  RTb (tr b) (plainb b) e v.
Proof.
  intros e v H. destruct e.
  6: { simpl in H. destruct (IH _ _ H) as (kv & kv' & A & B & C & D).
       apply RT_intro with (PDict kv) (PDict kv'); auto. }
  all: destruct v; try discriminate H; simpl in H.
  - apply RT_intro with (PInt z) (PInt z); auto. apply tr_same. intros ->. simpl. rewrite H. reflexivity.
  - apply andb_true_iff in H as [_ H]. apply negb_true_iff in H.
    apply RT_intro with (PFloat bits) (PFloat bits); auto. apply tr_same. intros _. simpl. rewrite H. reflexivity.
  - apply RT_intro with (PBool b0) (PBool b0); auto. apply tr_same; auto.
  - apply RT_intro with (PStr s) (PStr s); auto. apply tr_same; auto.
  - apply andb_true_iff in H as [E H]. apply Z.eqb_eq in E. subst eid0.
    destruct (enum_rt ct upper WF selfT selfF eid raw H) as (n & A & B).
    apply RT_intro with (PStr n) (PStr n); auto. apply tr_same; auto.
Qed.

(* a dict key: sent as itself (int, str) or as the member's name (enum); json.dumps then writes an
   int key as its decimal text *)
Lemma key_rt : forall k a, is_key_ty k = true -> ht_basic ct selfH b k a = true ->
  RTb (trk b) (plain_key b) k a.
Proof.
  intros k a K H. destruct k; try discriminate K; destruct a; try discriminate H; simpl in H.
  - apply RT_intro with (PInt z) (if b then PStr (dec z) else PInt z); auto; unfold trk; destruct b; simpl; auto.
    + rewrite H. reflexivity.
    + rewrite parse_int_dec; auto.
  - apply RT_intro with (PStr s) (PStr s); auto using trk_str.
  - apply andb_true_iff in H as [E H]. apply Z.eqb_eq in E. subst eid0.
    destruct (enum_rt ct upper WF selfT selfF eid raw H) as (n & A & B).
    apply RT_intro with (PStr n) (PStr n); auto using trk_str.
Qed.

Lemma key_eq_refl : forall k a, is_key_ty k = true -> ht_basic ct selfH b k a = true -> py_eq a a = true.
Proof.
  intros k a K H. destruct k; try discriminate K; destruct a; try discriminate H; simpl.
  - apply Z.eqb_refl.
  - apply str_eqb_refl.
  - apply Z.eqb_refl.
Qed.

Lemma keys_nodup : forall k l, is_key_ty k = true -> (forall a, In a l -> ht_basic ct selfH b k a = true) ->
  nodupb l = true ->
  nodupb (map (bsent k) l) = true /\ nodupb (map (brcvd (trk b) k) l) = true.
Proof.
  intros k l K H ND.
  assert (I : forall x y, In x l -> In y l -> py_eq x y = false ->
              bsent k x <> bsent k y /\ brcvd (trk b) k x <> brcvd (trk b) k y).
  { intros x y Hx Hy NE. eapply RT_inj; try (apply key_rt; auto).
    intros ->. rewrite (key_eq_refl k y) in NE; auto. discriminate. }
  split; apply nodupb_map_inj; auto; intros x y Hx Hy NE;
    destruct (key_rt k x K (H x Hx)) as (_ & Tx & _ & Px), (key_rt k y K (H y Hy)) as (_ & Ty & _ & Py);
    apply py_eq_plain_keys with b; eauto using trk_plain; apply I; auto.
Qed.

(* the Tuple branch on a list / tuple of exactly the annotated arity converts position by position *)
Lemma tuple_conv_exact : forall (f : ety -> pv -> res pv) (mk : list pv -> pv),
  (forall l i, py_index (mk l) i = match nth_error l i with Some x => Ok x | None => Err EIndex end) ->
  forall es xs, length es = length xs ->
  tuple_conv f es 0 (length xs) (mk xs) = mapM (fun p => f (fst p) (snd p)) (combine es xs).
Proof.
  intros f mk MK es xs.
  change (length es = length xs ->
          tuple_conv f es (length (@nil pv)) (length ([] ++ xs)) (mk ([] ++ xs)) =
          mapM (fun p => f (fst p) (snd p)) (combine es xs)).
  generalize (@nil pv) as pre. revert xs.
  induction es as [|e0 es IHes]; intros [|x0 xs] pre L; simpl in *; try discriminate; auto.
  rewrite (proj2 (Nat.ltb_lt _ _)) by (rewrite app_length; simpl; lia).
  rewrite MK, nth_error_app2, Nat.sub_diag by lia. simpl.
  specialize (IHes xs (pre ++ [x0])). rewrite <- app_assoc, app_length, Nat.add_1_r in IHes.
  simpl in IHes. rewrite IHes by lia. reflexivity.
Qed.

Lemma none_field_rt : forall j, j = PNone ->
  tr b j = Ok PNone /\ plainb b j = true.
Proof. intros; subst. unfold tr. destruct b; auto. Qed.

Lemma none_rt : forall T F, T = Ok PNone -> F PNone = Ok PNone -> RT (tr b) (plainb b) T F PNone.
Proof.
  intros T F A C. destruct (none_field_rt PNone eq_refl) as [B D]. apply RT_intro with PNone PNone; auto.
Qed.

Lemma elems_rt : forall A (T : A -> res pv) (F : A -> pv -> res pv) (out : A -> pv) l,
  (forall a, In a l -> RT (tr b) (plainb b) (T a) (F a) (out a)) ->
  mapM T l = Ok (map (fun a => sent (T a)) l) /\
  tr b (PList (map (fun a => sent (T a)) l)) = Ok (PList (map (fun a => rcvd (tr b) (T a)) l)) /\
  plainb b (PList (map (fun a => sent (T a)) l)) = true.
Proof.
  intros A T F out l S. split; [|split].
  - apply mapM_ok. intros; apply S; auto.
  - apply tr_list. intros; apply S; auto.
  - simpl. rewrite forallb_map. apply forallb_forall. intros; apply S; auto.
Qed.

Lemma field_rt : forall t v, ht_field ct selfH b t v = true ->
  RT (tr b) (plainb b) (field_toJson ct selfT t v) (field_fromJson ct upper selfF t) v.
Proof.
  intros t v H. destruct t as [e|e|e|k e|es|]; [apply basic_rt; auto|..];
    (destruct v; simpl in H; try discriminate H; [apply none_rt; reflexivity|..]).
  -
    rewrite forallb_forall in H. pose proof (fun x Hx => basic_rt e x (H x Hx)) as S.
    destruct (elems_rt _ _ (fun _ => basic_fromJson ct upper selfF e) (fun x => x) l S) as (A & B & D).
    eapply RT_intro; [simpl; rewrite A; reflexivity | exact B | | exact D].
    simpl. rewrite (mapM_map _ _ _ _ _ (fun x => x) l), map_id by (intros; apply S; auto). reflexivity.
  -
    apply andb_true_iff in H as [H ND]. rewrite forallb_forall in H.
    pose proof (fun x Hx => basic_rt e x (H x Hx)) as S.
    destruct (elems_rt _ _ (fun _ => basic_fromJson ct upper selfF e) (fun x => x) l S) as (A & B & D).
    eapply RT_intro; [simpl; rewrite A; reflexivity | exact B | | exact D].
    simpl. rewrite (mapM_map _ _ _ _ _ (fun x => x) l), map_id by (intros; apply S; auto). simpl.
    rewrite py_set_nodup; auto.
    + apply forallb_forall. intros x Hx. eapply ht_basic_hashable; eauto.
    + apply not_true_is_false. intros E. apply existsb_exists in E as (x & Hx & E).
      rewrite (ht_basic_notnan e x (H x Hx)) in E. discriminate.
  -
    apply andb_true_iff in H as [H ND]. apply andb_true_iff in H as [K H]. rewrite forallb_forall in H.
    assert (S : forall p, In p kv ->
      RTb (trk b) (plain_key b) k (fst p) /\ RTb (tr b) (plainb b) e (snd p) /\
      hashable (fst p) = true).
    { intros p Hp. specialize (H p Hp). apply andb_true_iff in H as [H1 H2].
      split; [apply key_rt | split; [apply basic_rt | eapply ht_basic_hashable]]; eauto. }
    destruct (keys_nodup k (map fst kv) K) as [ND1 ND2]; auto.
    { intros a Ha. apply in_map_iff in Ha as (p & <- & Hp). specialize (H p Hp).
      apply andb_true_iff in H as [H1 _]. exact H1. }
    rewrite map_map in ND1, ND2.
    set (q1 := fun p => (bsent k (fst p), bsent e (snd p))).
    set (q2 := fun p => (brcvd (trk b) k (fst p), brcvd (tr b) e (snd p))).
    apply RT_intro with (PDict (map q1 kv)) (PDict (map q2 kv)).
    + simpl. rewrite (dict_conv_nodup _ _ kv (map q1 kv)); [reflexivity | | rewrite map_map; exact ND1].
      rewrite <- (map_id kv) at 1. apply Forall2_map_same. intros p Hp.
      destruct (S p Hp) as ((A & _ & _ & P) & (A' & _) & _). simpl. eauto using plain_key_hashable.
    + apply tr_dict; [|rewrite map_map; exact ND2]. intros p Hp.
      destruct (S p Hp) as ((_ & B & _) & (_ & B' & _) & _). auto.
    + simpl. rewrite (dict_conv_nodup _ _ (map q2 kv) kv); [reflexivity | | exact ND].
      rewrite <- (map_id kv) at 2. apply Forall2_map_same. intros p Hp.
      destruct (S p Hp) as ((_ & _ & C & _) & (_ & _ & C' & _) & Hh). simpl. auto.
    + simpl. rewrite forallb_map. apply forallb_forall. intros p Hp.
      destruct (S p Hp) as ((_ & _ & _ & D) & (_ & _ & _ & D') & _). apply andb_true_iff. split; assumption.
  -
    apply forall2b_spec in H as [L H]. pose proof (fun p Hp => basic_rt (fst p) (snd p) (H p Hp)) as S.
    destruct (elems_rt _ (fun p => basic_toJson ct selfT (fst p) (snd p))
                         (fun p => basic_fromJson ct upper selfF (fst p)) snd (combine es l) S) as (A & B & D).
    eapply RT_intro; [ | exact B | | exact D].
    + simpl. rewrite (tuple_conv_exact _ PTuple (fun _ _ => eq_refl) es l L), A. reflexivity.
    + simpl. rewrite (tuple_conv_exact _ PList (fun _ _ => eq_refl) es).
      * rewrite combine_map_self, (mapM_map _ _ _ _ _ snd), map_snd_combine by (auto; intros; simpl; apply S; auto).
        reflexivity.
      * rewrite map_length, combine_length. lia.
Qed.

Lemma fields_toJson_ok : forall (g : field * pv -> pv) fds fs, length fds = length fs ->
  (forall p, In p (combine fds fs) -> field_toJson ct selfT (f_ty (fst p)) (snd p) = Ok (g p)) ->
  fields_toJson ct selfT fds fs = Ok (map (fun p => (PStr (f_name (fst p)), g p)) (combine fds fs)).
Proof.
  induction fds as [|fd fds IHfds]; intros [|x fs] L H; simpl in *; try discriminate; auto.
  rewrite (H (fd, x) (or_introl eq_refl) : field_toJson _ _ (f_ty fd) x = _), IHfds; auto.
Qed.

Lemma dict_find_fields : forall (g : field * pv -> pv) (P : list (field * pv)) p,
  str_nodupb (map (fun q => f_name (fst q)) P) = true -> In p P ->
  dict_find (map (fun q => (PStr (f_name (fst q)), g q)) P) (PStr (f_name (fst p))) = Some (g p).
Proof.
  induction P as [|a P IHP]; simpl; intros p ND IN; [contradiction|].
  apply andb_true_iff in ND as [N1 N2]. destruct IN as [->|IN].
  - rewrite str_eqb_refl. reflexivity.
  - rewrite str_eqb_neq. apply IHP; auto.
    apply negb_true_iff in N1. apply existsb_str_false in N1. intros E. apply N1. rewrite E.
    apply in_map_iff. exists p; auto.
Qed.

Lemma obj_step : forall cid fds fs, find_obj ct cid = Some fds ->
  forall2b (fun fd x => ht_field ct selfH b (f_ty fd) x) fds fs = true ->
  exists kv kv',
    fields_toJson ct selfT fds fs = Ok kv /\ tr b (PDict kv) = Ok (PDict kv') /\
    mapM (fun fd => do o <- record_get (PDict kv') (f_name fd);
                    match o with
                    | None => Ok (init_field fd)
                    | Some x => field_fromJson ct upper selfF (f_ty fd) x
                    end) fds = Ok fs /\
    plainb b (PDict kv) = true.
Proof.
  intros cid fds fs FO H. apply forall2b_spec in H as [L H].
  pose proof (fun p Hp => field_rt _ _ (H p Hp)) as S.
  set (T := fun p : field * pv => field_toJson ct selfT (f_ty (fst p)) (snd p)) in S.
  set (P := combine fds fs) in *.
  assert (NDP : str_nodupb (map (fun q : field * pv => f_name (fst q)) P) = true).
  { rewrite <- (map_map fst f_name). unfold P. rewrite map_fst_combine; auto. eapply wf_obj; eauto. }
  exists (map (fun p => (PStr (f_name (fst p)), sent (T p))) P),
         (map (fun p => (PStr (f_name (fst p)), rcvd (tr b) (T p))) P).
  split; [|split; [|split]].
  - apply fields_toJson_ok; auto. intros; apply S; auto.
  - apply tr_dict.
    + intros p Hp. split; [apply trk_str | apply S; auto].
    + rewrite !map_map. simpl. rewrite <- (map_map (fun q : field * pv => f_name (fst q)) PStr).
      apply nodupb_strs; auto.
  - apply mapM_zip; auto. intros p Hp. fold P in Hp. simpl.
    rewrite (dict_find_fields _ P p NDP Hp). apply S; auto.
  - simpl. rewrite forallb_map. apply forallb_forall. intros p Hp. simpl. apply S; auto.
Qed.

End Level.

Section Main.
Variable ct : ctab.
Variable upper : str -> str.
Hypothesis WF : wf_ctab ct upper = true.

Lemma ht_obj_is_obj : forall lim n v cid, ht_obj ct lim n v cid = true -> exists c fs, v = PObj c fs.
Proof. destruct n; simpl; intros; try discriminate. destruct v; try discriminate. eauto. Qed.

(* toJson, then nothing (b = false) or the text round trip (b = true), then fromJson reproduces every
   object of the domain, and what toJson sends is plain data *)
Theorem rt_main : forall b n v cid, ht_obj ct b n v cid = true ->
  exists kv kv', val_toJson ct n v = Ok (PDict kv) /\ tr b (PDict kv) = Ok (PDict kv') /\
                 obj_fromJson ct upper n cid (PDict kv') = Ok v /\ plainb b (PDict kv) = true.
Proof.
  intros b. induction n; intros v cid H; simpl in H; try discriminate.
  destruct v; try discriminate. apply andb_true_iff in H as [E H]. apply Z.eqb_eq in E. subst cid0.
  destruct (find_obj ct cid) as [fds|] eqn:FO; try discriminate.
  destruct (obj_step ct upper WF b (val_toJson ct n) (obj_fromJson ct upper n) (ht_obj ct b n)
                     (ht_obj_is_obj b n) IHn cid fds fields FO H) as (kv & kv' & A & B & C & D).
  exists kv, kv'. cbn [val_toJson obj_fromJson]. rewrite FO, A, C. auto.
Qed.

End Main.

(* C15_tojson_plain and C15_dumps_accepts ask for wf_ctab at the identity: this gives it from wf_ctab at
   any [upper]. *)
Lemma wf_ctab_id : forall ct upper, wf_ctab ct upper = true -> wf_ctab ct (fun s => s) = true.
Proof.
  unfold wf_ctab. intros ct upper H. apply andb_true_iff in H as [H1 H2]. rewrite H1. simpl.
  rewrite forallb_forall in *. intros c Hc. specialize (H2 c Hc). apply andb_true_iff in H2 as [H2 _].
  rewrite H2. simpl. apply forallb_forall. intros. apply str_eqb_refl.
Qed.

Definition children (v : pv) : list pv :=
  match v with
  | PList l | PTuple l | PSet l | PObj _ l => l
  | PDict kv => flat_map (fun p => [fst p; snd p]) kv
  | _ => []
  end.

Section PvInd.
Variable P : pv -> Prop.
Hypothesis step : forall v, Forall P (children v) -> P v.

Fixpoint pv_children_ind (v : pv) : P v :=
  let go := fix go (l : list pv) : Forall P l :=
              match l with [] => Forall_nil P | x :: l' => Forall_cons x (pv_children_ind x) (go l') end in
  step v match v return Forall P (children v) with
         | PList l | PTuple l | PSet l | PObj _ l => go l
         | PDict kv =>
             (fix gd (kv : list (pv * pv)) : Forall P (children (PDict kv)) :=
                match kv with
                | [] => Forall_nil P
                | (k, x) :: kv' => Forall_cons k (pv_children_ind k) (Forall_cons x (pv_children_ind x) (gd kv'))
                end) kv
         | _ => Forall_nil P
         end.
End PvInd.

Definition strict_pair (p : pv * pv) : bool := match p with (PStr _, x) => strictb x | _ => false end.

Lemma dict_set_strict : forall acc s v, forallb strict_pair acc = true -> strictb v = true ->
  forallb strict_pair (dict_set acc (PStr s) v) = true.
Proof.
  induction acc as [|[k' v'] acc]; simpl; intros. rewrite H0; auto.
  apply andb_true_iff in H as [H1 H2]. destruct (py_eq k' (PStr s)) eqn:E; simpl.
  - destruct k'; simpl in *; try discriminate. rewrite H0, H2. reflexivity.
  - rewrite H1. simpl. apply IHacc; auto.
Qed.

Lemma dict_build_strict : forall kv acc, forallb strict_pair acc = true -> forallb strict_pair kv = true ->
  forallb strict_pair (fold_left (fun a p => dict_set a (fst p) (snd p)) kv acc) = true.
Proof.
  induction kv as [|[k v] kv]; simpl; intros; auto. apply andb_true_iff in H0 as [H1 H2].
  destruct k; try discriminate. apply IHkv; auto. apply dict_set_strict; auto.
Qed.

Theorem json_rt_plain_strict : forall j, plainb true j = true ->
  exists j', json_rt j = Ok j' /\ strictb j' = true.
Proof.
  induction j as [j IH] using pv_children_ind. rewrite Forall_forall in IH. intros PL.
  destruct j; try discriminate PL; simpl in PL, IH; try (eexists; split; reflexivity).
  - exists (PInt z). simpl. rewrite PL. auto.
  - rewrite forallb_forall in PL.
    destruct (mapM_post _ _ json_rt strictb l) as (l' & A & B); auto.
    exists (PList l'). rewrite json_rt_list, A. auto.
  - rewrite forallb_forall in PL.
    destruct (mapM_post _ _ (fun p => match p with
                                      | (k, x) => do s <- key_str k; do x' <- json_rt x; Ok (PStr s, x')
                                      end) strict_pair kv) as (kv' & A & B).
    { intros [k x] Hp. specialize (PL _ Hp). apply andb_true_iff in PL as [K PX].
      destruct (IH x) as (x' & C & D); auto. { apply in_flat_map. exists (k, x). simpl; auto. }
      assert (exists s, key_str k = Ok s) as (s & KS).
      { destruct k; try discriminate K; simpl in *; eauto. rewrite K. eauto. }
      exists (PStr s, x'). rewrite KS. simpl. rewrite C. auto. }
    exists (PDict (dict_build kv')). rewrite json_rt_dict, A. split; auto. apply dict_build_strict; auto.
Qed.

Lemma forall2b_mono : forall A B (f g : A -> B -> bool) a b,
  (forall x y, f x y = true -> g x y = true) -> forall2b f a b = true -> forall2b g a b = true.
Proof.
  induction a; destruct b; simpl; intros; auto. apply andb_true_iff in H0 as [H1 H2].
  rewrite (H _ _ H1). simpl. apply IHa; auto.
Qed.

Section Mono.
Variable ct : ctab.
Variable lim : bool.
Variables s1 s2 : pv -> Z -> bool.
Hypothesis S12 : forall v c, s1 v c = true -> s2 v c = true.

Lemma ht_basic_mono : forall e v, ht_basic ct s1 lim e v = true -> ht_basic ct s2 lim e v = true.
Proof. intros e v. destruct e; destruct v; simpl; auto. Qed.

Lemma ht_field_mono : forall t v, ht_field ct s1 lim t v = true -> ht_field ct s2 lim t v = true.
Proof.
  intros t v H. destruct t as [e|e|e|k e|es|].
  - apply ht_basic_mono; auto.
  - destruct v; simpl in *; auto. eapply forallb_mono; [|eauto]. apply ht_basic_mono.
  - destruct v; simpl in *; auto. apply andb_true_iff in H as [H1 H2]. rewrite H2.
    rewrite (forallb_mono _ _ _ (ht_basic_mono e) H1). reflexivity.
  - destruct v; simpl in *; auto. apply andb_true_iff in H as [H H3]. apply andb_true_iff in H as [H1 H2].
    rewrite H1, H3. simpl. rewrite andb_true_r. eapply forallb_mono; [|eauto].
    intros p Hp. apply andb_true_iff in Hp as [A B].
    rewrite (ht_basic_mono _ _ A), (ht_basic_mono _ _ B). reflexivity.
  - destruct v; simpl in *; auto. eapply forall2b_mono; [|eauto]. apply ht_basic_mono.
  - destruct v; simpl in *; auto.
Qed.
End Mono.

Lemma ht_obj_S : forall ct lim n x cid, ht_obj ct lim n x cid = true -> ht_obj ct lim (S n) x cid = true.
Proof.
  intros ct lim. induction n; intros x cid H. discriminate.
  cbn [ht_obj] in *. destruct x; auto.
  apply andb_true_iff in H as [H1 H2]. rewrite H1. simpl.
  destruct (find_obj ct cid); auto.
  eapply forall2b_mono; [|eauto]. intros fd y. apply ht_field_mono. exact IHn.
Qed.
