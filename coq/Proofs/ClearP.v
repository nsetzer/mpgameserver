(* C03, second half: a connection that has no key holds no application data that could be emitted in
   clear.  (That what a key holder emits is sealed, except the server hello, is ConnFrameP.step_emit_key.) *)
From Coq Require Import Lia.
From Model Require Import Base Wire Conn.
From Proofs Require Import DictP WireP ConnFrameP PackP.
Open Scope Z_scope.

Definition nonapp_t (t : ptype) : Prop := t <> APP /\ t <> APP_FRAGMENT.
Definition plain_cb (k : cb) : Prop := match k with Plain _ => True | Retry _ _ _ _ _ => False end.
Definition plain_ocb (k : option cb) : Prop := match k with Some k => plain_cb k | None => True end.
(* a message that neither carries application bytes nor can bring any back: no APP type, not kept for
   re-sending, no RetrySender that would re-queue a payload *)
Definition quiet_msg (m : pmsg) : Prop := nonapp_t (m_type m) /\ m_retry m = RNone /\ plain_ocb (m_cb m).

Lemma quiet_stamp now m : quiet_msg m -> quiet_msg (stamp now m).
Proof. intros H. exact H. Qed.

Record same_q (c c' : conn) : Prop := {
  sq_status : c_status c' = c_status c;
  sq_key : c_key c' = c_key c;
  sq_out : c_outgoing c' = c_outgoing c;
  sq_prm : c_pretry_msg c' = c_pretry_msg c;
  sq_pcbs : c_pcbs c' = c_pcbs c }.
(* While no RetrySender is registered, resolving a datagram queues nothing: the queue stays, the retry
   table and pending_callbacks only lose entries. *)
Definition plain_pcbs (c : conn) : Prop := Forall (fun p => Forall plain_cb (snd p)) (c_pcbs c).
Definition shrinks (c c' : conn) : Prop :=
  c_outgoing c' = c_outgoing c /\ incl (c_pretry_msg c') (c_pretry_msg c) /\ incl (c_pcbs c') (c_pcbs c).

Lemma shrinks_eq c c' : c_outgoing c' = c_outgoing c -> c_pretry_msg c' = c_pretry_msg c -> c_pcbs c' = c_pcbs c -> shrinks c c'.
Proof. intros O P C. unfold shrinks. rewrite O, P, C. auto using incl_refl. Qed.
Lemma shrinks_trans a b c : shrinks a b -> shrinks b c -> shrinks a c.
Proof. intros (O1 & P1 & C1) (O2 & P2 & C2). repeat split; [congruence|eapply incl_tran; eassumption..]. Qed.
Lemma shrinks_plain c c' : shrinks c c' -> plain_pcbs c -> plain_pcbs c'.
Proof. intros (_ & _ & C). apply incl_Forall, C. Qed.

Lemma ratom_shrinks B c c' o : plain_pcbs c -> ratom B c c' o -> shrinks c c'.
Proof.
  intros P [ok _|s ks k ok c1 o1 _ Eg Hk E|s|s _].
  - destruct ok; apply shrinks_eq; reflexivity.
  - pose proof (proj1 (Forall_forall _ _) (Forall_dget _ _ _ _ P Eg) k Hk) as Hp. destruct k; [|destruct Hp].
    destruct (fire_icb_wr E) as [d ->]. apply shrinks_eq; reflexivity.
  - repeat split; cbn; auto using incl_refl. intros y Hy. apply ddel_In in Hy as [Hy _]. exact Hy.
  - unfold forget, forget_retry. destruct (dget s (c_pretry c)); repeat split; cbn; auto using incl_refl.
    intros y. apply fold_ddel_In.
Qed.

Lemma racts_shrinks B c c' o : racts B c c' o -> plain_pcbs c -> shrinks c c'.
Proof.
  apply (star_rel (ratom B) (fun a b _ => plain_pcbs a -> shrinks a b)).
  - intros a _. apply shrinks_eq; reflexivity.
  - intros a b d _ _ H1 H2 P. eapply shrinks_trans; [exact (H1 P)|]. apply H2. exact (shrinks_plain _ _ (H1 P) P).
  - intros a b o' H P. exact (ratom_shrinks B a b o' P H).
Qed.

(* What a connection without a key is like: not CONNECTED (so send refuses), only quiet messages queued, nothing
   waiting to be re-sent, no RetrySender registered.  Jinv, the invariant of the file, asks it of the keyless
   connection only; keeps_J is its step form together with what the step may emit in clear. *)
Record Quiet (c : conn) : Prop := {
  q_status : c_status c <> CONNECTED;
  q_out : Forall quiet_msg (c_outgoing c);
  q_prm : c_pretry_msg c = [];
  q_pcbs : plain_pcbs c }.

Definition Jinv (c : conn) : Prop := c_key c = None -> Quiet c.

Lemma Quiet_shrinks c c' : c_status c' = c_status c -> shrinks c c' -> Quiet c -> Quiet c'.
Proof.
  intros S H [Q1 Q2 Q3 Q4]. pose proof (shrinks_plain _ _ H Q4) as Q4'. destruct H as (O & P & _).
  constructor; [congruence|rewrite O; exact Q2| |exact Q4'].
  rewrite Q3 in P. destruct (c_pretry_msg c') as [|x r]; [reflexivity|destruct (P x (or_introl eq_refl))].
Qed.

Lemma same_q_Quiet c c' : same_q c c' -> Quiet c -> Quiet c'.
Proof. intros [S _ O P C]. apply Quiet_shrinks; [exact S|apply shrinks_eq; assumption]. Qed.

Lemma retried_quiet now ms : Forall quiet_msg ms -> retried now ms = [].
Proof.
  unfold retried. induction 1 as [|m ms (_ & Hr & _) _ IH]; [reflexivity|]. cbn [map filter stamp m_retry]. rewrite Hr. exact IH.
Qed.

Lemma opt_list_plain ms : Forall quiet_msg ms -> Forall plain_cb (opt_list (map m_cb ms)).
Proof.
  induction 1 as [|m ms (_ & _ & Hc) _ IH]; [constructor|]. cbn [map opt_list].
  destruct (m_cb m); [constructor; assumption|assumption].
Qed.

Lemma build_impl_Quiet e c now ka delay c' r :
  Quiet c -> build_impl e c now ka delay = (c', r) ->
  Quiet c' /\ match r with Some (h, ms) => Forall (fun m => nonapp_t (m_type m)) ms | None => True end.
Proof.
  intros [Q1 Q2 Q3 Q4]. rewrite build_impl_eq. unfold select. rewrite Q3.
  destruct (out_pass e (c_outgoing c) [] 0) as [[rem msgs] cu] eqn:E1.
  destruct (out_pass_Forall quiet_msg _ _ _ _ _ _ _ Q2 (Forall_nil _) E1) as [Hrem Hmsgs]. cbv zeta.
  destruct (ptype_eqb _ _); intros E; injection E as <- <-.
  - split; [constructor; [exact Q1|exact Hrem|reflexivity|exact Q4]|exact I].
  - split; [|apply Forall_map; eapply Forall_impl; [|exact Hmsgs]; intros m (H & _); exact H].
    unfold register. rewrite (retried_quiet now msgs Hmsgs). pose proof (opt_list_plain msgs Hmsgs) as Hcbs.
    destruct (opt_list (map m_cb msgs)); (constructor; [exact Q1|exact Hrem|reflexivity|]); [exact Q4|].
    apply Forall_dset; [exact Q4|exact Hcbs].
Qed.

Lemma build_packet_Quiet e c now c' r :
  Quiet c -> build_packet e c now = (c', r) ->
  Quiet c' /\ match r with Some (h, ms) => Forall (fun m => nonapp_t (m_type m)) ms | None => True end.
Proof.
  intros Q E. apply build_packet_cases in E as [(_ & -> & ->)|(c1 & _ & E1 & ->)]; [auto|].
  destruct (build_impl_Quiet _ _ _ _ _ _ _ Q E1) as (Q1 & F).
  destruct r as [pk|]; (split; [|exact F]); [eapply same_q_Quiet; [|exact Q1]; constructor; reflexivity|exact Q1].
Qed.

(* a keyless connection only ever processes a hello (the guard of the handshake atom) *)
Lemma recv_handshake_keyless c ty oo c' os :
  is_hello ty = true -> Quiet c -> recv_handshake c ty oo = (c', os) -> c_key c' = None -> Quiet c'.
Proof.
  intros Hh Q E HK'. destruct (recv_handshake_inv _ _ _ _ _ E)
      as [os' _ _ _|_ _ _ _|_ -> _ _|_ _ _|_ _ _].
  - exact Q.
  - discriminate HK'.
  - discriminate Hh.
  - destruct Q as [A B C D]. constructor; assumption || discriminate.
  - discriminate HK'.
Qed.

Definition clear_ok (o : list out) : Prop :=
  forall h p, In (OEmit h None p) o ->
    h_type h = SERVER_HELLO \/
    exists ms, encode_msgs (map wmsg_of ms) = Ok p /\ Forall (fun m => nonapp_t (m_type m)) ms.

Lemma clear_ok_no_emit o : no_emit o -> clear_ok o.
Proof. intros N h p Hin. apply N in Hin. discriminate. Qed.

Lemma clear_ok_app a b : clear_ok a -> clear_ok b -> clear_ok (a ++ b).
Proof. intros A B h p Hin. apply in_app_or in Hin as [H|H]; [apply A|apply B]; exact H. Qed.

Lemma emit_clear_ok c pk :
  (c_key c = None -> Forall (fun m => nonapp_t (m_type m)) (snd pk)) -> clear_ok (emit c pk).
Proof.
  intros HF h p Hin. apply emit_sealed in Hin as (Hk & Hp & _ & _).
  destruct (ptype_eqb (h_type h) SERVER_HELLO) eqn:Et.
  - left. destruct (h_type h); try discriminate. reflexivity.
  - right. exists (snd pk). split; [exact Hp|]. apply HF. symmetry. exact Hk.
Qed.

Definition keeps_J (c c' : conn) (o : list out) : Prop := Jinv c -> Jinv c' /\ clear_ok o.

Lemma keeps_J_refl c : keeps_J c c []. Proof. intros J. split; [exact J|intros h p []]. Qed.
Lemma keeps_J_trans a b c o1 o2 : keeps_J a b o1 -> keeps_J b c o2 -> keeps_J a c (o1 ++ o2).
Proof. intros H1 H2 J. destruct (H1 J) as [J1 C1]. destruct (H2 J1) as [J2 C2]. auto using clear_ok_app. Qed.

(* a part that keeps the key and emits nothing: it is enough to look at the keyless connection *)
Lemma keeps_J_keyless c c' o : c_key c' = c_key c -> no_emit o -> (c_key c = None -> Quiet c -> Quiet c') -> keeps_J c c' o.
Proof. intros K N H J. split; [|apply clear_ok_no_emit, N]. intros HK. rewrite K in HK. auto. Qed.

Lemma same_q_J c c' o : same_q c c' -> no_emit o -> keeps_J c c' o.
Proof. intros Q N. apply keeps_J_keyless; [apply Q|exact N|]. intros _. apply same_q_Quiet, Q. Qed.

Lemma client_update_J c now c' o : client_update c now = (c', o) -> keeps_J c c' o.
Proof.
  intros E. apply keeps_J_keyless; [exact (wr_keeps W_update c_key (fun _ _ => eq_refl) (client_update_wr E))
                                   |eapply client_update_frame, E|].
  intros _ [A B C D].
  apply client_update_cases in E as (c0 & [->| ->] & [[-> _]|[-> _]]); constructor; assumption || discriminate.
Qed.

Lemma atom_J e x c c' o : atom e x c c' o -> keeps_J c c' o.
Proof.
  intros H. pose proof (atom_no_emit H) as N.
  destruct H as [H|H|H];
    [destruct H as [p r k c1 o1 _ E|k _|w v ->|now hello _|_|b _|now r c1 o1 _ E|now er _]
    |destruct H as [o1 _|s bf _|h c1 o1 _ E|o1 _]
    |destruct H as [s bf _|s p|s p c1 o1 E| |ty oo c1 os _ Hk E]];
    try (apply same_q_J; [constructor; reflexivity|exact N]).
  - (* a_send: a keyless connection is not CONNECTED, nothing is queued *)
    apply keeps_J_keyless; [exact (wr_keeps W_send c_key (fun _ _ => eq_refl) (send_wr E))|exact N|].
    intros _ Q. destruct (send_inv E) as [_|Hs _|Hs _ _|Hs _]; [exact Q|destruct (q_status _ Q Hs)..].
  - (* a_disconnect: the farewell is a quiet message *)
    intros J. split; [|intros h q []]. intros HK'. destruct (disconnect_cases c k) as [(_ & _ & Ed)|(_ & Ed)]; rewrite Ed in *.
    + cbn in HK'. destruct (J HK') as [A B C D]. constructor; cbn; auto. discriminate.
    + unfold send_type in *. cbn in HK'. destruct (J HK') as [A B C D].
      constructor; cbn; auto; try discriminate; [|constructor].
      repeat constructor; try discriminate. cbn. destruct k; exact I.
  - (* a_cfg *)
    apply same_q_J; [destruct w as [|[[q|q|]|[q|q|]|]|q]; constructor; reflexivity|exact N].
  - (* a_hello: the hello is a quiet message *)
    apply keeps_J_keyless; [reflexivity|exact N|].
    intros _ [A B C D]. unfold client_hello, send_type. constructor; cbn; auto; try discriminate.
    apply Forall_app. split; [exact B|]. repeat constructor; discriminate.
  - (* a_update *)
    eapply client_update_J, E.
  - (* a_acks: with plain callbacks only, resolving a datagram queues nothing *)
    pose proof (handle_ack_bits_wr E) as W.
    apply keeps_J_keyless; [exact (wr_keeps W_resolve c_key (fun _ _ => eq_refl) W)|exact N|].
    intros _ Q. apply (Quiet_shrinks c); [exact (wr_keeps W_resolve c_status (fun _ _ => eq_refl) W)| |exact Q].
    eapply racts_shrinks; [eapply handle_ack_bits_racts, E|apply Q].
  - (* a_fragment *)
    apply same_q_J; [|exact N]. apply (wr_rel same_q W_frag); [intros; constructor; reflexivity|eapply recv_fragment_wr, E].
  - (* a_bye *)
    apply keeps_J_keyless; [reflexivity|exact N|]. intros _ [A B C D]. constructor; cbn; auto. discriminate.
  - (* a_hs: a key holder keeps its key; a keyless connection only hears a hello *)
    intros J. split; [|apply clear_ok_no_emit, N]. intros HK'. destruct (c_key c) eqn:HK.
    + exfalso. apply (recv_handshake_key_held _ _ _ _ _ E); [congruence|exact HK'].
    + exact (recv_handshake_keyless _ _ _ _ _ (Hk eq_refl) (J HK) E HK').
Qed.

Lemma tick_tail_J strict e c now c' o2 o3 : tick_tail strict e c now = (c', o2, o3) ->
  Jinv c -> Jinv c' /\ clear_ok o2 /\ no_emit o3.
Proof.
  intros E J. apply tick_tail_cases in E as (c1 & pk & E1 & E2 & ->).
  pose proof (wr_keeps W_build c_key (fun _ _ => eq_refl) (build_packet_wr E1)) as K1.
  pose proof (check_timeout_wr E2) as W2. split; [|split; [|eapply check_timeout_frame, E2]].
  - intros HK. rewrite (wr_keeps W_resolve c_key (fun _ _ => eq_refl) W2), K1 in HK.
    destruct (build_packet_Quiet _ _ _ _ _ (J HK) E1) as [Q1 _].
    apply (Quiet_shrinks c1); [exact (wr_keeps W_resolve c_status (fun _ _ => eq_refl) W2)| |exact Q1].
    eapply racts_shrinks; [eapply check_timeout_racts, E2|apply Q1].
  - destruct pk as [pk|]; [|intros h q []]. apply emit_clear_ok. intros HK. rewrite K1 in HK.
    destruct (build_packet_Quiet _ _ _ _ _ (J HK) E1) as [_ F]. destruct pk. exact F.
Qed.

Theorem step_J e c x c' o : Jinv c -> step e c x = (c', o) -> Jinv c' /\ clear_ok o.
Proof.
  intros J E. apply step_acts in E as (c1 & o1 & ot & H & Ht & ->).
  apply (star_rel _ _ keeps_J_refl keeps_J_trans (atom_J e x)) in H. destruct (H J) as [J1 C1].
  destruct Ht as [_|c2 o2 o3 _ _ T]; [rewrite app_nil_r; auto|].
  destruct (tick_tail_J _ _ _ _ _ _ _ T J1) as (J2 & C2 & N3). split; [exact J2|].
  apply clear_ok_app; [exact C1|]. destruct (ev_strict x); apply clear_ok_app; auto using clear_ok_no_emit.
Qed.

Lemma Jinv_conn0 b : Jinv (conn0 b).
Proof. intros _. constructor; cbn; try constructor. discriminate. Qed.

Theorem run_J e xs c c' oss : Jinv c -> run e c xs = (c', oss) -> Jinv c' /\ Forall clear_ok oss.
Proof. apply run_inv. intros c0 x c1 o J E. eapply step_J; eassumption. Qed.

(* the 12 nonce bytes determine (direction, ctime, seq, ack) *)
Definition nonce_fields (n : list byte) : bool * Z * Z * Z :=
  (bytes_eqb (sub n 0 4) MAGIC_TO_SERVER, unbe (sub n 4 4), unbe (sub n 8 2), unbe (sub n 10 2)).

Lemma nonce_fields_encode h hb : encode_header h = Ok hb ->
  nonce_fields (firstn 12 hb) = (h_to_server h, h_ctime h, h_seq h, h_ack h).
Proof.
  (* for a header in range the 12 bytes are explicit: the magic is compared by evaluation, and each be n z with z in
     range reads back as z, which is arithmetic on its bytes *)
  unfold encode_header. destruct (header_ok h) eqn:Hok; [|discriminate]. intros E. injection E as <-.
  unfold header_ok in Hok. repeat (apply andb_prop in Hok as [Hok ?]).
  repeat match goal with H : in_range _ _ = true |- _ => apply in_range_spec in H end.
  destruct h as [ts ct sq ak ty ln cn ab]. cbn [h_to_server h_ctime h_seq h_ack h_type h_len h_count h_ackbits] in *.
  unfold nonce_fields.
  destruct ts; cbn [MAGIC_TO_SERVER MAGIC_TO_CLIENT map be app firstn skipn sub length];
    unfold unbe; cbn [fold_left]; rewrite !Z_of_byte_of_Z;
    (match goal with |- context [bytes_eqb ?a ?b] => let v := eval vm_compute in (bytes_eqb a b) in change (bytes_eqb a b) with v end);
    repeat f_equal; Z.div_mod_to_equations; lia.
Qed.

Theorem nonce_bytes_inj h1 h2 b1 b2 :
  encode_header h1 = Ok b1 -> encode_header h2 = Ok b2 -> firstn 12 b1 = firstn 12 b2 ->
  h_to_server h1 = h_to_server h2 /\ h_ctime h1 = h_ctime h2 /\ h_seq h1 = h_seq h2 /\ h_ack h1 = h_ack h2.
Proof.
  intros E1 E2 Hn. apply nonce_fields_encode in E1. apply nonce_fields_encode in E2.
  rewrite Hn in E1. rewrite E1 in E2. injection E2 as -> -> -> ->. auto.
Qed.

(* Packet.to_bytes on what packet assembly produced = the bytes the symbolic emission denotes:
   header bytes, then seal key (first 12 header bytes) (all 20 header bytes) payload *)
Section Bytes.
  Variable crc : list byte -> Z.
  Variable seal : Z -> list byte -> list byte -> list byte -> list byte.

  Definition denote (h : header) (kk : option Z) (p : list byte) : res (list byte) :=
    do hb <- encode_header h;
    match kk with
    | Some k => Ok (hb ++ seal k (firstn 12 hb) hb p)
    | None => Ok (hb ++ p ++ be 4 (crc (hb ++ p)))
    end.

  Theorem emit_denotes c h0 ms h kk p :
    h_count h0 = len ms ->
    In (OEmit h kk p) (emit c (h0, ms)) ->
    to_bytes crc seal (c_key c) h0 (map wmsg_of ms) = denote h kk p.
  Proof.
    intros Hcount. unfold to_bytes, denote.
    assert (Hl : len (map wmsg_of ms) = h_count h0) by (unfold len; rewrite map_length; symmetry; exact Hcount).
    rewrite Hl. destruct (emit_cases c h0 ms) as [(er & _ & ->)|(q & -> & ->)]; intros [H|[]]; [discriminate|].
    injection H as <- <- <-. cbn [bind]. fold (with_len h0 (len q)).
    destruct (c_key c); cbn [h_type with_len]; destruct (ptype_eqb _ _); cbn [negb]; destruct (encode_header _); reflexivity.
  Qed.
End Bytes.
