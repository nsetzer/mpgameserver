(* Hostile datagrams: what the front of the loop does with them *)
From RecordUpdate Require Import RecordUpdate.
From Model Require Import Base Conn RecvSpec Server.
From Proofs Require Import RecvP ServerP.
Import RecordSetNotations.
Open Scope Z_scope.

Definition with_batch (i : sin) (b : list witem) : sin :=
  {| i_td := i_td i; i_ts := i_ts i; i_batch := b; i_rand := i_rand i; i_stop := i_stop i |}.

(* only the dispatch reads the batch *)
Lemma srv_step_blocked h e s i :
  srv_step h e s i
  = srv_step h e s (with_batch i (filter (fun it => negb (blocked (s_block s) it)) (i_batch i))).
Proof.
  unfold srv_step, srv_du, srv_sx, with_batch; simpl.
  rewrite (disp_all_blocked h e (i_td i) (i_batch i) (s <| s_rand := i_rand i |>)). reflexivity.
Qed.

Lemma srv_recv_unauthentic h e s cid now d xs cl k :
  sfind cid s = Some cl -> c_key (cl_conn cl) = Some k -> ~ authentic k d ->
  srv_recv h e s cid now d xs = (supd cid (fun c => c <| c_dropped := c_dropped c + 1 |>) s, [], false).
Proof.
  intros F K N. unfold srv_recv. rewrite F. destruct (keyless_refuses _ _); auto. rewrite K.
  destruct (open_key_refuses k d N) as [er ->]. reflexivity.
Qed.
