(* The connection never reaches CONNECTED without a session key and asks for
   handler.connect only on an authentic challenge response (Model/Conn.v, any oracle answers); the
   symbolic handshake of Model/Handshake.v is that connection fed the answers it computes. *)
From Coq Require Import Lia.
From RecordUpdate Require Import RecordUpdate.
From Model Require Import Base SeqNum Wire Conn Handshake HsNet.
From Proofs Require Import ConnFrameP.
Import RecordSetNotations.
Open Scope Z_scope.

(* key, role and token: the fields only a handshake message writes *)
Definition same (c c' : conn) : Prop :=
  c_key c' = c_key c /\ c_server c' = c_server c /\ c_token c' = c_token c.
Definition same_st (c c' : conn) : Prop := same c c' /\ c_status c' = c_status c.

Lemma same_refl c : same c c. Proof. repeat split. Qed.
Lemma same_trans a b c : same a b -> same b c -> same a c.
Proof. intros (A1 & A2 & A3) (B1 & B2 & B3). repeat split; congruence. Qed.

(* what every part of a step but a handshake message does: key, role and token stay, and the connection does not
   become CONNECTED *)
Definition quiet (c c' : conn) : Prop := same c c' /\ (c_status c' = CONNECTED -> c_status c = CONNECTED).

Lemma quiet_refl c : quiet c c. Proof. split; [apply same_refl|auto]. Qed.
Lemma same_st_quiet c c' : same_st c c' -> quiet c c'.
Proof. intros [S St]. split; [exact S|congruence]. Qed.

Lemma wr_quiet m a b : (forall c d, same_st c (over m c d)) -> wr m a b -> quiet a b.
Proof. intros H W. exact (same_st_quiet _ _ (wr_rel same_st m H _ _ W)). Qed.
Lemma wr_quiet_status m a b : (forall c d, same c (over m c d)) -> wr m a b -> c_status b <> CONNECTED -> quiet a b.
Proof. intros H W Hn. split; [exact (wr_rel same m H _ _ W)|intros X; destruct (Hn X)]. Qed.

Lemma send_same e c p r k : same_st c (fst (send e c p r k)).
Proof.
  destruct (send e c p r k) as [c' o] eqn:E. refine (wr_rel same_st W_send _ _ _ (send_wr E)). intros ? ?. repeat split.
Qed.

Lemma tick_tail_same strict e c now : same_st c (fst (fst (tick_tail strict e c now))).
Proof.
  destruct (tick_tail strict e c now) as [[c' o2] o3] eqn:E. refine (wr_rel same_st W_tail _ _ _ (tick_tail_wr E)).
  intros ? ?. repeat split.
Qed.

Lemma server_tick_same e c now : same_st c (fst (server_tick e c now)).
Proof.
  destruct (server_tick e c now) as [c' o] eqn:E. refine (wr_rel same_st W_tail _ _ _ (server_tick_wr E)). intros ? ?. repeat split.
Qed.

Lemma disconnect_same c k : same c (disconnect c k).
Proof. destruct (disconnect_cases c k) as [(_ & _ & ->)|(_ & ->)]; repeat split. Qed.

Definition is_connect (x : out) : bool := match x with OHandlerConnect => true | _ => false end.

Lemma cb_only_no_connect o : ConnFrameP.cb_only o -> existsb is_connect o = false.
Proof. intros H. induction H as [|x o Hx H IH]; [reflexivity|]. destruct x; try contradiction; exact IH. Qed.

Lemma emit_quiet c pk : existsb is_connect (emit c pk) = false.
Proof.
  unfold emit. destruct pk as [h ms]. destruct (encode_msgs _); [|reflexivity].
  destruct (c_key c); [destruct (negb _)|]; reflexivity.
Qed.

Definition inv (c : conn) : Prop := c_status c = CONNECTED -> c_key c <> None.

Lemma quiet_inv c c' : quiet c c' -> inv c -> inv c'.
Proof. unfold inv. intros [(-> & _) St] I X. auto. Qed.

Lemma not_connected_inv c : c_status c <> CONNECTED -> inv c.
Proof. unfold inv; intros; contradiction. Qed.

(* what a message of type ty, answered as the oracle o says, can do *)
Definition msg_fx (ty : ptype) (o : hs_oracle) (c c' : conn) (out : list out) : Prop :=
  c_server c' = c_server c /\
  (c_key c <> None -> c_key c' <> None) /\
  (c_status c' = CONNECTED ->
     c_status c = CONNECTED \/ c_key c' <> None \/ (ty = CHALLENGE_RESP /\ c_key c' = c_key c)) /\
  (existsb is_connect out = true ->
     c_server c = true /\ ty = CHALLENGE_RESP /\ c_key c' = c_key c /\
     o_parse o = 0 /\ o_temp_token o = Some (o_token o)) /\
  (c_server c = true ->
     same c c' \/ (ty = CLIENT_HELLO /\ o_parse o = 0 /\ o_version_ok o = true /\ c_token c' = o_token o)).

Lemma quiet_fx ty o c c' out : quiet c c' -> existsb is_connect out = false -> msg_fx ty o c c' out.
Proof. intros [S St] Q. pose proof S as (K & Sv & _). repeat split; try congruence; auto. Qed.

Lemma recv_handshake_fx c ty o c' os : recv_handshake c ty o = (c', os) -> msg_fx ty o c c' os.
Proof.
  intros E.
  destruct (recv_handshake_inv _ _ _ _ _ E) as [os' _ _ O|Sv -> P V|Sv -> P T|Sv -> P|Sv -> P].
  - apply quiet_fx; [apply quiet_refl|]. destruct O as [->|[e ->]]; reflexivity.
  - split; [reflexivity|]. split; [discriminate|]. split; [discriminate|]. split; [discriminate|]. auto.
  - split; [reflexivity|]. split; [auto|]. split; [auto|]. split; [auto 6|]. left. repeat split.
  - apply quiet_fx; [split; [repeat split|discriminate]|reflexivity].
  - split; [reflexivity|]. split; [discriminate|]. split; [right; left; discriminate|].
    split; [destruct (c_conn_cb c); discriminate|congruence].
Qed.

Lemma dispatch_fx c now m orcs c1 o1 orcs' :
  dispatch c now m orcs = (c1, o1, orcs') -> msg_fx (w_type m) (hd no_oracle orcs) c c1 o1.
Proof.
  unfold dispatch. destruct (w_type m);
    try (destruct (recv_handshake _ _ _) as [c' o'] eqn:R; intros [= <- <- <-]; exact (recv_handshake_fx _ _ _ _ _ R)).
  - intros [= <- <- <-]. apply quiet_fx; [apply quiet_refl|reflexivity].
  - intros [= <- <- <-]. apply quiet_fx; [apply quiet_refl|reflexivity].
  - intros [= <- <- <-]. apply quiet_fx; [split; [repeat split|discriminate]|reflexivity].
  - intros [= <- <- <-]. apply quiet_fx; [apply same_st_quiet; repeat split|reflexivity].
  - destruct (recv_fragment _ _ _ _) as [c' o'] eqn:F. intros [= <- <- <-].
    apply quiet_fx; [|destruct (recv_fragment_out F) as [->| ->]; reflexivity]. apply (wr_quiet W_frag); [intros ? ?; repeat split|exact (recv_fragment_wr F)].
Qed.

Lemma client_update_quiet c now : quiet c (fst (client_update c now)).
Proof.
  unfold client_update. destruct (_ && (now >? _)); destruct (_ && (_ >? c_temp_timeout _));
    (split; [repeat split|]); cbn [fst]; try discriminate; auto.
Qed.

Lemma catom_quiet e x c c' o : catom e x c c' o -> quiet c c'.
Proof.
  intros [p r k c1 o1 _ E|k _|w v ->|now hello _|_|b _|now r c1 o1 _ E|now er _].
  - apply (wr_quiet W_send); [intros ? ?; repeat split|eapply send_wr, E].
  - apply (wr_quiet_status W_disc); [intros ? ?; repeat split|apply disconnect_wr|discriminate].
  - apply (wr_quiet W_cfg); [intros ? ?; repeat split|apply setcfg_wr].
  - apply (wr_quiet_status W_hello); [intros ? ?; repeat split|apply client_hello_wr|discriminate].
  - apply same_st_quiet. repeat split.
  - apply same_st_quiet. repeat split.
  - pose proof (client_update_quiet c now) as Q. rewrite E in Q. exact Q.
  - apply quiet_refl.
Qed.

(* the handshake message comes with the guard of _recv_datagram: without a key only a hello is heard *)
Lemma atom_quiet e x c c' o : atom e x c c' o ->
  quiet c c' \/ exists ty oo, (c_key c = None -> is_hello ty = true) /\ recv_handshake c ty oo = (c', o).
Proof.
  intros [H|H|H]; [left; exact (catom_quiet _ _ _ _ _ H)
                  |destruct H as [o1 _|s bf _|h c1 o1 _ E|o1 _]; left
                  |destruct H as [s bf _|s p|s p c1 o1 E| |ty oo c1 os _ Hk E]; [left..|right; eauto]].
  - apply same_st_quiet. repeat split.
  - apply same_st_quiet. repeat split.
  - apply (wr_quiet W_resolve); [intros ? ?; repeat split|eapply handle_ack_bits_wr, E].
  - apply quiet_refl.
  - apply same_st_quiet. repeat split.
  - apply (wr_quiet W_frag); [intros ? ?; repeat split|apply recv_app_wr].
  - apply (wr_quiet W_frag); [intros ? ?; repeat split|eapply recv_fragment_wr, E].
  - apply (wr_quiet_status W_status); [intros ? ?; repeat split|apply status_wr|discriminate].
Qed.

Lemma atom_inv e x c c' o : atom e x c c' o -> (c_key c <> None -> c_key c' <> None) /\ (inv c -> inv c').
Proof.
  intros H. destruct (atom_quiet _ _ _ _ _ H) as [Q|(ty & oo & Hk & E)].
  - split; [destruct Q as [(-> & _) _]; auto|exact (quiet_inv _ _ Q)].
  - destruct (recv_handshake_fx _ _ _ _ _ E) as (_ & B & C & _). split; [exact B|]. intros I X.
    destruct (C X) as [Y|[Y|[-> Y]]]; [apply B, I, Y|exact Y|].
    (* a challenge response: the guard says the key was there *)
    apply B. intros K. specialize (Hk K). discriminate Hk.
Qed.

Definition no_chal (ms : list wmsg) : Prop := Forall (fun m => w_type m <> CHALLENGE_RESP) ms.

Lemma recv_msgs_connect now ms : forall c orcs c' out, recv_msgs c now ms orcs = (c', out) ->
  existsb is_connect out = true -> c_server c = true /\ Exists (fun m => w_type m = CHALLENGE_RESP) ms.
Proof.
  induction ms as [|m r IH]; intros c orcs c' out H X; [injection H as _ <-; discriminate X|].
  rewrite recv_msgs_cons in H. destruct (bf_insert (c_bf_msg c) (w_seq m)) as [bf|].
  2:{ destruct (IH _ _ _ _ H X). auto. }
  destruct (dispatch (c <| c_bf_msg := bf |>) now m orcs) as [[c1 o1] orcs'] eqn:M.
  destruct (dispatch_fx _ _ _ _ _ _ _ M) as (A1 & _ & _ & D1 & _). cbn in A1, D1.
  assert (Here : existsb is_connect o1 = true -> c_server c = true /\ Exists (fun m => w_type m = CHALLENGE_RESP) (m :: r))
    by (intros Y; destruct (D1 Y) as (? & ? & _); auto).
  destruct (raised o1); [injection H as _ <-; auto|].
  destruct (recv_msgs c1 now r orcs') as [c2 o2] eqn:R. injection H as _ <-.
  rewrite existsb_app in X. apply Bool.orb_true_iff in X as [X|X]; [auto|].
  destruct (IH _ _ _ _ R X). split; [congruence|auto].
Qed.

Lemma keyless_single_hello d ms :
  (negb (h_count (d_hdr d) =? 1) || negb (is_hello (h_type (d_hdr d)))) = false ->
  open_dgram None d = Ok ms -> no_chal ms.
Proof.
  intros G H0. destruct (open_clear_payload d ms H0) as (p & _ & _ & H).
  apply Bool.orb_false_iff in G as [G1 G2].
  apply Bool.negb_false_iff in G1, G2.
  unfold decode_msgs in H. rewrite G1 in H.
  destruct (_ <? _)%nat; [discriminate H|injection H as <-].
  constructor; [|constructor]. cbn.
  unfold is_hello, ptype_eqb in G2. destruct (h_type (d_hdr d)); cbn in G2; discriminate.
Qed.

Lemma open_keyed_authentic k d ms : open_dgram (Some k) d = Ok ms -> authentic k d.
Proof. intros H. destruct (open_sealed_payload _ _ _ H) as (p & B & L & _). exists p. auto. Qed.

Lemma drop_inv c : inv c -> inv (c <| c_dropped := c_dropped c + 1 |>).
Proof. auto. Qed.

Theorem recv_facts c now d orcs c' o : recv c now d orcs = (c', o) ->
  c_server c' = c_server c /\
  (c_key c <> None -> c_key c' <> None) /\
  (inv c -> inv c') /\
  (existsb is_connect o = true ->
     c_server c = true /\ c_key c' <> None /\
     exists k ms, c_key c = Some k /\ authentic k d /\ open_dgram (Some k) d = Ok ms /\
                  Exists (fun m => w_type m = CHALLENGE_RESP) ms).
Proof.
  intros H.
  (* the atoms of a datagram do not read the environment *)
  pose proof (recv_acts {| e_max_payload := 0; e_max_frag := 0; e_max_frags := 0 |} (ERecv now d orcs) _ _ _ _ _ H) as Ha.
  assert (B : c_key c <> None -> c_key c' <> None).
  { revert Ha. apply (star_pres _ (fun c => c_key c <> None)). intros a b oa Hab. apply (atom_inv _ _ _ _ _ Hab). }
  split; [exact (wr_keeps W_recv c_server (fun _ _ => eq_refl) (recv_wr H))|]. split; [exact B|]. split.
  { revert Ha. apply (star_pres _ inv). intros a b oa Hab. apply (atom_inv _ _ _ _ _ Hab). }
  intros X. apply recv_cases in H as [(_ & -> & _)|(ms & bf & c1 & o1 & o2 & KR & OD & _ & E1 & E2 & ->)]; [discriminate X|].
  assert (X2 : existsb is_connect o2 = true).
  { rewrite !existsb_app, (cb_only_no_connect o1) in X by (eapply ack_loop_cb_only, E1).
    destruct (existsb is_connect o2); auto. destruct (raised o2); cbn in X; discriminate. }
  destruct (recv_msgs_connect _ _ _ _ _ _ E2 X2) as [Sv Ex].
  rewrite (wr_keeps W_resolve c_server (fun _ _ => eq_refl) (handle_ack_bits_wr E1)) in Sv. cbn in Sv.
  split; [exact Sv|]. destruct (c_key c) as [k|] eqn:Kc.
  - split; [apply B; discriminate|]. exists k, ms. repeat split; auto. eapply open_keyed_authentic; eauto.
  - exfalso. rewrite keyless_refuses_eq, Kc in KR. pose proof (keyless_single_hello _ _ KR OD) as NC.
    apply Exists_exists in Ex as (m & In_m & Ty). unfold no_chal in NC. rewrite Forall_forall in NC. exact (NC m In_m Ty).
Qed.

Lemma step_inv e c x : inv c -> inv (fst (step e c x)).
Proof.
  intros I. destruct (step e c x) as [c' o] eqn:E. cbn [fst].
  apply step_acts in E as (c1 & o1 & ot & Ha & Ht & _).
  assert (I1 : inv c1).
  { revert I. revert Ha. apply (star_pres _ inv). intros a b oa Hab. apply (atom_inv _ _ _ _ _ Hab). }
  destruct Ht as [_|c2 o2 o3 _ _ T]; [exact I1|].
  pose proof (tick_tail_same (ev_strict x) e c1 (ev_clock x)) as S. rewrite T in S. exact (quiet_inv _ _ (same_st_quiet _ _ S) I1).
Qed.

Lemma run_keeps_inv e xs : forall c, inv c -> inv (fst (run e c xs)).
Proof.
  induction xs as [|x r IH]; intros c I; cbn; [exact I|].
  pose proof (step_inv e c x I) as I1. destruct (step e c x) as [c1 o]; cbn in I1.
  specialize (IH c1 I1). destruct (run e c1 r); cbn in *; exact IH.
Qed.

Section Symbolic.
  Variable SIG : Type.
  Variable pub : Z -> Z.
  Variable sign : Z -> sh_payload -> SIG.
  Variable verify : Z -> SIG -> sh_payload -> bool.
  Variable dh : Z -> Z -> Z.
  Variable kdf : Z -> Z -> Z.
  Variable parse : list byte -> hmsg SIG.
  Variable ser_shello : Z -> sh_payload -> SIG -> list byte.
  Variable ser_chal : Z -> list byte.

  Notation hstate := (hstate SIG).
  Notation oracle_of := (oracle_of SIG pub sign verify dh kdf ser_shello ser_chal).
  Notation hs_step := (hs_step SIG pub sign verify dh kdf ser_shello ser_chal).
  Notation hwalk := (hwalk SIG pub sign verify dh kdf parse ser_shello ser_chal).
  Notation hmsg1 := (hmsg1 SIG pub sign verify dh kdf parse ser_shello ser_chal).
  Notation hrecv := (hrecv SIG pub sign verify dh kdf parse ser_shello ser_chal).
  Notation dgram_oracles := (dgram_oracles SIG pub sign verify dh kdf parse ser_shello ser_chal).
  Notation hstep := (hstep SIG pub sign verify dh kdf parse ser_shello ser_chal).
  Notation hrun := (hrun SIG pub sign verify dh kdf parse ser_shello ser_chal).
  Notation ev_of := (ev_of SIG pub sign verify dh kdf parse ser_shello ser_chal).

  (* perfect-cryptography hypotheses (ECDSA, ECDH) *)
  Hypothesis verify_sign : forall sk s m, verify (pub sk) s m = true <-> s = sign sk m.
  Hypothesis dh_comm : forall a b, dh a (pub b) = dh b (pub a).

  Lemma fail_oracle_parse code : (o_parse (fail_oracle code) =? 0) = false.
  Proof. unfold fail_oracle; cbn. destruct (code =? 0) eqn:E; [reflexivity|exact E]. Qed.

  (* the hello a server-side endpoint in state s signs next *)
  Definition next_payload (s : hstate) : sh_payload :=
    {| sp_pub := pub (h_priv s); sp_salt := fst (hd (0, 0) (h_rand s)); sp_token := snd (hd (0, 0) (h_rand s)) |}.

  Lemma step_client_hello_ok : forall (s : hstate) cpub, c_server (h_conn s) = true ->
    let p := next_payload s in
    hs_step s CLIENT_HELLO (MClientHello cpub (h_version s) true) =
    (send_type ((h_conn s) <| c_token := sp_token p |> <| c_key := Some (kdf (dh (h_priv s) cpub) (sp_salt p)) |>
                  <| c_status := CONNECTING |>)
       SERVER_HELLO (ser_shello (pub (h_root s)) p (sign (h_root s) p)) RNone INone, []).
  Proof.
    intros s cpub Sv p. subst p. unfold next_payload, Handshake.hs_step, Handshake.oracle_of, recv_handshake.
    rewrite Sv. destruct (hd (0, 0) (h_rand s)) as [salt tok].
    cbn [negb fst snd o_parse o_version_ok o_token o_key o_reply sp_salt sp_token]. rewrite !Z.eqb_refl. reflexivity.
  Qed.

  Lemma step_server_hello_ok : forall (s : hstate) rp p sg,
    c_server (h_conn s) = false -> verify (check_key s rp) sg p = true ->
    hs_step s SERVER_HELLO (MServerHello rp p sg) =
    (let c := send_type ((h_conn s) <| c_token := sp_token p |>
                           <| c_key := Some (kdf (dh (h_priv s) (sp_pub p)) (sp_salt p)) |>)
                CHALLENGE_RESP (ser_chal (sp_token p)) RNone IChallenge in
     (c <| c_status := CONNECTED |> <| c_hello_sent := 0 |>, if c_conn_cb c then [OConnCb true] else [])).
  Proof.
    intros s rp p sg Sv V. unfold Handshake.hs_step, Handshake.oracle_of, recv_handshake.
    rewrite Sv, V. reflexivity.
  Qed.

  Lemma step_server_hello_bad : forall (s : hstate) rp p sg,
    c_server (h_conn s) = false -> verify (check_key s rp) sg p = false ->
    hs_step s SERVER_HELLO (MServerHello rp p sg) = ((h_conn s) <| c_status := DISCONNECTED |>, [ORaise ESig]).
  Proof.
    intros s rp p sg Sv V. unfold Handshake.hs_step, Handshake.oracle_of, recv_handshake.
    rewrite Sv, V. reflexivity.
  Qed.

  Lemma step_challenge_ok : forall (s : hstate) tok,
    c_server (h_conn s) = true -> temp_token s = Some tok ->
    hs_step s CHALLENGE_RESP (MChallenge tok) = ((h_conn s) <| c_status := CONNECTED |>, [OHandlerConnect]).
  Proof.
    intros s tok Sv T. unfold Handshake.hs_step, Handshake.oracle_of, recv_handshake.
    rewrite Sv. cbn [negb o_parse o_temp_token o_token]. rewrite T. cbn [Z.eqb negb]. rewrite Z.eqb_refl. reflexivity.
  Qed.

  (* every argument is a parameter, so that a case analysis keeps what is known of ty and m *)
  Inductive hs_view (s : hstate) (ty : ptype) (m : hmsg SIG) (c1 : conn) (o1 : list out) (s' : hstate) : Prop :=
  | HvAdopt rp p sg : ty = SERVER_HELLO -> m = MServerHello rp p sg ->
      c_server (h_conn s) = false -> verify (check_key s rp) sg p = true ->
      c1 = (let c := send_type ((h_conn s) <| c_token := sp_token p |>
                                  <| c_key := Some (kdf (dh (h_priv s) (sp_pub p)) (sp_salt p)) |>)
                       CHALLENGE_RESP (ser_chal (sp_token p)) RNone IChallenge in
            c <| c_status := CONNECTED |> <| c_hello_sent := 0 |>) ->
      o1 = (if c_conn_cb (h_conn s) then [OConnCb true] else []) ->
      s' = s <| h_conn := c1 |> <| h_adopted := Some (rp, p, sg) |> -> hs_view s ty m c1 o1 s'
  | HvAnswer cpub : ty = CLIENT_HELLO -> m = MClientHello cpub (h_version s) true -> c_server (h_conn s) = true ->
      c1 = send_type ((h_conn s) <| c_token := sp_token (next_payload s) |>
                        <| c_key := Some (kdf (dh (h_priv s) cpub) (sp_salt (next_payload s))) |>
                        <| c_status := CONNECTING |>)
             SERVER_HELLO (ser_shello (pub (h_root s)) (next_payload s) (sign (h_root s) (next_payload s))) RNone INone ->
      o1 = [] -> s' = s <| h_conn := c1 |> <| h_rand := tl (h_rand s) |> -> hs_view s ty m c1 o1 s'
  | HvConnect tok : ty = CHALLENGE_RESP -> m = MChallenge tok -> c_server (h_conn s) = true -> temp_token s = Some tok ->
      c1 = (h_conn s) <| c_status := CONNECTED |> -> o1 = [OHandlerConnect] ->
      s' = s <| h_conn := c1 |> <| h_temp := TNone |> -> hs_view s ty m c1 o1 s'
  | HvRefuse : hs_accepted (h_conn s) ty (oracle_of s ty m) = false ->
      c1 = h_conn s \/ (c_server (h_conn s) = false /\ c1 = (h_conn s) <| c_status := DISCONNECTED |>) ->
      (forall rp p sg, c_server (h_conn s) = false -> ty = SERVER_HELLO -> m = MServerHello rp p sg ->
         verify (check_key s rp) sg p = false /\ c1 = (h_conn s) <| c_status := DISCONNECTED |>) ->
      o1 = [] \/ (exists e, o1 = [ORaise e]) ->
      s' = s <| h_conn := c1 |> -> hs_view s ty m c1 o1 s'.

  Lemma fail_parse code : o_parse (fail_oracle code) <> 0.
  Proof. apply Z.eqb_neq, fail_oracle_parse. Qed.

  Lemma oracle_parse0 (s : hstate) ty m : is_hs ty = true -> o_parse (oracle_of s ty m) = 0 ->
    match ty, c_server (h_conn s) with
    | CLIENT_HELLO, true => exists cpub ver, m = MClientHello cpub ver true
    | SERVER_HELLO, false => exists rp p sg, m = MServerHello rp p sg /\ verify (check_key s rp) sg p = true
    | CHALLENGE_RESP, true => exists tok, m = MChallenge tok
    | _, _ => False
    end.
  Proof.
    unfold Handshake.oracle_of. intros Hs.
    destruct m as [cpub ver pad|rp p sg|tok|code]; [| | |intros P; destruct (fail_parse _ P)];
      destruct ty; try discriminate Hs; destruct (c_server (h_conn s)); try (intros P; discriminate P);
      try (intros P; destruct (fail_parse _ P)).
    - destruct pad; cbn [negb]; [eauto|intros P; destruct (fail_parse _ P)].
    - destruct (verify _ sg p) eqn:V; [eauto|intros P; destruct (fail_parse _ P)].
    - eauto.
  Qed.

  (* a refused message leaves nothing for Handshake.note to record; o is any answer, not the computed one *)
  Lemma note_refused (s : hstate) ty m o c1 o1 : hs_accepted (h_conn s) ty o = false ->
    c_server c1 = c_server (h_conn s) -> has_connect o1 = false -> note SIG s ty m o c1 o1 = s <| h_conn := c1 |>.
  Proof.
    unfold hs_accepted, Handshake.note. intros A -> ->.
    destruct ty, (c_server (h_conn s)); cbn in A |- *; try reflexivity.
    - rewrite A. reflexivity.
    - rewrite Bool.andb_true_r in A. rewrite A. reflexivity.
  Qed.

  Lemma hs_step_view (s : hstate) ty m c1 o1 : hs_step s ty m = (c1, o1) ->
    hs_view s ty m c1 o1 (note SIG s ty m (oracle_of s ty m) c1 o1).
  Proof.
    intros H. destruct (hs_accepted (h_conn s) ty (oracle_of s ty m)) eqn:A.
    - (* accepted: the answer parses, so the message is of the kind this endpoint acts on *)
      unfold hs_accepted in A. apply andb_prop in A as [P A]. apply Z.eqb_eq in P.
      destruct ty; try discriminate A; pose proof (fun Hs => oracle_parse0 s _ m Hs P) as X; specialize (X eq_refl);
        destruct (c_server (h_conn s)) eqn:Sv; try contradiction.
      + destruct X as (cpub & ver & ->).
        assert (ver = h_version s) as ->.
        { revert A. unfold Handshake.oracle_of. rewrite Sv. destruct (hd (0, 0) (h_rand s)). cbn. apply Z.eqb_eq. }
        rewrite (step_client_hello_ok s cpub Sv) in H. injection H as E1 <-.
        assert (Sv1 : c_server c1 = true) by (rewrite <- E1; exact Sv).
        apply (HvAnswer _ _ _ _ _ _ cpub); [reflexivity|reflexivity|exact Sv|symmetry; exact E1|reflexivity|].
        (* what note records needs of c1 only that it is server-side: c1 stays a variable *)
        unfold Handshake.note, Handshake.oracle_of. rewrite Sv. destruct (hd (0, 0) (h_rand s)).
        cbn. rewrite Sv1, Z.eqb_refl. reflexivity.
      + destruct X as (rp & p & sg & -> & V).
        rewrite (step_server_hello_ok s rp p sg Sv V) in H. injection H as E1 E2.
        assert (Sv1 : c_server c1 = false) by (rewrite <- E1; exact Sv).
        assert (N : has_connect o1 = false) by (rewrite <- E2; destruct (c_conn_cb _); reflexivity).
        apply (HvAdopt _ _ _ _ _ _ rp p sg); [reflexivity|reflexivity|exact Sv|exact V|symmetry; exact E1|symmetry; exact E2|].
        unfold Handshake.note, Handshake.oracle_of. rewrite Sv, V, N, Sv1. reflexivity.
      + destruct X as (tok & ->).
        assert (T : temp_token s = Some tok).
        { revert A. unfold Handshake.oracle_of. rewrite Sv. cbn. destruct (temp_token s) as [t|]; [|discriminate].
          intros E. apply Z.eqb_eq in E. congruence. }
        rewrite (step_challenge_ok s tok Sv T) in H. injection H as E1 <-.
        assert (Sv1 : c_server c1 = true) by (rewrite <- E1; exact Sv).
        apply (HvConnect _ _ _ _ _ _ tok); [reflexivity|reflexivity|exact Sv|exact T|symmetry; exact E1|reflexivity|].
        unfold Handshake.note. cbn. rewrite Sv1. reflexivity.
    - destruct (recv_handshake_refused _ _ _ _ _ A H) as [C O].
      apply HvRefuse; auto.
      + intros rp p sg Sv -> ->. revert A H.
        unfold hs_accepted, Handshake.hs_step, Handshake.oracle_of, recv_handshake.
        rewrite Sv. destruct (verify _ sg p); [discriminate|]. intros _ [= <- _]. auto.
      + apply note_refused; [exact A|destruct C as [->|[_ ->]]; reflexivity|destruct O as [->|[e ->]]; reflexivity].
  Qed.

  Corollary pinned_hello_signed_by_root : forall (s : hstate) root rp p sg,
    h_pinned s = Some (pub root) -> verify (check_key s rp) sg p = true -> sg = sign root p.
  Proof. intros s root rp p sg P V. unfold check_key in V. rewrite P in V. now apply verify_sign. Qed.

  (* the honest three-message run: equal keys, equal tokens, one connect *)
  Theorem honest_agree_proof : forall a b root salt tok rest pinned,
    pinned = None \/ pinned = Some (pub root) ->
    let C0 := client0 SIG a pinned in
    let S0 := server0 SIG b root ((salt, tok) :: rest) in
    let '(sc1, o1) := hs_step S0 CLIENT_HELLO (MClientHello (pub a) 1 true) in
    let S1 := S0 <| h_conn := sc1 |> in
    let p := {| sp_pub := pub b; sp_salt := salt; sp_token := tok |} in
    let '(cc1, o2) := hs_step C0 SERVER_HELLO (MServerHello (pub root) p (sign root p)) in
    let '(sc2, o3) := hs_step S1 CHALLENGE_RESP (MChallenge (c_token cc1)) in
    map m_payload (c_outgoing sc1) = [ser_shello (pub root) p (sign root p)] /\
    map m_payload (c_outgoing cc1) = [ser_chal tok] /\
    c_key cc1 = Some (kdf (dh a (pub b)) salt) /\ c_key sc2 = c_key cc1 /\
    c_token cc1 = tok /\ c_token sc2 = tok /\
    c_status cc1 = CONNECTED /\ c_status sc2 = CONNECTED /\ o3 = [OHandlerConnect].
  Proof.
    intros a b root salt tok rest pinned Pin C0 S0.
    pose proof (step_client_hello_ok S0 (pub a) eq_refl) as E1.
    change (h_version S0) with 1 in E1. cbv zeta in E1. cbn [S0 server0 h_rand hd fst snd sp_salt sp_token] in E1.
    rewrite E1. clear E1. cbv beta iota zeta.
    set (sc1 := send_type _ SERVER_HELLO _ RNone INone).
    set (p := {| sp_pub := pub b; sp_salt := salt; sp_token := tok |}).
    assert (V : verify (check_key C0 (pub root)) (sign root p) p = true).
    { unfold check_key, C0, client0. cbn [h_pinned]. destruct Pin as [-> | ->]; apply verify_sign; reflexivity. }
    rewrite (step_server_hello_ok C0 (pub root) p (sign root p) eq_refl V). cbv beta iota zeta.
    set (cc := send_type _ CHALLENGE_RESP _ RNone IChallenge).
    assert (Tk : c_token (cc <| c_status := CONNECTED |> <| c_hello_sent := 0 |>) = tok) by reflexivity.
    rewrite Tk.
    assert (Sv1 : c_server (h_conn (S0 <| h_conn := sc1 |>)) = true) by (subst sc1; reflexivity).
    assert (Tt1 : temp_token (S0 <| h_conn := sc1 |>) = Some tok) by (subst sc1; reflexivity).
    rewrite (step_challenge_ok (S0 <| h_conn := sc1 |>) tok Sv1 Tt1). cbv beta iota zeta.
    subst cc sc1 p C0 S0. cbn [client0 server0 h_conn h_priv h_root].
    cbn [sp_pub sp_salt sp_token]. rewrite (dh_comm a b).
    repeat split.
  Qed.

  Lemma note_conn (s : hstate) ty m o c1 o1 : h_conn (note SIG s ty m o c1 o1) = c1.
  Proof.
    unfold note. destruct (has_connect o1); destruct (_ && o_version_ok o); destruct (negb _ && _ && _);
      try destruct m; reflexivity.
  Qed.

  Lemma hwalk_cons (s : hstate) now m r :
    hwalk s now (m :: r) =
    match bf_insert (c_bf_msg (h_conn s)) (w_seq m) with
    | Err _ => let '(s', out, orcs) := hwalk s now r in
               (s', out, if is_hs (w_type m) then oracle_of s (w_type m) (parse (w_payload m)) :: orcs else orcs)
    | Ok bf =>
        let '(s1, o1) := hmsg1 s now m bf in
        if raised o1 then (s1, o1, if is_hs (w_type m) then [oracle_of s (w_type m) (parse (w_payload m))] else [])
        else let '(s2, o2, orcs) := hwalk s1 now r in
             (s2, o1 ++ o2, if is_hs (w_type m) then oracle_of s (w_type m) (parse (w_payload m)) :: orcs else orcs)
    end.
  Proof.
    cbn [Handshake.hwalk]. destruct (bf_insert (c_bf_msg (h_conn s)) (w_seq m)) as [bf|]; [|reflexivity].
    unfold HsNet.hmsg1.
    match goal with |- context [let '(c1, o1) := ?X in _] => destruct X as [c1 o1] end.
    reflexivity.
  Qed.

  Lemma hmsg1_dispatch (s : hstate) now m bf rest :
    dispatch ((h_conn s) <| c_bf_msg := bf |>) now m
      (if is_hs (w_type m) then oracle_of s (w_type m) (parse (w_payload m)) :: rest else rest) =
    (h_conn (fst (hmsg1 s now m bf)), snd (hmsg1 s now m bf), rest).
  Proof.
    unfold dispatch, HsNet.hmsg1. destruct (w_type m); cbn [is_hs hd tl]; try reflexivity;
      try (destruct (recv_handshake _ _ _); cbn [fst snd]; rewrite note_conn; reflexivity).
    destruct (recv_fragment _ _ _ _). reflexivity.
  Qed.

  Lemma hwalk_recv_msgs tm ms : forall (s s' : hstate) o orcs extra,
    hwalk s tm ms = (s', o, orcs) -> recv_msgs (h_conn s) tm ms (orcs ++ extra) = (h_conn s', o).
  Proof.
    induction ms as [|m r IH]; intros s s' o orcs extra H.
    - injection H as <- <- <-. reflexivity.
    - rewrite recv_msgs_cons. rewrite hwalk_cons in H.
      set (om := oracle_of s (w_type m) (parse (w_payload m))) in *.
      assert (L : forall l, (if is_hs (w_type m) then om :: l else l) ++ extra =
                            if is_hs (w_type m) then om :: l ++ extra else l ++ extra)
        by (intros; destruct (is_hs (w_type m)); reflexivity).
      destruct (bf_insert (c_bf_msg (h_conn s)) (w_seq m)) as [bf|].
      2:{ destruct (hwalk s tm r) as [[s1 o1] orcs1] eqn:W. injection H as <- <- <-.
          rewrite L. destruct (is_hs (w_type m)); apply (IH _ _ _ _ _ W). }
      pose proof (hmsg1_dispatch s tm m bf) as M. fold om in M.
      destruct (hmsg1 s tm m bf) as [s1 o1]. cbn [fst snd] in M.
      destruct (raised o1) eqn:Ra.
      + injection H as <- <- <-. rewrite L, M, Ra. reflexivity.
      + destruct (hwalk s1 tm r) as [[s2 o2] orcs2] eqn:W. injection H as <- <- <-.
        rewrite L, M, Ra, (IH _ _ _ _ extra W). reflexivity.
  Qed.

  Theorem hrecv_is_recv_proof : forall (s s' : hstate) now d o,
    hrecv s now d = (s', o) -> recv (h_conn s) now d (dgram_oracles s now d) = (h_conn s', o).
  Proof.
    intros s s' tm d o H. unfold Handshake.hrecv in H. unfold recv, Handshake.dgram_oracles.
    destruct (keyless_refuses (h_conn s) (d_hdr d)); [injection H as <- <-; reflexivity|].
    destruct (open_dgram (c_key (h_conn s)) d) as [ms|]; [|injection H as <- <-; reflexivity].
    destruct (bf_insert (c_bf_pkt (h_conn s)) (h_seq (d_hdr d))) as [bf|]; [|injection H as <- <-; reflexivity].
    destruct (handle_ack_bits _ (d_hdr d)) as [c1 o1].
    destruct (hwalk (s <| h_conn := c1 |>) tm ms) as [[s2 o2] orcs] eqn:W.
    pose proof (hwalk_recv_msgs _ _ _ _ _ _ [] W) as E. rewrite app_nil_r in E.
    change (h_conn (s <| h_conn := c1 |>)) with c1 in E. cbn [snd]. rewrite E. injection H as <- <-. reflexivity.
  Qed.

  (* the client's socket read: ConnSpecP.rx_recv with hrecv in the place of recv *)
  Definition hrx_recv (s : hstate) (now : Z) (r : hrx) : hstate * list out :=
    match r with
    | HxNone => (s, [])
    | HxBad er => (s, [ORaise er])
    | HxDgram d => let '(s', o') := hrecv s now d in (s', filter not_ret o')
    end.
  Definition rx_of (s : hstate) (now : Z) (r : hrx) : rx :=
    match r with
    | HxNone => RxNone | HxBad er => RxBadHeader er | HxDgram d => RxDgram d (dgram_oracles s now d)
    end.

  Lemma hrx_recv_is_rx_recv (s s1 : hstate) now r o1 :
    hrx_recv s now r = (s1, o1) -> rx_recv (h_conn s) now (rx_of s now r) = (h_conn s1, o1).
  Proof.
    destruct r as [|er|d]; cbn [hrx_recv rx_of rx_recv]; try (intros [= <- <-]; reflexivity).
    destruct (hrecv s now d) as [s2 o2] eqn:R. rewrite (hrecv_is_recv_proof _ _ _ _ _ R). intros [= <- <-]. reflexivity.
  Qed.

  (* Handshake.hclient_tick in the shape of ConnSpecP.client_tick_eq *)
  Lemma hclient_tick_eq e (s : hstate) now r :
    hclient_tick SIG pub sign verify dh kdf parse ser_shello ser_chal e s now r =
    let '(c0, o0) := client_update (h_conn s) now in
    if status_eqb (c_status c0) DROPPED then (s <| h_conn := c0 |>, o0)
    else let '(s1, o1) := hrx_recv (s <| h_conn := c0 |>) now r in
         if raised o1 then (s1, o0 ++ o1)
         else if now - c_last_send (h_conn s1) >? c_send_interval (h_conn s1) then
                let '(c2, o2, o3) := tick_tail false e (h_conn s1) now in (s1 <| h_conn := c2 |>, o0 ++ o1 ++ o2 ++ o3)
              else (s1, o0 ++ o1).
  Proof.
    unfold Handshake.hclient_tick, tick_tail, hrx_recv. destruct (client_update (h_conn s) now) as [c0 o0].
    destruct (status_eqb _ _); [reflexivity|].
    destruct r as [|er|d]; [| |destruct (hrecv _ now d) as [s1 o1]];
      (destruct (raised _); [reflexivity|]; destruct (_ >? _); [|reflexivity];
       destruct (build_packet _ _ _) as [c2 pk]; destruct (check_timeout _ _ _); reflexivity).
  Qed.

  (* every symbolic event is the Conn.v event ev_of computes, so Conn-level theorems transfer *)
  Theorem hstep_is_step_proof : forall e (s s' : hstate) x o,
    hstep e s x = (s', o) -> step e (h_conn s) (ev_of s x) = (h_conn s', o).
  Proof.
    intros e s s' x o H. destruct x as [tm d|tm r|tm hello|x]; cbn [Handshake.hstep Handshake.ev_of step] in H |- *.
    - apply hrecv_is_recv_proof; auto.
    - rewrite hclient_tick_eq in H. rewrite client_tick_eq. change (match r with HxNone => RxNone | _ => _ end) with
        (rx_of (s <| h_conn := fst (client_update (h_conn s) tm) |>) tm r).
      destruct (client_update (h_conn s) tm) as [c0 o0]. cbn [fst].
      destruct (status_eqb (c_status c0) DROPPED); [injection H as <- <-; reflexivity|].
      destruct (hrx_recv (s <| h_conn := c0 |>) tm r) as [s1 o1] eqn:Rx.
      rewrite (hrx_recv_is_rx_recv _ _ _ _ _ Rx : rx_recv c0 _ _ = _).
      destruct (raised o1); [injection H as <- <-; reflexivity|].
      destruct (_ >? _); [|injection H as <- <-; reflexivity].
      destruct (tick_tail false e (h_conn s1) tm) as [[c2 o2] o3]. injection H as <- <-; reflexivity.
    - injection H as <- <-; reflexivity.
    - destruct (oracle_free x) eqn:OF.
      + destruct (step e (h_conn s) x) as [c1 o1]. injection H as <- <-; reflexivity.
      + (* the event ev_of picks rewrites the keep-alive interval with its own value *)
        injection H as <- <-. cbn [step]. f_equal. exact (@mkT_ok _ eta_conn (h_conn s)).
  Qed.

  Lemma hrun_inv e xs : forall (s : hstate), inv (h_conn s) -> inv (h_conn (fst (hrun e s xs))).
  Proof.
    induction xs as [|x r IH]; intros s I; cbn; [exact I|].
    destruct (hstep e s x) as [s1 o] eqn:H.
    pose proof (step_inv e (h_conn s) (ev_of s x) I) as I1.
    rewrite (hstep_is_step_proof _ _ _ _ _ H) in I1.
    specialize (IH s1 I1). destruct (hrun e s1 r); exact IH.
  Qed.

End Symbolic.

Section Aead.
  Variable CT : Type.
  Variable seal : Z -> header -> list byte -> CT.
  Variable open : Z -> header -> CT -> option (list byte).
  Hypothesis open_seal : forall k h p, open k h (seal k h p) = Some p.

  Theorem sealed_is_authentic_proof : forall k h p,
    h_len h = len p -> authentic k {| d_hdr := h; d_body := body_view CT open k h (seal k h p) |}.
  Proof. intros k h p L. unfold authentic, body_view. cbn. rewrite open_seal. exists p. split; [reflexivity|lia]. Qed.
End Aead.
