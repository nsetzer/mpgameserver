(* C18P.v — the handler loop over a stream of client frames: each frame is one iteration, so the
   whole stream in one read is delivered exactly; chunking_irrelevant carries this to any reads. *)
From Coq Require Import Lia ZifyBool.
From Model Require Import Base WsFrame.
From Proofs Require Import WsFrameP WsStreamP.
Open Scope Z_scope.

Lemma canon_id f : wf_frame f -> canon_key f = f.
Proof.
  intros (_ & _ & _ & _ & _ & _ & _ & _ & _ & Hzk). destruct f as [a b c d o m k n p]. unfold canon_key. cbn in *.
  destruct (m =? 0) eqn:E; [|reflexivity]. rewrite Hzk by lia. reflexivity.
Qed.

Lemma encode_rfc f : wf_frame f -> encode_frame f = Ok (rfc_encode f).
Proof. intro H. apply encode_rfc_anykey, wf_frame_anykey_of, H. Qed.

Lemma parse_encode f rest : wf_frame f -> parse_frame (rfc_encode f ++ rest) = (Ok f, rest).
Proof. intro H. rewrite parse_encode_anykey, canon_id by auto using wf_frame_anykey_of. reflexivity. Qed.

Lemma partial_unavailable t : partial_frame t -> frame_available t = false.
Proof.
  intros [-> | (g & q & Hwf & Hq & E)]; [reflexivity|].
  exact (incomplete_prefix g t q (wf_frame_anykey_of g Hwf) E Hq).
Qed.

Lemma run_client f t c : client_frame f ->
  run {| w_buf := rfc_encode f ++ t; w_closed := c |} = out_cons c f (run {| w_buf := t; w_closed := c || is_close f |}).
Proof.
  intros (Hwf & Hm & Hu). rewrite run_step by (apply available_encode, wf_frame_anykey_of, Hwf).
  unfold step_result, next, verdict. cbn [w_buf w_closed]. rewrite parse_encode by exact Hwf. cbn [fst snd].
  rewrite Hm. cbn [Z.eqb].
  destruct (opcode_eqb (f_opcode f) OpText) eqn:E; [|reflexivity].
  rewrite (Hu (opcode_eqb_eq _ _ E)). reflexivity.
Qed.

Lemma enc_stream_cons f fs : enc_stream (f :: fs) = rfc_encode f ++ enc_stream fs.
Proof. reflexivity. Qed.
Lemma enc_stream_app a b : enc_stream (a ++ b) = enc_stream a ++ enc_stream b.
Proof. unfold enc_stream. rewrite map_app, concat_app. reflexivity. Qed.

Definition frames_run (c : bool) (fs : list frame) (t : list byte) : ws * wsout :=
  ({| w_buf := t; w_closed := c || existsb is_close fs |},
   {| o_delivered := map delivery fs;
      o_written := if negb c && existsb is_close fs then close_bytes else [];
      o_error := None |}).

Lemma run_frames fs : forall t c,
  Forall client_frame fs -> frame_available t = false ->
  run {| w_buf := enc_stream fs ++ t; w_closed := c |} = frames_run c fs t.
Proof.
  unfold frames_run. induction fs as [|f fs IH]; intros t c HF Ht.
  - cbn [enc_stream map concat app existsb]. rewrite run_idle, orb_false_r, andb_false_r by exact Ht. reflexivity.
  - inversion HF as [|? ? Hf HF']; subst.
    rewrite enc_stream_cons, <- app_assoc, run_client, IH by assumption.
    cbn [out_cons existsb map o_delivered o_written o_error]. rewrite orb_assoc.
    destruct c, (is_close f), (existsb is_close fs); cbn [negb andb orb app]; rewrite ?app_nil_r; reflexivity.
Qed.

Lemma feed_frames chunks fs p t c :
  Forall client_frame fs -> frame_available p = false -> frame_available t = false ->
  p ++ concat chunks = enc_stream fs ++ t ->
  ws_feed {| w_buf := p; w_closed := c |} chunks = frames_run c fs t.
Proof.
  intros HF Hp Ht E. pose proof (chunking_irrelevant chunks {| w_buf := p; w_closed := c |} Hp) as H.
  rewrite ws_call_run in H. unfold more in H. cbn [w_buf w_closed] in H. rewrite E, run_frames in H by assumption.
  destruct (ws_feed _ chunks) as [s1 o1]. destruct H as [-> H]. rewrite H by reflexivity. reflexivity.
Qed.

(* frames written by the library's own writeFrame *)
Lemma encs_are_rfc frames encs :
  Forall wf_frame_anykey frames -> Forall2 (fun f b => encode_frame f = Ok b) frames encs ->
  concat encs = enc_stream frames.
Proof.
  intros HF H. induction H as [|f b fs bs Hfb H IH]; [reflexivity|].
  inversion HF as [|? ? Hf HF']; subst. rewrite enc_stream_cons. cbn [concat].
  rewrite (encode_rfc_anykey f Hf) in Hfb. inversion Hfb; subst. rewrite IH by exact HF'. reflexivity.
Qed.

Lemma client_frames_wf frames : Forall client_frame frames -> Forall wf_frame_anykey frames.
Proof.
  intro H. eapply Forall_impl; [|exact H]. intros f (Hwf & _). apply wf_frame_anykey_of, Hwf.
Qed.

(* close_bytes is what writeFrame puts on the wire for Close(): the Err branch of its definition
   (Model/WsFrame.v) is never taken *)
Lemma close_bytes_rfc : encode_frame close_frame = Ok close_bytes /\ close_bytes = rfc_encode close_frame.
Proof. split; reflexivity. Qed.
