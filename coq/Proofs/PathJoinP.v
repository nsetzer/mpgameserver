(* Lemmas about Model/PathJoin.v: the normal form of posixpath.normpath on absolute paths, the
   acceptance test of path_join_safe. *)
From Model Require Import Base PathJoin.
From Proofs Require Import ListP.
Open Scope Z_scope.

(* PathJoin.str_eqb is [list_eqb Z.eqb] *)
Lemma str_eqb_spec a b : reflect (a = b) (str_eqb a b).
Proof. exact (list_eqb_spec _ Z.eqb_spec a b). Qed.

Lemma str_eqb_refl a : str_eqb a a = true.
Proof. exact (list_eqb_refl _ Z.eqb_spec a). Qed.

Lemma starts_with_spec p s : starts_with p s = true <-> exists t, s = p ++ t.
Proof.
  revert s. induction p as [|x p IH]; intro s; cbn.
  - split; [intros _; exists s; reflexivity | reflexivity].
  - destruct s as [|y s].
    + split; [discriminate | intros [t H]; discriminate].
    + rewrite andb_true_iff, Z.eqb_eq, IH. split.
      * intros [-> [t ->]]. exists t. reflexivity.
      * intros [t H]. inversion H; subst. split; [reflexivity | exists t; reflexivity].
Qed.

Lemma is_empty_true s : is_empty s = true <-> s = [].
Proof. destruct s; cbn; split; congruence. Qed.

Lemma split_sl_nonempty s : split_sl s <> [].
Proof.
  destruct s as [|c s]; cbn; [discriminate|].
  destruct (c =? SL); [discriminate|]. destruct (split_sl s); discriminate.
Qed.

Lemma split_sl_cons_sl t : split_sl (SL :: t) = [] :: split_sl t.
Proof. reflexivity. Qed.

Lemma split_sl_app a t : split_sl (a ++ SL :: t) = split_sl a ++ split_sl t.
Proof.
  induction a as [|c a IH]; [reflexivity|].
  cbn [app split_sl]. rewrite IH. destruct (c =? SL); [reflexivity|].
  pose proof (split_sl_nonempty a). destruct (split_sl a); [congruence|reflexivity].
Qed.

Definition slash_free (c : str) : Prop := ~ In SL c.

Lemma split_sl_slash_free s : Forall slash_free (split_sl s).
Proof.
  induction s as [|c s IH]; cbn [split_sl]; [repeat constructor; intros []|].
  destruct (Z.eqb_spec c SL) as [->|Hc]; [constructor; [intros []|exact IH]|].
  pose proof (split_sl_nonempty s). destruct (split_sl s) as [|h t]; [congruence|].
  apply Forall_cons_iff in IH as [Hh Ht]. constructor; [|exact Ht].
  apply notin_cons. split; assumption.
Qed.

Lemma split_sl_of_slash_free c : slash_free c -> split_sl c = [c].
Proof.
  induction c as [|x c IH]; intro H; [reflexivity|]. apply notin_cons in H as [Hx Hc].
  cbn [split_sl]. rewrite (proj2 (Z.eqb_neq x SL) Hx), (IH Hc). reflexivity.
Qed.

Lemma comps_of_app a t : comps_of (a ++ SL :: t) = comps_of a ++ comps_of t.
Proof. unfold comps_of. rewrite split_sl_app, filter_app. reflexivity. Qed.

Lemma comps_of_cons_sl t : comps_of (SL :: t) = comps_of t.
Proof. reflexivity. Qed.

Lemma comps_of_repeat_sl n t : comps_of (repeat SL n ++ t) = comps_of t.
Proof. induction n; [reflexivity|]. cbn [repeat app]. rewrite comps_of_cons_sl. exact IHn. Qed.

Lemma comps_of_app_slashes a k : comps_of (a ++ repeat SL k) = comps_of a.
Proof.
  destruct k; cbn [repeat]; [rewrite app_nil_r; reflexivity|].
  rewrite comps_of_app, <- (app_nil_r (repeat SL k)), comps_of_repeat_sl. apply app_nil_r.
Qed.

Lemma rstrip_sl_decomp s : exists k, s = rstrip_sl s ++ repeat SL k.
Proof.
  induction s as [|c s [k IH]]; [exists 0%nat; reflexivity|].
  cbn [rstrip_sl]. destruct (rstrip_sl s) as [|x r] eqn:E.
  - destruct (Z.eqb_spec c SL) as [->|_]; [exists (S k) | exists k]; cbn in *; congruence.
  - exists k. cbn [app] in *. congruence.
Qed.

Lemma comps_of_rstrip s : comps_of (rstrip_sl s) = comps_of s.
Proof.
  destruct (rstrip_sl_decomp s) as [k H]. rewrite H at 2. symmetry. apply comps_of_app_slashes.
Qed.

(* a clean component: what normpath leaves in an absolute path *)
Definition clean (c : str) : Prop :=
  c <> [] /\ is_dot c = false /\ is_dotdot c = false /\ slash_free c.

Lemma comps_of_clean c : clean c -> comps_of c = [c].
Proof.
  intros (Hn & _ & _ & Hs). unfold comps_of. rewrite split_sl_of_slash_free by assumption.
  destruct c; [congruence|reflexivity].
Qed.

Lemma comps_of_join cs : Forall clean cs -> comps_of (join_sl cs) = cs.
Proof.
  induction 1 as [|a l Ha Hl IH]; [reflexivity|].
  cbn [join_sl]. destruct l; [apply comps_of_clean, Ha|].
  rewrite comps_of_app, comps_of_clean, IH by assumption. reflexivity.
Qed.

Lemma clean_no_dots cs : Forall clean cs -> no_dots cs.
Proof. apply Forall_impl. intros c (_ & H1 & H2 & _). split; assumption. Qed.

Lemma norm_loop_abs_clean comps acc :
  Forall slash_free comps -> Forall clean acc -> Forall clean (norm_loop true comps acc).
Proof.
  revert acc. induction comps as [|c cs IH]; intros acc Hc Ha; cbn [norm_loop].
  - apply Forall_rev. exact Ha.
  - apply Forall_cons_iff in Hc as [Hc Hcs].
    destruct (is_empty c) eqn:E1; cbn [orb]; [apply IH; assumption|].
    destruct (is_dot c) eqn:E2; [apply IH; assumption|].
    destruct (is_dotdot c) eqn:E3; cbn [negb orb andb].
    + (* ".." : the component before it is clean, so not "..", and is dropped *)
      destruct Ha as [|h acc' (_ & _ & Hdd & _) Ha']; [|rewrite Hdd]; apply IH; auto.
    + apply IH; [assumption|]. constructor; [|assumption].
      repeat split; try assumption. intros ->. discriminate.
Qed.

Lemma initial_slashes_abs p : starts_sl p = true ->
  initial_slashes p = 1%nat \/ initial_slashes p = 2%nat.
Proof.
  destruct p as [|a [|b [|c p]]]; cbn; try discriminate; intros ->;
    repeat match goal with |- context [if ?x then _ else _] => destruct x end; auto.
Qed.

Lemma normpath_abs p : starts_sl p = true ->
  exists n cs, (n = 1%nat \/ n = 2%nat) /\ Forall clean cs /\ normpath p = repeat SL n ++ join_sl cs.
Proof.
  intro H. pose proof (initial_slashes_abs p H) as Hn. destruct p as [|a p]; [discriminate|].
  exists (initial_slashes (a :: p)), (norm_loop true (split_sl (a :: p)) []).
  split; [exact Hn|]. split; [apply norm_loop_abs_clean; [apply split_sl_slash_free|constructor]|].
  unfold normpath. destruct Hn as [-> | ->]; reflexivity.
Qed.

Lemma pjoin_abs a b : starts_sl a = true -> starts_sl (pjoin a b) = true.
Proof.
  intro H. unfold pjoin. destruct (starts_sl b) eqn:E; [assumption|].
  destruct a as [|x a]; [discriminate|]. destruct (_ || _); exact H.
Qed.

Lemma abspath_props cwd p : starts_sl cwd = true ->
  starts_sl (abspath cwd p) = true /\ Forall clean (comps_of (abspath cwd p)).
Proof.
  intro H. unfold abspath.
  destruct (normpath_abs (if starts_sl p then p else pjoin cwd p)) as (n & cs & Hn & Hcs & ->).
  - destruct (starts_sl p) eqn:E; [exact E | apply pjoin_abs, H].
  - rewrite comps_of_repeat_sl, comps_of_join by exact Hcs.
    split; [destruct Hn; subst; reflexivity | exact Hcs].
Qed.

Lemma accepted_inv R p :
  negb (str_eqb p R) && negb (starts_with (rstrip_sl R ++ [SL]) p) = false ->
  p = R \/ exists t, p = rstrip_sl R ++ SL :: t.
Proof.
  destruct (str_eqb_spec p R) as [->|_]; [left; reflexivity|]. cbn [negb andb]. intro E.
  apply negb_false_iff, starts_with_spec in E as [t E].
  right. exists t. rewrite E, <- app_assoc. reflexivity.
Qed.

Lemma comps_of_below R p : p = R \/ (exists t, p = rstrip_sl R ++ SL :: t) ->
  exists extra, comps_of p = comps_of R ++ extra.
Proof.
  intros [->|[t ->]].
  - exists []. symmetry. apply app_nil_r.
  - exists (comps_of t). rewrite comps_of_app, comps_of_rstrip. reflexivity.
Qed.

(* any two results of abspath that pass the test: the second lies at or below the first *)
Lemma abspath_contained cwd r p : starts_sl cwd = true ->
  negb (str_eqb (abspath cwd p) (abspath cwd r))
  && negb (starts_with (rstrip_sl (abspath cwd r) ++ [SL]) (abspath cwd p)) = false ->
  contained (abspath cwd r) (abspath cwd p).
Proof.
  intros Hcwd E. apply accepted_inv in E.
  destruct (abspath_props cwd r Hcwd) as [Hr1 Hr2], (abspath_props cwd p Hcwd) as [Hp1 Hp2].
  repeat apply conj; auto using clean_no_dots, comps_of_below.
Qed.
