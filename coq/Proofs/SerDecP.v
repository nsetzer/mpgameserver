(* The decoder of Model/Ser.v on arbitrary bytes.  [Step N m P c]: m, started with at most N bytes
   left, leaves a suffix of what was there, and relates the outcome to what the run took: b bytes
   consumed, v value decodes (deserialize_value calls), r stream reads.  The decoder is walked once,
   carrying the accounting, closedness and size of the decoded value, and the exception kinds that
   can escape. *)
From Coq Require Import Lia ZifyBool.
From Model Require Import Base Utf8 Ser SerCost.
From Proofs Require Import BytesP SerSetP SerSizeP.
Open Scope Z_scope.

Notation "'dom' x <- r ; k" := (mbind r (fun x => k)) (at level 200, x pattern, r at level 100, k at level 200).

Lemma len_nil {A} : len (@nil A) = 0.
Proof. reflexivity. Qed.

Lemma m_read_eq n s :
  m_read n s = (SOk (firstn (if n <? 0 then length (rem s) else Z.to_nat n) (rem s)),
                mkst (skipn (if n <? 0 then length (rem s) else Z.to_nat n) (rem s)) (nrd s + 1) (nval s)).
Proof. reflexivity. Qed.

(* The accounting of [Step] below, said of the counters and remainders of the two states themselves, with explicit
   slack (rb reads, bs / bf bytes on success / failure).  No proof goes through it: [Step] is the judgment the walk
   of dec_value uses. *)
Definition W {A} (N : Z) (m : M A) (Q : A -> Prop) (E : serr -> Prop) (rb bs bf : Z) : Prop :=
  forall s, len (rem s) <= N ->
    match m s with
    | (r, s') =>
        (exists pre, rem s = pre ++ rem s') /\
        nval s <= nval s' /\ nrd s <= nrd s' /\
        nrd s' - nrd s <= 2 * (nval s' - nval s) + rb /\
        match r with
        | SOk a => Q a /\ 2 * (nval s' - nval s) <= len (rem s) - len (rem s') + bs
        | SErr e => E e /\ 2 * (nval s' - nval s) <= len (rem s) - len (rem s') + bf
        end
    end.

Lemma W_ext {A} N (m m' : M A) Q E rb bs bf :
  (forall s, m s = m' s) -> W N m' Q E rb bs bf -> W N m Q E rb bs bf.
Proof. intros H Hm s Hs. rewrite H. apply Hm, Hs. Qed.

Section Dec.
  Variable fc : fconv.
  Variable pk : value -> option serr.
  Variable reg : registry.

  (* What the walk knows of every decoded value.  Closedness is conditional ([cl], [cll]): an object keeps the class
     defaults for the fields the bytes do not supply, so it is closed only if the defaults are, and that premise
     (reg_closed) stays a premise of the final statement.  [ntop] (SerSetP: not a tuple under its enum wrappers) is what
     keeps dict / set insertion among decoded values from raising anything but AttributeError / TypeError
     (dict_put_err, set_build_spec).  The size side goals go through SerSizeP's [sz], which rewrites the size of a
     constructor into one plus the sizes of its parts. *)
  Definition cl (v : value) : Prop := reg_closed reg -> closed reg v.
  Definition cll (l : list value) : Prop := reg_closed reg -> closed_list reg l.
  Definition Qv (v : value) : Prop := cl v /\ ntop v.

  (* neither an enum member nor a tuple, so [ntop] as it stands: all that the decoder builds, enum members apart *)
  Definition node (v : value) : Prop := match v with VEnum _ _ | VTuple _ => False | _ => True end.
  Lemma Qv_node v : node v -> cl v -> Qv v.
  Proof. intros Hn Hc. split; [exact Hc|]. intros l. destruct v; try discriminate; destruct Hn. Qed.

  Lemma closed_of_lall l : lall Qv l -> cll l.
  Proof. intros Hl H. apply lall_Forall in Hl. apply lall_Forall. revert Hl. apply Forall_impl. intros x Hx. apply Hx, H. Qed.
  Lemma closed_of_kvall d : kvall Qv Qv d -> cl (VDict d).
  Proof.
    intros Hd H. apply kvall_Forall in Hd. induction Hd as [|[k v] d ((Hk & _) & (Hv & _)) _ IH]; cbn; auto.
  Qed.

  Lemma defsize_bounded : exists D, 0 <= D /\ reg_defsize_le reg D.
  Proof.
    induction reg as [|[t c] r (D & HD0 & HD)]; [exists 0; split; [lia | intros t defs [=]]|].
    exists (Z.max D (match c with CObj defs => lsize defs | _ => 0 end)). split; [lia|].
    intros t' defs. cbn [reg_find]. destruct (t =? t'); [intros [= ->]; lia | intros H; apply HD in H; lia].
  Qed.

  Section Call.
    Variables D K : Z.
    Hypothesis HD : reg_defsize_le reg D.
    Hypothesis HD0 : 0 <= D.
    Hypothesis HK : 1 + D <= K.
    Variable E : serr -> Prop.
    Hypothesis HE : forall e, documented e -> e <> SE ERecursion -> E e.
    Hypothesis HEpk : forall x e, pk x = Some e -> E e.

    Ltac docm := apply HE; [unfold documented; auto 12 | discriminate].

    (* The accounting of a piece of one deserialize_value call that took b bytes, v value decodes and
       r reads: two bytes pay for every value decode (a failing call may owe the two of the type id
       it could not read: slack), every value decode allows two reads, and c more are allowed. *)
    Definition acct (c : nat) (slack b v r : Z) : Prop :=
      0 <= v /\ 0 <= r <= 2 * v + Z.of_nat c /\ 2 * v <= b + slack.

    (* The accounting holds, failures are in E, and a result a comes with the credit K * v + b that
       bounds the size of what it is built into. *)
    Definition Step {A} (N : Z) (m : M A) (P : A -> Z -> Prop) (c : nat) : Prop :=
      forall s, len (rem s) <= N ->
        match m s with
        | (r, s') =>
            exists pre, rem s = pre ++ rem s' /\
              match r with
              | SOk a => P a (K * (nval s' - nval s) + len pre) /\ acct c 0 (len pre) (nval s' - nval s) (nrd s' - nrd s)
              | SErr e => E e /\ acct c 2 (len pre) (nval s' - nval s) (nrd s' - nrd s)
              end
        end.

    Lemma Step_lift {A} N (r : sres A) c : (forall e, r = SErr e -> E e) -> Step N (lift r) (fun a z => r = SOk a /\ z = 0) c.
    Proof.
      intros H s _. exists []. split; [reflexivity|]. rewrite !Z.sub_diag, Z.mul_0_r. unfold acct.
      destruct r; (split; [auto | cbn; lia]).
    Qed.

    Lemma Step_imp {A} N (m : M A) (P P' : A -> Z -> Prop) c :
      Step N m P' c -> (forall a z, P' a z -> P a z) -> Step N m P c.
    Proof.
      intros H HP s Hs. specialize (H s Hs). destruct (m s) as [[a|e] s']; [|exact H].
      destruct H as (pre & Hp & H1 & H2). exists pre. auto.
    Qed.

    Lemma Step_ret {A} N (a : A) (P : A -> Z -> Prop) c : P a 0 -> Step N (ret a) P c.
    Proof. intros H. apply (Step_imp N _ _ _ c (Step_lift N (SOk a) c ltac:(discriminate))). intros a' z [[= <-] ->]. exact H. Qed.

    Lemma Step_fail {A} N e (P : A -> Z -> Prop) c : E e -> Step N (@fail A e) P c.
    Proof. intros H. apply (Step_imp N _ _ _ c (Step_lift N (SErr e) c ltac:(intros ? [= <-]; exact H))). intros a' z [[=] _]. Qed.

    Lemma Step_bind {A B} N (m : M A) (f : A -> M B) (P1 : A -> Z -> Prop) (P : B -> Z -> Prop) c1 c2 c :
      Step N m P1 c1 -> (c1 + c2 <= c)%nat ->
      (forall a z, 0 <= z -> P1 a z -> Step N (f a) (fun y z' => P y (z + z')) c2) ->
      Step N (mbind m f) P c.
    Proof.
      intros Hm Hc Hf s Hs. unfold mbind. specialize (Hm s Hs). unfold acct in *.
      destruct (m s) as [[a|e] s1]; destruct Hm as (p1 & Hp1 & H1 & Hv & Hr & Hb); [|exists p1; repeat split; auto; lia].
      assert (Hl : len (rem s) = len p1 + len (rem s1)) by (rewrite Hp1; apply len_app).
      pose proof (len_nonneg p1). pose proof (Z.mul_nonneg_nonneg K (nval s1 - nval s)).
      specialize (Hf a (K * (nval s1 - nval s) + len p1) ltac:(lia) H1 s1 ltac:(lia)).
      destruct (f a s1) as [[y|e] s2]; destruct Hf as (p2 & Hp2 & H2 & Hv2 & Hr2 & Hb2);
        exists (p1 ++ p2); (split; [rewrite Hp1, Hp2; apply app_assoc|]); rewrite len_app; (split; [|lia]); [|exact H2].
      replace (K * (nval s2 - nval s) + (len p1 + len p2))
        with (K * (nval s1 - nval s) + len p1 + (K * (nval s2 - nval s1) + len p2)) by ring. exact H2.
    Qed.

    Lemma Step_then {A B} N (m : M A) (f : A -> M B) (P1 : A -> Z -> Prop) (P : B -> Z -> Prop) c :
      Step N m P1 0 -> (forall a z, 0 <= z -> P1 a z -> Step N (f a) (fun y z' => P y (z + z')) c) ->
      Step N (mbind m f) P c.
    Proof. intros Hm. apply (Step_bind N m f P1 P 0 c c Hm). lia. Qed.

    (* the one read that the value decode of the type id pays for, then a rest without reads *)
    Lemma Step_spend {A B} N (m : M A) (f : A -> M B) (P1 : A -> Z -> Prop) (P : B -> Z -> Prop) :
      Step N m P1 1 -> (forall a z, 0 <= z -> P1 a z -> Step N (f a) (fun y z' => P y (z + z')) 0) ->
      Step N (mbind m f) P 1.
    Proof. intros Hm. apply (Step_bind N m f P1 P 1 0 1 Hm). lia. Qed.

    Lemma Step_read N n : Step N (m_read n) (fun buf z => z = len buf) 1.
    Proof.
      intros s _. rewrite m_read_eq. cbn [rem nrd nval]. set (k := if n <? 0 then length (rem s) else Z.to_nat n).
      exists (firstn k (rem s)). split; [symmetry; apply firstn_skipn|]. pose proof (len_nonneg (firstn k (rem s))).
      unfold acct. split; lia.
    Qed.

    Lemma Step_left N : Step N m_left (fun _ z => z = 0) 0.
    Proof.
      intros s _. exists []. split; [reflexivity|]. rewrite !Z.sub_diag, Z.mul_0_r. unfold acct. cbn. lia.
    Qed.

    Lemma Step_rd N f k : (f = O -> E (SE ERecursion)) -> Step N (rd f k) (fun _ z => z = k) 1.
    Proof.
      intros Hrec. destruct f as [|f]; [apply Step_fail; auto|]. cbn [rd].
      eapply Step_spend; [apply Step_read|]. intros buf z _ ->.
      destruct (len buf =? k) eqn:Hk; [apply Step_ret; lia | apply Step_fail; docm].
    Qed.

    (* one deserialize_value call; what comes after the type id, whose value decode adds K to the credit *)
    Definition Pv (k : Z) (x : value) (z : Z) : Prop := Qv x /\ vsize x <= z + k.
    Definition Call (N : Z) (sub : M value) : Prop := Step N sub (Pv 0) 0.

    Lemma Step_dec_len N sub cap : Call N sub -> Step N (dec_len sub cap) (fun n _ => n <= cap) 0.
    Proof.
      intros Hsub. unfold dec_len. eapply Step_then; [exact Hsub|]. intros lv z _ _.
      destruct (as_len lv) as [n|]; [destruct (cap <? n) eqn:Hn|];
        [apply Step_fail; docm | apply Step_ret; lia | apply Step_fail; docm].
    Qed.

    Lemma Step_rep N n sub : Call N sub -> Step N (rep n sub) (fun l z => lall Qv l /\ lsize l <= z) 0.
    Proof.
      intros Hsub. induction n as [|n IH]; cbn [rep].
      - apply Step_ret. split; [exact I | sz; lia].
      - eapply Step_then; [exact Hsub|]. intros x z1 _ [Hx Hz1].
        eapply Step_then; [exact IH|]. intros xs z2 _ [Hxs Hz2].
        apply Step_ret. split; [split; assumption | sz; lia].
    Qed.

    Lemma Step_map_loop N sub n : Call N sub -> forall acc, kvall Qv Qv acc ->
      Step N (dec_map_loop sub n acc) (fun d z => kvall Qv Qv d /\ dsize d <= dsize acc + z) 0.
    Proof.
      intros Hsub. induction n as [|n IH]; intros acc Hacc; cbn [dec_map_loop].
      - apply Step_ret. split; [exact Hacc | lia].
      - eapply Step_then; [exact Hsub|]. intros key z1 _ [Hkey Hz1].
        eapply Step_then; [exact Hsub|]. intros x z2 _ [Hx Hz2].
        eapply Step_then; [apply Step_lift|].
        + intros e He. apply dict_put_err in He; [destruct He; subst e; docm|].
          apply kvall_Forall in Hacc. apply Forall_map. revert Hacc. apply Forall_impl. intros p [[_ Hn] _]. exact Hn.
        + intros acc' z3 _ [Ha ->]. eapply Step_imp; [apply (IH acc'), (dict_put_kvall Qv Qv _ _ _ _ Ha); assumption|].
          intros d z [Hd Hz]. apply dict_put_size in Ha. split; [exact Hd | lia].
    Qed.

    Lemma Step_fields N sub defs : Call N sub -> cll defs -> forall n,
      Step N (dec_fields sub n defs) (fun l z => cll l /\ length l = length defs /\ lsize l <= lsize defs + z) 0.
    Proof.
      intros Hsub. induction defs as [|d defs IH]; intros Hdefs n; cbn [dec_fields]; destruct (n <=? 0).
      - apply Step_ret. split; [exact Hdefs | lia].
      - apply Step_fail. docm.
      - apply Step_ret. split; [exact Hdefs | lia].
      - eapply Step_then; [exact Hsub|]. intros x z1 _ [[Hx _] Hz1].
        eapply Step_then; [apply IH; intros Hr; apply (Hdefs Hr)|]. intros xs z2 _ (Hxs & Hlen & Hz2).
        apply Step_ret. pose proof (vsize_pos d).
        split; [|split; [cbn [length]; congruence | revert Hz2; sz; lia]].
        intros Hr. split; [apply Hx, Hr | apply Hxs, Hr].
    Qed.

    Lemma Step_scalar N f2 w (g : list byte -> value) :
      (f2 = O -> E (SE ERecursion)) -> (forall buf, node (g buf) /\ closed reg (g buf) /\ vsize (g buf) = 1) ->
      Step N (dom buf <- rd f2 w; ret (g buf)) (Pv K) 1.
    Proof.
      intros Hrec Hg. eapply Step_spend; [apply Step_rd, Hrec|]. intros buf z Hz _.
      destruct (Hg buf) as (Hn & Hc & Hs). apply Step_ret. split; [apply (Qv_node _ Hn); intros _; exact Hc | lia].
    Qed.

    Lemma Step_dec_base N sub f2 k :
      Call N sub -> (f2 = O -> E (SE ERecursion)) -> Step N (dec_base fc sub f2 k) (Pv K) 1.
    Proof.
      intros Hsub Hrec. destruct k; cbn [dec_base]; try (apply Step_scalar; [exact Hrec | intros buf; repeat split]).
      -
        eapply Step_then; [apply Step_dec_len, Hsub|]. intros n z1 Hz1 _.
        eapply Step_spend; [apply Step_read|]. intros buf z _ ->.
        destruct (utf8_decode buf) as [s|] eqn:Hu; [apply Step_ret | apply Step_fail; docm].
        apply utf8_decode_len in Hu. split; [apply Qv_node; [exact I | exact (fun _ => I)] | sz; lia].
      -
        eapply Step_then; [apply Step_dec_len, Hsub|]. intros n z1 Hz1 _.
        eapply Step_spend; [apply Step_read|]. intros buf z _ ->.
        apply Step_ret. split; [apply Qv_node; [exact I | exact (fun _ => I)] | sz; lia].
      -
        apply Step_ret. split; [apply Qv_node; [exact I | exact (fun _ => I)] | cbn [vsize]; lia].
      -
        eapply Step_then; [apply Step_dec_len, Hsub|]. intros n z1 Hz1 _.
        eapply Step_then; [apply Step_rep, Hsub|]. intros l z2 _ [Hl Hz2].
        apply Step_ret. split; [apply Qv_node; [exact I | apply closed_of_lall, Hl] | sz; lia].
      -
        eapply Step_then; [apply Step_dec_len, Hsub|]. intros n z1 Hz1 _.
        eapply Step_then; [apply Step_map_loop; [exact Hsub | exact I]|]. intros d z2 _ [Hd Hz2].
        apply Step_ret. split; [apply Qv_node; [exact I | apply closed_of_kvall, Hd] | revert Hz2; sz; lia].
      -
        eapply Step_then; [apply Step_dec_len, Hsub|]. intros n z1 Hz1 _.
        eapply Step_then; [apply Step_rep, Hsub|]. intros l z2 _ [Hl Hz2].
        pose proof (set_build_spec Qv l [] (fun y H => proj2 H) I Hl) as Hs.
        eapply Step_then; [apply Step_lift|].
        + intros e He. rewrite He in Hs. destruct Hs; subst e; docm.
        + intros s z3 _ [Hb ->]. rewrite Hb in Hs. destruct Hs as [Hs Hz3]. revert Hz3. sz. intros Hz3.
          apply Step_ret. split; [apply Qv_node; [exact I | apply closed_of_lall, Hs] | sz; lia].
    Qed.

    Lemma Step_dec_cls N sub t c :
      Call N sub -> reg_find reg t = Some c -> Step N (dec_cls pk sub t c) (Pv K) 1.
    Proof.
      intros Hsub Hfind. destruct c as [defs|ms|base|]; cbn [dec_cls].
      - (* Serializable.deserialize *)
        eapply Step_then; [exact Hsub|]. intros nf z1 Hz1 _.
        destruct (as_len nf) as [n|]; [|apply Step_fail; docm].
        eapply Step_then; [apply Step_fields; [exact Hsub | intros Hr; exact (Hr _ _ Hfind)]|].
        intros fs z2 _ (Hfs & Hlen & Hz2). pose proof (HD _ _ Hfind).
        apply Step_ret. split; [apply Qv_node; [exact I|] | sz; lia].
        intros Hr. split; [|exact (Hfs Hr)]. unfold is_class. rewrite Hfind. symmetry. exact Hlen.
      - (* SerializableEnum.deserialize *)
        eapply Step_then; [exact Hsub|]. intros x z1 _ [[Hx Hnx] Hz1].
        apply Step_ret. split; [split | sz; lia].
        + intros Hr. split; [|exact (Hx Hr)]. unfold is_enum_class. rewrite Hfind. exact I.
        + intros l. apply Hnx.
      - (* HandshakeClientHelloMessage.deserialize *)
        eapply Step_then; [apply Step_left|]. intros before z0 _ ->.
        eapply Step_then; [exact Hsub|]. intros der z1 _ [[Hder _] Hs1].
        destruct (pk der) as [e|] eqn:Hpk; [apply Step_fail; eapply HEpk; exact Hpk|].
        eapply Step_then; [exact Hsub|]. intros ver z2 _ [[Hver _] Hs2].
        eapply Step_then; [apply Step_left|]. intros after z3 _ ->.
        eapply Step_spend; [apply Step_read|]. intros pad z _ ->. pose proof (len_nonneg pad).
        destruct (len pad =? base - (before - after)); [apply Step_ret | apply Step_fail; docm].
        split; [apply Qv_node; [exact I|] | sz; lia].
        intros Hr. split; [unfold is_class; rewrite Hfind; reflexivity | cbn; auto].
      - (* HandshakeServerHelloMessage.deserialize without the keyword *)
        eapply Step_then; [exact Hsub|]. intros root z1 _ _.
        destruct (pk root) as [e|] eqn:Hpk; [apply Step_fail; eapply HEpk; exact Hpk|].
        eapply Step_then; [exact Hsub|]. intros payload z2 _ _.
        eapply Step_then; [exact Hsub|]. intros sig z3 _ _.
        apply Step_fail. docm.
    Qed.

    Lemma Step_conv {A} N (m : M A) P c : Step N m P c -> Step N (conv m) P c.
    Proof.
      intros H s Hs. unfold conv. specialize (H s Hs). destruct (m s) as [[a|e] s']; [exact H|].
      destruct H as (pre & Hp & He & H). destruct e; cbv beta iota; exists pre; (split; [exact Hp|]); (split; [|exact H]); try exact He. docm.
    Qed.

    (* one call: the tick, the two-byte type id (the nested decoder starts two bytes further), the type.
       The value decode counted by the tick adds K to the credit (Pv K to Pv 0) and pays for the read of
       the type id (acct 1 to acct 0); a call that fails before its type id is read owes those two bytes. *)
    Lemma Call_dec_body N sub f1 :
      Call (N - 2) sub ->
      (f1 = O -> 0 <= N -> E (SE ERecursion)) ->
      (f1 = 1%nat -> 2 <= N -> E (SE ERecursion)) ->
      Call N (dec_body fc pk reg sub f1).
    Proof.
      intros Hsub H0 H1 s Hs. pose proof (len_nonneg (rem s)). unfold dec_body, mbind, tick_val.
      destruct f1 as [|f2].
      { exists []. cbn [fail rem nval nrd]. split; [reflexivity|]. unfold acct. change (len (@nil byte)) with 0. split; [apply H0; [reflexivity | lia] | lia]. }
      rewrite m_read_eq. cbn [rem nrd nval]. change (if 2 <? 0 then _ else Z.to_nat 2) with 2%nat.
      set (buf := firstn 2 (rem s)). set (s2 := mkst (skipn 2 (rem s)) (nrd s + 1) (nval s + 1)).
      assert (Hp : rem s = buf ++ rem s2) by (symmetry; apply firstn_skipn).
      assert (Hl : len (rem s) = len buf + len (rem s2)) by (rewrite Hp at 1; apply len_app).
      pose proof (len_nonneg buf). pose proof (len_nonneg (rem s2)).
      destruct (len buf =? 2) eqn:Hb; cbn [negb].
      2:{ exists buf. cbn [fail]. split; [exact Hp|]. unfold acct, s2. cbn [nval nrd]. split; [docm | lia]. }
      assert (Hrec : f2 = O -> E (SE ERecursion)) by (intros ->; apply H1; [reflexivity | lia]).
      set (disp := match base_kind (be_dec buf) with Some k => _ | None => _ end).
      assert (Hd : Step (N - 2) disp (Pv K) 1).
      { subst disp. destruct (base_kind (be_dec buf)) as [k|]; [|destruct (reg_find reg (be_dec buf)) as [c|] eqn:Hfind].
        - apply Step_conv, Step_dec_base; assumption.
        - apply Step_conv, Step_dec_cls; assumption.
        - apply Step_fail. docm. }
      specialize (Hd s2 ltac:(lia)). destruct (disp s2) as [r s3]. destruct Hd as (p2 & Hp2 & Hd).
      exists (buf ++ p2). split; [rewrite Hp, Hp2; apply app_assoc|]. rewrite len_app.
      unfold Pv, acct, s2 in *. cbn [nval nrd rem] in *. destruct r; destruct Hd as (Hx & Hc); [destruct Hx as [Hq Hz]; split; [split; [exact Hq|]|] | split; [exact Hx|]]; lia.
    Qed.
  End Call.

  (* The exceptions that can escape a run: whatever the key parser raised, or a documented kind.  [nr] ("no
     RecursionError") is the condition under which the fuel cannot run out; dec_value_does instantiates it with
     N + 3 <= fuel for a stream of at most N bytes. *)
  Definition Eset (nr : Prop) (e : serr) : Prop :=
    (exists x, pk x = Some e) \/ (documented e /\ (nr -> e <> SE ERecursion)).

  Lemma Eset_doc nr e : documented e -> e <> SE ERecursion -> Eset nr e.
  Proof. intros H1 H2. right. auto. Qed.
  Lemma Eset_pk nr x e : pk x = Some e -> Eset nr e.
  Proof. intros H. left. eauto. Qed.
  Lemma Eset_rec (nr : Prop) : ~ nr -> Eset nr (SE ERecursion).
  Proof. intros H. right. split; [unfold documented; auto 12|]. intros Hn. contradiction. Qed.

  (* every second frame is a deserialize_value call *)
  Lemma dec_value_ind (P : nat -> M value -> Prop) :
    P 0%nat (fail (SE ERecursion)) ->
    (forall f1 sub, P (pred f1) sub -> P (S f1) (dec_body fc pk reg sub f1)) ->
    forall fuel, P fuel (dec_value fc pk reg fuel).
  Proof.
    intros H0 HS fuel.
    assert (P fuel (dec_value fc pk reg fuel) /\ P (S fuel) (dec_value fc pk reg (S fuel))) as [H _]; [|exact H].
    induction fuel as [|fuel [IH0 IH1]]; (split; [assumption|]); [apply (HS 0%nat), H0 | apply (HS (S fuel)), IH0].
  Qed.

  Lemma Step_errs {A} K (E E' : serr -> Prop) N (m : M A) P c :
    (0 <= N -> forall e, E e -> E' e) -> Step K E N m P c -> Step K E' N m P c.
  Proof.
    intros HE H s Hs. specialize (H s Hs). destruct (m s) as [[a|e] s']; [exact H|]. pose proof (len_nonneg (rem s)).
    destruct H as (pre & Hp & He & H). exists pre. auto with zarith.
  Qed.

  (* every nesting level costs two frames and two bytes *)
  Theorem dec_value_does D K fuel : reg_defsize_le reg D -> 0 <= D -> 1 + D <= K -> forall N,
    Call K (Eset (N + 3 <= Z.of_nat fuel)) N (dec_value fc pk reg fuel).
  Proof.
    intros HD HD0 HK.
    apply (dec_value_ind (fun fuel m => forall N, Call K (Eset (N + 3 <= Z.of_nat fuel)) N m)).
    - intros N. apply (Step_errs K (fun e => e = SE ERecursion)); [intros HN e ->; apply Eset_rec; lia|].
      apply Step_fail. reflexivity.
    - intros f1 sub IH N. apply (Call_dec_body D K HD HD0 HK).
      + apply Eset_doc. + apply Eset_pk.
      + generalize (IH (N - 2)). apply Step_errs.
        intros _ e [He|[Hd Hn]]; [left; exact He | right; split; [exact Hd|]]. intros Hnr. apply Hn. lia.
      + intros -> HN. apply Eset_rec. lia.
      + intros -> HN. apply Eset_rec. lia.
  Qed.
End Dec.
