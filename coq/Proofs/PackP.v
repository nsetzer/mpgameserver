(* Packet assembly (_build_packet_impl): the fit test keeps the size budget and the two passes select
   an order-preserving part of the queues; build_impl_spec is ConnSpecP.build_impl_eq with what the
   selection guarantees.  Size accounting, no loss / duplication of queued messages and "messages
   that fit together travel together" (C09; used by C05) are read off it. *)
From Coq Require Import Lia Permutation.
From RecordUpdate Require Import RecordUpdate.
From Model Require Import Base SeqNum Wire Conn.
From Proofs Require Import Tac WireP ConnSpecP.
Import RecordSetNotations.
Open Scope Z_scope.

Fixpoint sum_len (ms : list pmsg) : Z :=
  match ms with [] => 0 | m :: r => len (m_payload m) + sum_len r end.
Definition payload_size (ms : list pmsg) : Z := sum_len ms + overhead (len ms).

Lemma sum_len_app a b : sum_len (a ++ b) = sum_len a + sum_len b.
Proof. induction a as [|x a IH]; cbn [sum_len app]; lia. Qed.
Lemma sum_len_nonneg ms : 0 <= sum_len ms.
Proof. induction ms as [|m ms IH]; cbn [sum_len]; [lia|]. pose proof (len_nonneg (m_payload m)). lia. Qed.
Lemma sum_len_stamp now ms : sum_len (map (stamp now) ms) = sum_len ms.
Proof. induction ms as [|m ms IH]; cbn [map sum_len stamp m_payload]; lia. Qed.

Lemma overhead_mono a b : 0 <= a <= b -> overhead a <= overhead b.
Proof. unfold overhead. intros. repeat dif; lia. Qed.
Lemma overhead_nonneg n : 0 <= n -> 0 <= overhead n.
Proof. intros. apply (overhead_mono 0 n). lia. Qed.
Lemma overhead_multi n : 2 <= n -> overhead n = 5 * n.
Proof. unfold overhead. intros. repeat dif; lia. Qed.

Lemma fits_alone e plen : plen <= e_max_payload e -> fits e plen 0 0 = true.
Proof. intros H. unfold fits, overhead. cbn. lia. Qed.

(* what the two passes keep of the messages selected so far, cur being the running sum the code carries.
   e_max_payload e + 2 is the budget of the fit test (Conn.fits): MAX_PAYLOAD_SIZE was computed with the overhead
   of a single message, 2, taken off (C09P.budget_spec) *)
Definition packed_ok (e : env) (msgs : list pmsg) (cur : Z) : Prop :=
  cur = sum_len msgs /\ len msgs <= 255 /\ (msgs <> [] -> payload_size msgs <= e_max_payload e + 2).

Lemma packed_ok_nil e : packed_ok e [] 0.
Proof. repeat split; cbn; try lia. intros H; contradiction. Qed.

Lemma fits_step e msgs cur m : packed_ok e msgs cur ->
  fits e (len (m_payload m)) (len msgs) cur = true ->
  packed_ok e (msgs ++ [m]) (cur + len (m_payload m)).
Proof.
  intros (Hc & Hn & Hs) Hf. unfold fits in Hf. apply andb_prop in Hf as [Hf1 Hf2].
  unfold packed_ok, payload_size. rewrite sum_len_app, len_app. cbn [sum_len].
  change (len [m]) with 1. replace (len msgs + 1) with (1 + len msgs) by lia. lia.
Qed.

(* order-preserving split of a queue into the chosen and the remaining messages *)
Inductive Interleave {A} : list A -> list A -> list A -> Prop :=
  | IL_nil : Interleave [] [] []
  | IL_left x a b l : Interleave a b l -> Interleave (x :: a) b (x :: l)
  | IL_right x a b l : Interleave a b l -> Interleave a (x :: b) (x :: l).

Lemma Interleave_perm {A} (a b l : list A) : Interleave a b l -> Permutation (a ++ b) l.
Proof.
  induction 1; cbn; [constructor|constructor; assumption|].
  rewrite <- Permutation_middle. constructor. assumption.
Qed.

Lemma Interleave_nil_r {A} (a : list A) : Interleave a [] a.
Proof. induction a; constructor; assumption. Qed.

Lemma Interleave_nil_l_inv {A} (b l : list A) : Interleave [] b l -> b = l.
Proof.
  remember [] as a eqn:Ea. induction 1; [reflexivity|discriminate|]. f_equal. apply IHInterleave. exact Ea.
Qed.

Lemma Interleave_in {A} (a b l : list A) x : Interleave a b l -> In x l <-> In x a \/ In x b.
Proof. intros H. induction H as [|y a b l _ IH|y a b l _ IH]; cbn [In]; rewrite ?IH; tauto. Qed.

Lemma Interleave_in_l {A} (a b l : list A) x : Interleave a b l -> In x a -> In x l.
Proof. intros Hi Hx. apply (Interleave_in _ _ _ _ Hi). left. exact Hx. Qed.
Lemma Interleave_in_r {A} (a b l : list A) x : Interleave a b l -> In x b -> In x l.
Proof. intros Hi Hx. apply (Interleave_in _ _ _ _ Hi). right. exact Hx. Qed.

Lemma out_pass_spec e q : forall msgs cur rem msgs' cur',
  packed_ok e msgs cur ->
  out_pass e q msgs cur = (rem, msgs', cur') ->
  exists chosen, msgs' = msgs ++ chosen /\ Interleave chosen rem q /\ packed_ok e msgs' cur'.
Proof.
  induction q as [|m q IH]; intros msgs cur rem msgs' cur' Hok E; cbn [out_pass] in E.
  - injection E as <- <- <-. exists []. rewrite app_nil_r. split; [reflexivity|]. split; [constructor|exact Hok].
  - destruct (fits e (len (m_payload m)) (len msgs) cur) eqn:Hf.
    + destruct (IH _ _ _ _ _ (fits_step e msgs cur m Hok Hf) E) as (ch & E1 & E2 & E3).
      exists (m :: ch). split; [rewrite E1, <- app_assoc; reflexivity|]. split; [apply IL_left; exact E2|exact E3].
    + destruct (out_pass e q msgs cur) as [[rem0 ms0] cu0] eqn:E0. injection E as <- <- <-.
      destruct (IH _ _ _ _ _ Hok E0) as (ch & E1 & E2 & E3).
      exists ch. split; [exact E1|]. split; [apply IL_right; exact E2|exact E3].
Qed.

Lemma out_pass_Forall (P : pmsg -> Prop) e q : forall msgs cur rem msgs' cur',
  Forall P q -> Forall P msgs -> out_pass e q msgs cur = (rem, msgs', cur') -> Forall P rem /\ Forall P msgs'.
Proof.
  induction q as [|m q IH]; intros msgs cur rem msgs' cur' Hq Hm E; cbn [out_pass] in E.
  - injection E as <- <- <-. auto.
  - inversion Hq as [|? ? Pm Hq']; subst. destruct (fits _ _ _ _).
    + eapply IH; [exact Hq'| |exact E]. apply Forall_app. auto.
    + destruct (out_pass e q msgs cur) as [[rem0 ms0] cu0] eqn:E0. injection E as <- <- <-.
      destruct (IH _ _ _ _ _ Hq' Hm E0). auto.
Qed.

Lemma out_pass_prefix e q : forall msgs cur rem msgs' cur',
  out_pass e q msgs cur = (rem, msgs', cur') -> exists ch, msgs' = msgs ++ ch.
Proof.
  induction q as [|m q IH]; intros msgs cur rem msgs' cur' E; cbn [out_pass] in E.
  - injection E as <- <- <-. exists []. rewrite app_nil_r. reflexivity.
  - destruct (fits _ _ _ _).
    + destruct (IH _ _ _ _ _ E) as (ch & ->). exists (m :: ch). rewrite <- app_assoc. reflexivity.
    + destruct (out_pass e q msgs cur) as [[rem0 ms0] cu0] eqn:E0. injection E as <- <- <-. eapply IH. exact E0.
Qed.

Lemma out_pass_all e q : forall msgs cur,
  packed_ok e msgs cur ->
  payload_size (msgs ++ q) <= e_max_payload e + 2 -> len (msgs ++ q) <= 255 ->
  out_pass e q msgs cur = ([], msgs ++ q, cur + sum_len q).
Proof.
  induction q as [|m q IH]; intros msgs cur Hok Hs Hn; cbn [out_pass].
  - rewrite app_nil_r. cbn. f_equal. lia.
  - assert (Hf : fits e (len (m_payload m)) (len msgs) cur = true).
    { destruct Hok as (Hc & _ & _). unfold fits. unfold payload_size in Hs.
      rewrite sum_len_app, len_app in Hs. cbn [sum_len] in Hs.
      rewrite len_app, len_cons in Hn. rewrite len_cons in Hs.
      pose proof (len_nonneg q). pose proof (len_nonneg msgs). pose proof (sum_len_nonneg q).
      pose proof (overhead_mono (1 + len msgs) (len msgs + (1 + len q)) ltac:(lia)). lia. }
    rewrite Hf.
    replace (msgs ++ m :: q) with ((msgs ++ [m]) ++ q) in * by (rewrite <- app_assoc; reflexivity).
    rewrite (IH _ _ (fits_step e msgs cur m Hok Hf) Hs Hn). cbn [sum_len].
    f_equal. lia.
Qed.

Lemma retry_pass_taken e now delay items : forall prm msgs cur prm' msgs' cur',
  packed_ok e msgs cur ->
  retry_pass e now delay items prm msgs cur = (prm', msgs', cur') ->
  exists taken,
    incl taken items /\ Forall (fun x => delay <= now - m_atime (snd x)) taken
    /\ msgs' = msgs ++ map snd taken
    /\ prm' = fold_left (fun d k => ddel k d) (map fst taken) prm
    /\ packed_ok e msgs' cur'.
Proof.
  induction items as [|[ms m] r IH]; intros prm msgs cur prm' msgs' cur' Hok E; cbn [retry_pass] in E.
  - injection E as <- <- <-. exists []. rewrite app_nil_r.
    split; [apply incl_nil_l|]. split; [constructor|]. auto.
  - assert (Hskip : forall t, incl t r -> incl t ((ms, m) :: r)) by (intros t Ht x Hx; right; exact (Ht x Hx)).
    destruct (now - m_atime m <? delay) eqn:Ed;
      [|destruct (fits e (len (m_payload m)) (len msgs) cur) eqn:Hf].
    + destruct (IH _ _ _ _ _ _ Hok E) as (t & A & B). exists t. split; [exact (Hskip t A)|exact B].
    + destruct (IH _ _ _ _ _ _ (fits_step e msgs cur m Hok Hf) E) as (t & A & B & -> & -> & D).
      exists ((ms, m) :: t). split; [intros x [<-|Hx]; [left; reflexivity|right; exact (A x Hx)]|].
      split; [constructor; [cbn [snd]; lia|exact B]|]. cbn [map snd fold_left fst]. rewrite <- app_assoc in D |- *.
      split; [reflexivity|]. split; [reflexivity|exact D].
    + destruct (IH _ _ _ _ _ _ Hok E) as (t & A & B). exists t. split; [exact (Hskip t A)|exact B].
Qed.

(* sorted(...) only reorders *)
Lemma ins_item_In x y l : In x (ins_item y l) -> x = y \/ In x l.
Proof.
  induction l as [|z l IH]; cbn [ins_item].
  - intros [<-|[]]. left. reflexivity.
  - destruct (seq_lt (fst y) (fst z)).
    + intros [<-|H]; [left; reflexivity|right; exact H].
    + intros [<-|H]; [right; left; reflexivity|]. destruct (IH H); [left|right; right]; assumption.
Qed.

Lemma sort_items_incl l : incl (sort_items l) l.
Proof.
  induction l as [|y l IH]; intros x Hx; [exact Hx|]. cbn [sort_items fold_right] in Hx.
  apply ins_item_In in Hx as [->|Hx]; [left; reflexivity|right; exact (IH x Hx)].
Qed.

(* queued messages never carry the type UNKNOWN (send_type is only called with real types) *)
Definition no_unknown (c : conn) : Prop :=
  forall m, In m (c_outgoing c) \/ In m (map snd (c_pretry_msg c)) -> m_type m <> UNKNOWN.

Lemma select_spec e c now delay prm rem msgs : select e c now delay = (prm, rem, msgs) ->
  exists taken from_out,
    msgs = map snd taken ++ from_out
    /\ incl taken (c_pretry_msg c) /\ Forall (fun x => delay <= now - m_atime (snd x)) taken
    /\ prm = fold_left (fun d k => ddel k d) (map fst taken) (c_pretry_msg c)
    /\ Interleave from_out rem (c_outgoing c)
    /\ packed_ok e msgs (sum_len msgs).
Proof.
  unfold select. intros E.
  destruct (match c_pretry_msg c with [] => _ | _ => _ end) as [[prm0 msgs0] cur0] eqn:E0.
  assert (H0 : exists taken, incl taken (c_pretry_msg c) /\ Forall (fun x => delay <= now - m_atime (snd x)) taken
                 /\ msgs0 = map snd taken /\ prm0 = fold_left (fun d k => ddel k d) (map fst taken) (c_pretry_msg c)
                 /\ packed_ok e msgs0 cur0).
  { destruct (c_pretry_msg c) as [|x l] eqn:Ep.
    - injection E0 as <- <- <-. exists []. split; [apply incl_nil_l|]. split; [constructor|].
      split; [reflexivity|]. split; [reflexivity|apply packed_ok_nil].
    - destruct (retry_pass_taken _ _ _ _ _ _ _ _ _ _ (packed_ok_nil e) E0) as (t & A & B).
      exists t. split; [exact (incl_tran A (sort_items_incl _))|exact B]. }
  destruct H0 as (taken & A & B & -> & -> & Hok0).
  destruct (out_pass e (c_outgoing c) (map snd taken) cur0) as [[rem0 msgs1] cu] eqn:E1. injection E as <- <- <-.
  destruct (out_pass_spec _ _ _ _ _ _ _ Hok0 E1) as (ch & -> & Hil & Hok). destruct Hok as (-> & Hok).
  exists taken, ch. repeat split; try assumption; apply Hok.
Qed.

Lemma select_from e c now delay prm rem msgs : select e c now delay = (prm, rem, msgs) ->
  forall m, In m msgs -> In m (c_outgoing c) \/ In m (map snd (c_pretry_msg c)).
Proof.
  intros E. destruct (select_spec _ _ _ _ _ _ _ E) as (t & f & -> & A & _ & _ & C & _). intros m Hm.
  apply in_app_or in Hm as [Hm|Hm]; [right; exact (incl_map snd A m Hm)|left; exact (Interleave_in_l _ _ _ _ C Hm)].
Qed.

Lemma build_impl_spec e c now ka delay c' r : build_impl e c now ka delay = (c', r) ->
  exists taken from_out rem,
    let msgs := map snd taken ++ from_out in
    let c1 := c <| c_pretry_msg := fold_left (fun d k => ddel k d) (map fst taken) (c_pretry_msg c) |> <| c_outgoing := rem |> in
    incl taken (c_pretry_msg c) /\ Forall (fun x => delay <= now - m_atime (snd x)) taken
    /\ Interleave from_out rem (c_outgoing c)
    /\ packed_ok e msgs (sum_len msgs)
    /\ if ptype_eqb (packet_type ka c msgs) UNKNOWN
       then c' = c1 /\ r = None
       else c' = register c1 now msgs
            /\ r = Some (packet_header c now (packet_type ka c msgs) (len msgs), map (stamp now) msgs).
Proof.
  rewrite build_impl_eq. destruct (select e c now delay) as [[prm rem] msgs] eqn:Es.
  destruct (select_spec _ _ _ _ _ _ _ Es) as (taken & from_out & -> & A & B & -> & C & D).
  intros E. exists taken, from_out, rem. cbv zeta in E |- *. repeat (split; [assumption|]).
  destruct (ptype_eqb _ UNKNOWN); injection E as <- <-; split; reflexivity.
Qed.

Lemma ptype_eqb_UNKNOWN t : ptype_eqb t UNKNOWN = true <-> t = UNKNOWN.
Proof. destruct t; split; intros H; try discriminate; reflexivity. Qed.

Lemma packet_type_selected ka c taken from_out rem :
  no_unknown c -> incl taken (c_pretry_msg c) -> Interleave from_out rem (c_outgoing c) ->
  ptype_eqb (packet_type ka c (map snd taken ++ from_out)) UNKNOWN = true -> taken = [] /\ from_out = [].
Proof.
  intros Hnu A C Hty. apply ptype_eqb_UNKNOWN in Hty.
  destruct taken as [|x t]; [destruct from_out as [|m f]; [auto|]|]; exfalso; revert Hty; apply Hnu.
  - left. apply (Interleave_in_l _ _ _ _ C). left. reflexivity.
  - right. apply in_map, A. left. reflexivity.
Qed.

(* every packet built respects the size budget, whatever is queued *)
Theorem build_impl_size e c now ka delay c' h ms :
  build_impl e c now ka delay = (c', Some (h, ms)) ->
  len ms <= 255 /\ h_count h = len ms /\ (ms <> [] -> payload_size ms <= e_max_payload e + 2).
Proof.
  intros E. destruct (build_impl_spec _ _ _ _ _ _ _ E) as (t & f & rem & _ & _ & _ & (_ & Hn & Hs) & Hr).
  destruct (ptype_eqb _ UNKNOWN); destruct Hr as [_ Hr]; [discriminate|]. injection Hr as -> ->.
  unfold payload_size. rewrite sum_len_stamp, len_map. repeat split; try assumption.
  intros Hne. apply Hs. intros Hm. apply Hne. rewrite Hm. reflexivity.
Qed.

Lemma build_impl_type e c now ka delay c' h ms :
  build_impl e c now ka delay = (c', Some (h, ms)) ->
  match ms with m :: _ => h_type h = m_type m | [] => h_type h = KEEP_ALIVE end.
Proof.
  intros E. destruct (build_impl_spec _ _ _ _ _ _ _ E) as (t & f & rem & _ & _ & _ & _ & Hr).
  destruct (ptype_eqb _ UNKNOWN) eqn:Hty; destruct Hr as [_ Hr]; [discriminate|]. injection Hr as -> ->.
  cbn [packet_header h_type]. destruct (map snd t ++ f); [|reflexivity].
  cbn [map packet_type] in *. destruct (_ && _); [reflexivity|discriminate].
Qed.

(* nothing queued is lost or duplicated by packet construction *)
Theorem build_impl_partition e c now ka delay c' r :
  no_unknown c ->
  build_impl e c now ka delay = (c', r) ->
  exists from_retry from_out,
    Interleave from_out (c_outgoing c') (c_outgoing c)
    /\ (forall m, In m from_retry -> In m (map snd (c_pretry_msg c)))
    /\ match r with
       | Some (h, ms) => ms = map (stamp now) (from_retry ++ from_out)
       | None => from_retry = [] /\ from_out = []
       end.
Proof.
  intros Hnu E. destruct (build_impl_spec _ _ _ _ _ _ _ E) as (t & f & rem & A & _ & C & _ & Hr).
  exists (map snd t), f. cbv zeta in Hr.
  destruct (ptype_eqb _ UNKNOWN) eqn:Hty; destruct Hr as [-> ->].
  - destruct (packet_type_selected _ _ _ _ _ Hnu A C Hty) as [-> ->].
    split; [exact C|]. split; [intros m []|split; reflexivity].
  - rewrite (register_keeps _ _ _ c_outgoing) by reflexivity. split; [exact C|]. split; [apply incl_map, A|reflexivity].
Qed.

(* messages that fit together travel in one datagram *)
Theorem build_impl_together e c now ka delay :
  c_pretry_msg c = [] -> c_outgoing c <> [] -> no_unknown c ->
  payload_size (c_outgoing c) <= e_max_payload e + 2 -> len (c_outgoing c) <= 255 ->
  exists c' h, build_impl e c now ka delay = (c', Some (h, map (stamp now) (c_outgoing c)))
               /\ c_outgoing c' = [].
Proof.
  intros Hp Hne Hnu Hs Hn. rewrite build_impl_eq. unfold select. rewrite Hp.
  rewrite (out_pass_all e (c_outgoing c) [] 0 (packed_ok_nil e) Hs Hn). cbn [app].
  destruct (ptype_eqb _ UNKNOWN) eqn:Hty;
    [|eexists; eexists; split; [reflexivity|rewrite (register_keeps _ _ _ c_outgoing); reflexivity]].
  apply ptype_eqb_UNKNOWN in Hty. destruct (c_outgoing c) as [|m0 q] eqn:Eq; [contradiction Hne; reflexivity|].
  exfalso. revert Hty. apply Hnu. left. rewrite Eq. left. reflexivity.
Qed.

(* length of the encoded payload = the size the fit test accounts for *)
Lemma enc_multi_len ms p : enc_multi (map wmsg_of ms) = Ok p -> len p = sum_len ms + 5 * len ms.
Proof.
  rewrite enc_multi_eq. destruct (forallb _ _); [|discriminate]. intros [= <-].
  induction ms as [|m ms IH]; [reflexivity|]. cbn [map flat_map sum_len]. unfold enc_msg at 1.
  rewrite !len_app, IH. unfold len. rewrite !be_length. cbn [length wmsg_of w_payload]. lia.
Qed.

Lemma encode_msgs_len ms p : encode_msgs (map wmsg_of ms) = Ok p -> len p = payload_size ms.
Proof.
  unfold payload_size. destruct ms as [|m1 [|m2 r]]; intros E.
  - injection E as <-. reflexivity.
  - cbn [map encode_msgs] in E. destruct (in_range 16 (w_seq (wmsg_of m1))); [|discriminate].
    assert (Ep : p = be 2 (m_seq m1) ++ m_payload m1) by (cbn [wmsg_of w_payload w_seq] in E; congruence).
    subst p. rewrite len_app. change (overhead (len [m1])) with 2. cbn [sum_len]. unfold len at 1. rewrite be_length. lia.
  - change (encode_msgs (map wmsg_of (m1 :: m2 :: r))) with (enc_multi (map wmsg_of (m1 :: m2 :: r))) in E.
    rewrite (enc_multi_len _ _ E), overhead_multi; [reflexivity|].
    rewrite !len_cons. pose proof (len_nonneg r). lia.
Qed.
