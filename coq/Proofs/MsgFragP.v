(* C07 message level, mixed traffic: where a reported callback id comes from.  A success
   callback `OCallback id true` is either reported by a callback object registered for a pending
   datagram that carries the user callback IUser id itself (plain or wrapped by a RetrySender), or
   by the collector of a fragmented send: then id is the user callback of a fragment-sender context
   that was in pending_fragments when the step began (FU).  Fragment-sender contexts only ever
   come from oversized sends. *)
From Coq Require Import Lia.
From Model Require Import Base SeqNum Wire Conn Net2.
From Proofs Require Import DictP ConnFrameP CallbackP AckNetP.
Open Scope Z_scope.

Definition FU (c : conn) (id : Z) : Prop :=
  exists fid fs, dget fid (c_pfrags c) = Some fs /\ fs_ucb fs = IUser id.
Definition FUsub (c c' : conn) : Prop := forall id, FU c' id -> FU c id.

Lemma FUsub_refl c : FUsub c c. Proof. intros id H. exact H. Qed.
Lemma FUsub_eq c c' : c_pfrags c' = c_pfrags c -> FUsub c c'.
Proof. intros E id (fid & fs & H1 & H2). exists fid, fs. rewrite <- E. auto. Qed.
Lemma FUsub_trans a b c : FUsub a b -> FUsub b c -> FUsub a c.
Proof. intros H1 H2 id H. apply H1, H2, H. Qed.

Definition Src (P : Z -> Prop) (c c' : conn) (o : list out) : Prop :=
  FUsub c c' /\ forall id b, In (OCallback id b) o -> P id \/ FU c id.

Lemma Src_refl P c : Src P c c [].
Proof. split; [apply FUsub_refl|intros id b []]. Qed.
Lemma Src_quiet P c c' o : c_pfrags c' = c_pfrags c -> (forall id b, ~ In (OCallback id b) o) -> Src P c c' o.
Proof. intros E N. split; [apply FUsub_eq; exact E|]. intros id b H. destruct (N id b H). Qed.

Lemma fire_icb_src c i ok c' o : fire_icb c i ok = (c', o) -> Src (fun id => i = IUser id) c c' o.
Proof.
  intros E. destruct (fire_icb_cases _ _ _ _ _ E) as [o' Ho|fid idx fs o' _ Eg _ Ho|fid idx fs _ Eg _].
  - split; [apply FUsub_refl|]. intros id b Hin. left. apply (Ho _ _ Hin).
  - (* the last fragment: the context goes, and what is reported is its user callback *)
    split.
    + intros id (fid' & fs' & H1 & H2). cbn in H1. rewrite dget_ddel in H1. destruct (fid' =? fid); [discriminate|].
      exists fid', fs'. auto.
    + intros id b Hin. right. exists fid, fs. split; [exact Eg|apply (Ho _ _ Hin)].
  - split; [|intros id b []].
    intros id (fid' & fs' & H1 & H2). cbn in H1. rewrite dget_dset in H1. destruct (fid' =? fid) eqn:Ef.
    + injection H1 as <-. exists fid, fs. auto.
    + exists fid', fs'. auto.
Qed.

Lemma fire_cb_src c k ok c' o : fire_cb c k ok = (c', o) -> Src (fun id => cb_inner k = IUser id) c c' o.
Proof.
  intros E. apply fire_cb_cases in E as [(q & -> & ->)|(d & i & Hk & E)]; [apply Src_quiet; [reflexivity|intros id b []]|].
  assert (cb_inner k = i) as -> by (destruct Hk as [->|(rid & mseq & ty & p & ->)]; reflexivity).
  (* noting the RetrySender's identity first leaves pending_fragments alone *)
  exact (fire_icb_src _ _ _ _ _ E).
Qed.

Definition Pfu (c : conn) (k : cb) (id : Z) : Prop := cb_inner k = IUser id \/ FU c id.

Lemma Pfu_fire c k ok c' o : fire_cb c k ok = (c', o) -> back Pfu c c' /\ forall id b, In (OCallback id b) o -> Pfu c k id.
Proof.
  intros E. destruct (fire_cb_src _ _ _ _ _ E) as [S F]. split; [|exact F].
  intros k' id [H|H]; [left; exact H|right; exact (S id H)].
Qed.

Lemma Pfu_pfrags c c' : c_pfrags c' = c_pfrags c -> back Pfu c c'.
Proof. intros E k id [H|H]; [left; exact H|right; exact (FUsub_eq _ _ E id H)]. Qed.

Theorem step_true_src e c x c' o id : Inc c -> step e c x = (c', o) -> In (OCallback id true) o ->
  exists a0 d, pre_recv c x = Some (a0, d) /\ opens a0 d = true /\
    ((exists s t ks k, In (s, t) (c_packs a0) /\ hdr_acks (h_ack (d_hdr d)) (h_ackbits (d_hdr d)) s = true /\
        dget s (c_pcbs a0) = Some ks /\ In k ks /\ cb_inner k = IUser id) \/ FU c id).
Proof.
  intros I E Hin.
  destruct (step_true_P Pfu Pfu_fire Pfu_pfrags _ _ _ _ _ _ I E Hin)
    as (now & d & orcs & c0 & Hp & _ & G & s & t & ks & k & A1 & A2 & A3 & A4 & A5).
  exists c0, d. split; [exact Hp|]. split; [exact (passes_gate_opens _ _ G)|].
  destruct A5 as [A5|A5]; [left; exists s, t, ks, k; auto|right; exact A5].
Qed.

Lemma racts_FUsub B c c' o : racts B c c' o -> FUsub c c'.
Proof.
  apply (star_rel (ratom B) (fun a b _ => FUsub a b)); [apply FUsub_refl|intros a b d _ _; apply FUsub_trans|].
  intros a a' oa [ok _|s ks k ok c1 o1 _ _ _ E|s|s _]; try (apply FUsub_eq; reflexivity).
  - apply FUsub_eq. destruct ok; reflexivity.
  - apply (fire_cb_src _ _ _ _ _ E).
  - apply FUsub_eq. exact (wr_keeps W_forget c_pfrags (fun _ _ => eq_refl) (forget_wr s a)).
Qed.

(* a fragment context that holds a user callback comes from a send of an oversized payload with that callback *)
Theorem step_FU e c x c' o : step e c x = (c', o) -> forall id, FU c' id ->
  FU c id \/ exists p r, x = ESend p r (IUser id) /\ len p > e_max_payload e.
Proof.
  intros E id. apply step_acts in E as (c1 & o1 & ot & H1 & Ht & _).
  assert (St : FUsub c1 c').
  { destruct Ht as [|strict c2 o2 o3 _ T]; [apply FUsub_refl|]. apply tick_tail_cases in T as (cb & pk & E1 & E2 & _).
    eapply FUsub_trans; [|eapply racts_FUsub, check_timeout_racts, E2].
    apply FUsub_eq. exact (wr_keeps W_build c_pfrags (fun _ _ => eq_refl) (build_packet_wr E1)). }
  intros H. apply St in H. revert H. revert H1. clear.
  apply (star_rel (atom e x) (fun a b _ => FU b id -> FU a id \/ exists p r, x = ESend p r (IUser id) /\ len p > e_max_payload e)).
  - auto.
  - intros a b d _ _ Hab Hbd H. destruct (Hbd H) as [H'|H']; auto.
  - intros a a' oa Ha H. destruct (atom_pfrags _ _ _ _ _ Ha) as [P|[(p & r & k & -> & E)|(h & Eh)]].
    + left. exact (FUsub_eq _ _ P id H).
    + destruct (send_inv E) as [_|_ _|_ _ _|_ [Eg _]]; try (left; exact H).
      destruct H as (fid' & fs' & H1 & H2). unfold send_fragmented in H1, H2. cbn in H1. rewrite send_frags_pfrags in H1. cbn in H1.
      rewrite dget_dset in H1. destruct (fid' =? seq_succ (c_seq_frag a)).
      * injection H1 as <-. cbn in H2. subst k. right. exists p, r. split; [reflexivity|lia].
      * left. exists fid', fs'. auto.
    + left. exact (racts_FUsub _ _ _ _ (handle_ack_bits_racts Eh) id H).
Qed.
