(* C05, liveness: the joint invariant of LiveP.v through every timed history of Model/LiveNet.v,
   whichever side sends: an unfragmented guaranteed message sent over an established pair is handed to
   the peer application — exactly once — no later than
   max(th, t0) + max(keep-alive interval, send interval) + tau + d  (th: the network is healed from then on; t0: the
   time of send). *)
From Coq Require Import Lia ZifyBool.
From RecordUpdate Require Import RecordUpdate.
From Model Require Import Base SeqNum Wire Conn TimedNet LiveNet.
From Proofs Require Import SeqNumP ConnFrameP AssemblyP IdleP LiveP.
Import RecordSetNotations.
Open Scope Z_scope.

Section Start.
  Variables (e : env) (k t0 th tau : Z) (x y : conn) (p : list byte) (ucb : icb).
  Hypothesis Hstart : live_start k t0 x y.
  Hypothesis Hlen : len p <= e_max_payload e.

  Let rid := c_next_rid x.
  Let mseq := seq_succ (c_seq_msg x).
  Let x1 := fst (send e x p RTimeout ucb).

  Lemma start_mseq : mseq = c_seq_msg x + 1 /\ 1 <= mseq <= HALF.
  Proof.
    destruct Hstart as (_ & _ & _ & _ & _ & _ & (Hm & _) & _). subst mseq.
    rewrite seq_succ_plain by (unfold RING, HALF in *; lia). lia.
  Qed.

  Lemma start_x1 : x1 = send_type x APP p RTimeout ucb.
  Proof.
    destruct Hstart as ((Hs & _) & _). subst x1. rewrite (send_connected _ _ _ _ _ Hs).
    assert (len p >? e_max_payload e = false) as -> by lia. reflexivity.
  Qed.

  Lemma plain_pcbs_mine l : plain_pcbs l = true -> Forall (fun z => Forall (mine rid mseq p ucb) (snd z)) l.
  Proof.
    unfold plain_pcbs. rewrite forallb_forall. intros H. apply Forall_forall. intros z Hz.
    specialize (H z Hz). rewrite forallb_forall in H. apply Forall_forall. intros kb Hk. left. apply H. exact Hk.
  Qed.

  Lemma plain_pcbs_noK l s ks : plain_pcbs l = true -> dget s l = Some ks -> In (K rid mseq p ucb) ks -> False.
  Proof.
    intros H Hg Hin. pose proof (plain_pcbs_dget _ _ _ H Hg) as Hp. rewrite forallb_forall in Hp.
    specialize (Hp _ Hin). discriminate.
  Qed.

  Lemma LJ_start :
    LJ k rid mseq p ucb (c_ka_interval y) (c_send_interval y) th t0 (kmax x) tau (c_seq_send x) (c_incoming y)
       x1 y (wd0 (c_seq_send x) (base_time x1 t0)) (wd0 (c_seq_send y) (base_time y t0)) t0.
  Proof.
    destruct start_mseq as [Em Hm]. rewrite start_x1.
    destruct Hstart as ((X1 & X2 & X3 & X4 & X5 & X6 & X7) & Hy & Hpre & Hrid & Hnd & (B1 & B2 & B3 & B4) & (M1 & M2) & Hls & HM).
    constructor; cbn [wd0 wd_n wd_log wd_pend].
    - split; [split; [|exact (conj X1 (conj X2 X7))]|exact X6|reflexivity].
      constructor; unfold send_type; cbn.
      + rewrite X3. cbn. constructor; [|constructor]. exists 0. reflexivity.
      + left. exact X4.
      + apply plain_pcbs_mine. exact X5.
      + intros s l. rewrite Hpre. cbn. discriminate.
      + right. left. rewrite X3. discriminate.
    - apply idle_ep_ok. exact Hy.
    - right. split; [reflexivity|]. unfold mfresh. fold mseq. lia.
    - (* the receiver's window as a set of accepted numbers, none beyond the sender's counter *)
      assert (W : exists m acc, Rx (c_bf_pkt y) m acc /\ m <= c_seq_send x).
      { destruct B4 as [[C1 C2]|C1]; [exists 0, []; split; [left; rewrite B1; repeat split; auto; lia|lia]|].
        destruct (R_of_bits (c_bf_pkt y) (bf_cur (c_bf_pkt y))) as (acc & HR); try (rewrite B1); try lia.
        { symmetry. apply wire_small. unfold RING, HALF in *. lia. }
        exists (bf_cur (c_bf_pkt y)), acc. split; [right; exact HR|lia]. }
      destruct W as (m & acc & HR & Hmx). exists m, acc. split; [|split; [unfold HALF in *; lia|split; [intros i t dg _ []|intros j t dg []]]].
      unfold send_type. cbn [c_seq_send set]. constructor; try assumption; try lia.
      + destruct (Z.eqb_spec (c_seq_send x) 0) as [E0|E0]; [exact E0|]. symmetry. apply wire_small. unfold RING, HALF in *. lia.
      + intros i t dg [].
      + intros i t dg t' dg' [].
    - intros s ks Hg Hin. exfalso. eapply plain_pcbs_noK; [exact X5|exact Hg|exact Hin].
    - intros H. change (zmem (c_next_rid x) (c_done x) = true) in H. congruence.
    - unfold send_type. cbn. lia.
    - right. right. split; [exact Hnd|]. unfold send_type. cbn. lia.
  Qed.
End Start.

Lemma wd_lookup_log w i t dg : wd_lookup w i = Some (t, dg) -> In (i, t, dg) (wd_log w).
Proof. apply wd_lookup_in. Qed.

Definition sender (sd : side) (cli srv : conn) : conn := match sd with SCli => cli | SSrv => srv end.
Definition receiver (sd : side) (cli srv : conn) : conn := match sd with SCli => srv | SSrv => cli end.

Lemma rx_of_parses w s er : rx_of w s <> RxBadHeader er.
Proof. destruct s as [|i|d orcs]; cbn; try discriminate. destruct (wd_lookup w i) as [[t dg]|]; discriminate. Qed.

Section Live.
  (* x sends, y receives; sd says which of them is the client *)
  Variables (e : env) (P : tparams) (k t0 th : Z) (x y : conn) (p : list byte) (ucb : icb).
  Hypothesis Hstart : live_start k t0 x y.
  Hypothesis Henv : lenv_ok e.
  Hypothesis Hlen : len p <= e_max_payload e.

  Local Notation LJx := (LJ k (c_next_rid x) (seq_succ (c_seq_msg x)) p ucb (c_ka_interval y) (c_send_interval y)
                             th t0 (kmax x) (tp_tau P) (c_seq_send x) (c_incoming y)).
  Definition LJn (sd : side) (n : tnet) : Prop :=
    LJx (snd_conn sd n) (rcv_conn sd n) (fwd sd n) (bwd sd n) (snd_tick sd n).
  Definition linv (sd : side) (n : tnet) : Prop := LJn sd n /\ t_swept n = false.

  Let Hmseq : 1 <= seq_succ (c_seq_msg x) <= HALF.
  Proof. exact (proj2 (start_mseq k t0 x y Hstart)). Qed.
  Let HM : 0 <= kmax x.
  Proof. destruct Hstart as (_ & _ & _ & _ & _ & _ & _ & _ & H). exact H. Qed.

  Lemma sender_rx sd n s : LJn sd n -> hsrc_ok (Some k) (bwd sd n) s -> rx_good k (rx_of (bwd sd n) s).
  Proof.
    intros I Hsrc. destruct s as [|j|dg orcs]; cbn [rx_of hsrc_ok rx_good] in *; [exact Logic.I| |right; exact Hsrc].
    destruct Hsrc as (t & dg & Hl). rewrite Hl. left.
    destruct I as [_ _ _ (m & acc & _ & _ & _ & W4) _ _ _ _]. exact (proj1 (W4 j t dg (wd_lookup_in _ _ _ _ Hl))).
  Qed.

  Lemma sender_read sd n s why x' : LJn sd n -> hsrc_ok (Some k) (bwd sd n) s ->
    xrecv_eff (c_next_rid x) (seq_succ (c_seq_msg x)) p ucb why (snd_conn sd n) x' ->
    (why -> exists dg orcs, rx_of (bwd sd n) s = RxDgram dg orcs /\ ka_dgram k dg
                            /\ acked (c_next_rid x) (seq_succ (c_seq_msg x)) p ucb (d_hdr dg) (snd_conn sd n)) ->
    LJx x' (rcv_conn sd n) (fwd sd n) (wd_present (bwd sd n) s) (snd_tick sd n).
  Proof.
    intros I Hsrc X Hs. eapply LJ_xrecv; [exact I|exact X|].
    intros Hw. destruct (Hs Hw) as (dg & orcs & Hr & Hk & Ha). exists dg.
    destruct s as [|j|dg' orcs']; cbn [rx_of hsrc_ok] in *; [discriminate| |].
    - destruct Hsrc as (t & dg1 & Hl). rewrite Hl in Hr. injection Hr as <- _. exists j, t. split; [apply wd_lookup_in; exact Hl|exact Ha].
    - injection Hr as <- _. exfalso. eapply Hsrc. apply open_ka. exact Hk.
  Qed.

  Lemma receiver_read sd n now s : LJn sd n -> hsrc_ok (Some k) (fwd sd n) s ->
    exists y1 o1, rx_recv (rcv_conn sd n) now (rx_of (fwd sd n) s) = (y1, o1) /\ raised o1 = false /\ no_emit o1 /\
      LJx (snd_conn sd n) y1 (wd_present (fwd sd n) s) (bwd sd n) (snd_tick sd n).
  Proof.
    intros I Hsrc. pose proof (j_y _ _ _ _ _ _ _ _ _ _ _ _ _ _ _ _ _ _ I) as Hy. pose proof (eo_key _ _ _ _ Hy) as Hky.
    destruct s as [|i|dg orcs]; cbn [rx_of hsrc_ok rx_recv] in *.
    - exists (rcv_conn sd n), []. split; [reflexivity|]. split; [reflexivity|]. split; [apply no_emit_nil|exact I].
    - destruct Hsrc as (t & dg & Hl). rewrite Hl. cbn [rx_recv].
      destruct (recv (rcv_conn sd n) now dg []) as [y1 o1] eqn:Er. exists y1, (filter not_ret o1). split; [reflexivity|].
      destruct (LJ_yrecv _ _ _ _ _ Hmseq _ _ _ _ _ _ _ _ _ _ _ _ _ _ _ _ _ _ _ _ I (wd_lookup_in _ _ _ _ Hl) Er) as (I' & Ra & Ne).
      rewrite raised_filter_ret. auto with frame.
    - rewrite (recv_junk k _ _ _ _ Hky Hsrc). eexists. eexists. split; [reflexivity|]. split; [reflexivity|].
      split; [apply no_emit_nil|].
      eapply LJ_ykeep; [exact I| |reflexivity|reflexivity|reflexivity].
      eapply ep_ok_sess; [|eapply quiet_held; [|exact (eo_quiet _ _ _ _ Hy)]; reflexivity|exact Hy]. sess_triv.
  Qed.

  Lemma linv_step sd n v : linv sd n -> hok P sd th n v -> linv sd (tstep e P n v).
  Proof.
    intros [I Isw] (Hclk & Htau & Hot & Hshort & (_ & Hopen) & Hsrc).
    pose proof I as [[Hup Hhello _] Hy _ _ _ _ _ _].
    pose proof (proj1 (proj2 (proj2 Hup))) as Hkx. pose proof (eo_key _ _ _ _ Hy) as Hky.
    unfold linv, LJn in *.
    destruct sd, v as [now s|now s|now]; cbn [snd_conn rcv_conn fwd bwd snd_tick tev_time] in *; cbn [tstep]; rewrite ?Isw.
    - (* the client sends: its update() *)
      rewrite Hkx in Hsrc. destruct (client_tick e (t_cli n) now (rx_of (t_sc n) s)) as [c' o] eqn:E.
      destruct (client_tick_X e k _ _ p ucb Hmseq Hlen Henv _ _ _ _ _ Hup Hhello
                  Hopen (sender_rx SCli n s I Hsrc) E) as (c1 & X & T).
      assert (Hst' : c_status c' = CONNECTED).
      { rewrite (sa_status _ _ (xt_frame _ _ _ _ _ _ _ _ _ T)), (xr_status _ _ _ _ _ _ _ X). exact (proj1 (proj2 Hup)). }
      rewrite Hst'. split; [|exact Isw].
      exact (LJ_xtail _ _ _ _ _ _ _ _ _ _ _ _ _ HM _ _ _ _ _ _ _ _ (sender_read SCli n s _ c1 I Hsrc X (fun H => H)) T Htau Hshort).
    - (* ... the server loop hands a datagram to the receiving connection *)
      rewrite Hky in Hsrc. destruct (receiver_read SCli n now s I Hsrc) as (y1 & o1 & Er & _ & Ne & I1). cbn [snd_conn rcv_conn fwd bwd snd_tick] in *.
      destruct (rx_of (t_cs n) s) as [|er|dg orcs] eqn:Ex; cbn [rx_recv] in Er.
      + injection Er as <- _. destruct s as [|i|dg orcs]; cbn [rx_of] in Ex; [exact (conj I Isw)| |discriminate].
        destruct Hsrc as (t & dg & Hl). rewrite Hl in Ex. discriminate.
      + destruct (rx_of_parses _ _ _ Ex).
      + destruct (recv (t_srv n) now dg orcs) as [c' o] eqn:E. injection Er as <- <-.
        rewrite (dg_no_emit _ (recv_no_emit E)). exact (conj I1 Isw).
    - (* ... the server loop's sweep reaches the receiving connection *)
      unfold server_sweep. rewrite (eo_status _ _ _ _ Hy). cbn [status_eqb status_code Z.eqb Pos.eqb].
      destruct (server_tick e (t_srv n) now) as [c' o] eqn:E. rewrite Hopen. split; [|reflexivity].
      exact (LJ_ytick _ _ _ _ _ _ _ _ _ _ _ _ _ _ _ _ _ _ _ _ _ I (server_tick_ep e _ _ k _ _ _ _ Hy E)).
    - (* the server-side connection sends: update() of the receiving client *)
      rewrite Hky in Hsrc. destruct (receiver_read SSrv n now s I Hsrc) as (y1 & o1 & Er & Ra & Ne & I1). cbn [snd_conn rcv_conn fwd bwd snd_tick] in *.
      destruct (client_tick e (t_cli n) now (rx_of (t_sc n) s)) as [c' o] eqn:E.
      pose proof (j_y _ _ _ _ _ _ _ _ _ _ _ _ _ _ _ _ _ _ I1) as Hy1.
      pose proof (client_tick_Y e k _ _ _ _ _ _ _ _ _ Hy Hopen Er Ra Ne Hy1 E) as Y.
      rewrite (eo_status _ _ _ _ (proj1 Y)). split; [|exact Isw]. exact (LJ_ytick _ _ _ _ _ _ _ _ _ _ _ _ _ _ _ _ _ _ _ _ _ I1 Y).
    - (* ... the server loop hands a datagram to the sending connection *)
      rewrite Hkx in Hsrc. pose proof (sender_rx SSrv n s I Hsrc) as Hg. cbn [bwd] in Hg.
      destruct (rx_of (t_cs n) s) as [|er|dg orcs] eqn:Ex; [|destruct Hg|].
      + destruct s as [|i|dg orcs]; cbn [rx_of] in Ex; [exact (conj I Isw)| |discriminate].
        destruct Hsrc as (t & dg & Hl). rewrite Hl in Ex. discriminate.
      + destruct (recv (t_srv n) now dg orcs) as [c' o] eqn:E.
        destruct (recv_X k _ _ p ucb _ _ _ _ _ _ (proj1 Hup) Hkx Hg E) as (X & _ & Ne).
        rewrite (dg_no_emit _ Ne). split; [|exact Isw]. apply (sender_read SSrv n s _ c' I Hsrc X). cbn [bwd]. rewrite Ex.
        intros H. exists dg, orcs. exact (conj eq_refl H).
    - (* ... the server loop's sweep: update() of the sending connection *)
      unfold server_sweep. rewrite (proj1 (proj2 Hup)). cbn [status_eqb status_code Z.eqb Pos.eqb].
      destruct (server_tick e (t_srv n) now) as [c' o] eqn:E. rewrite Hopen. split; [|reflexivity].
      exact (LJ_xtail _ _ _ _ _ _ _ _ _ _ _ _ _ HM _ _ _ _ _ _ _ _ I (server_tick_X e k _ _ p ucb Hmseq Hlen Henv _ _ _ _ Hup E) Htau Hshort).
  Qed.

  Lemma linv_run sd hs : forall n, linv sd n -> hvalid e P sd th n hs -> linv sd (trun e P n hs).
  Proof.
    induction hs as [|v r IH]; intros n I Hv; [exact I|]. destruct Hv as [Hok Hr].
    apply IH; [apply linv_step; assumption|exact Hr].
  Qed.
End Live.

Lemma linv_init e P k t0 th sd cli srv p ucb :
  live_start k t0 (sender sd cli srv) (receiver sd cli srv) -> len p <= e_max_payload e ->
  linv P k t0 th (sender sd cli srv) (receiver sd cli srv) p ucb sd (after_send e sd cli srv p ucb t0).
Proof.
  intros Hstart Hlen. split; [|destruct sd; reflexivity].
  pose proof (LJ_start e k t0 th (tp_tau P) _ _ p ucb Hstart Hlen) as H.
  pose proof (f_equal c_seq_send (start_x1 e k t0 _ _ p ucb Hstart Hlen)) as Hs.
  unfold LJn. destruct sd; cbn [sender receiver after_send tnet0 snd_conn rcv_conn fwd bwd snd_tick t_cli t_srv t_cs t_sc t_tickC t_tickS] in *;
    rewrite Hs; exact H.
Qed.

Section Theorems.
  Variables (e : env) (P : tparams) (k t0 th : Z) (sd : side) (cli srv : conn) (p : list byte) (ucb : icb).
  Let x := sender sd cli srv.
  Let y := receiver sd cli srv.
  Hypothesis Hstart : live_start k t0 x y.
  Hypothesis Henv : lenv_ok e.
  Hypothesis Hlen : len p <= e_max_payload e.

  (* C05, a healed network delivers (Properties/C05.v), for either side: the invariant at the end of every admissible
     history, and what the theorems read off it *)
  Theorem live_run hs : hvalid e P sd th (after_send e sd cli srv p ucb t0) hs ->
    LJn P k t0 th x y p ucb sd (trun e P (after_send e sd cli srv p ucb t0) hs).
  Proof. intros Hv. exact (proj1 (linv_run e P k t0 th x y p ucb Hstart Henv Hlen sd hs _ (linv_init e P k t0 th sd cli srv p ucb Hstart Hlen) Hv)). Qed.

  Theorem live_delivered hs now :
    0 <= tp_d P -> hvalid e P sd th (after_send e sd cli srv p ucb t0) hs ->
    hnow P sd th (trun e P (after_send e sd cli srv p ucb t0) hs) now ->
    Z.max th t0 + live_bound P x < now ->
    c_incoming (rcv_conn sd (trun e P (after_send e sd cli srv p ucb t0) hs)) = c_incoming y ++ [(seq_succ (c_seq_msg x), p)].
  Proof.
    intros Hd Hv (Hclk & Htau & Hot) Hlate. unfold live_bound in Hlate.
    eapply LJ_late; [exact (live_run hs Hv)|exact Hd|exact Hot|exact Htau|lia].
  Qed.

  Theorem live_at_most_once hs : hvalid e P sd th (after_send e sd cli srv p ucb t0) hs ->
    let n := trun e P (after_send e sd cli srv p ucb t0) hs in
    c_incoming (rcv_conn sd n) = c_incoming y \/ c_incoming (rcv_conn sd n) = c_incoming y ++ [(seq_succ (c_seq_msg x), p)].
  Proof. intros Hv. exact (LJ_once _ _ _ _ _ _ _ _ _ _ _ _ _ _ _ _ _ _ (live_run hs Hv)). Qed.

  Theorem live_done_means_delivered hs : hvalid e P sd th (after_send e sd cli srv p ucb t0) hs ->
    let n := trun e P (after_send e sd cli srv p ucb t0) hs in
    zmem (c_next_rid x) (c_done (snd_conn sd n)) = true ->
    c_incoming (rcv_conn sd n) = c_incoming y ++ [(seq_succ (c_seq_msg x), p)].
  Proof. intros Hv. exact (j_dd _ _ _ _ _ _ _ _ _ _ _ _ _ _ _ _ _ _ (live_run hs Hv)). Qed.

  Theorem live_custody hs : hvalid e P sd th (after_send e sd cli srv p ucb t0) hs ->
    let n := trun e P (after_send e sd cli srv p ucb t0) hs in
    let rs := Retry (c_next_rid x) (seq_succ (c_seq_msg x)) APP p ucb in
    c_incoming (rcv_conn sd n) = c_incoming y ->
    zmem (c_next_rid x) (c_done (snd_conn sd n)) = false /\
    ((exists m, In m (c_outgoing (snd_conn sd n)) /\ m_seq m = seq_succ (c_seq_msg x) /\ m_payload m = p
                /\ m_retry m = RTimeout /\ m_cb m = Some rs)
     \/ (exists m, In (seq_succ (c_seq_msg x), m) (c_pretry_msg (snd_conn sd n)) /\ m_payload m = p /\ m_cb m = Some rs)).
  Proof. intros Hv n rs Hu. eapply LJ_custody; [exact (live_run hs Hv)|exact Hu]. Qed.
End Theorems.

Section CliToSrv.
  Variables (e : env) (P : tparams) (k t0 th : Z) (cli srv : conn) (p : list byte) (ucb : icb).
  Hypothesis Hstart : live_start k t0 cli srv.
  Hypothesis Henv : lenv_ok e.
  Hypothesis Hlen : len p <= e_max_payload e.

  Theorem cli_to_srv_delivered hs now :
    0 <= tp_d P ->
    hvalid e P SCli th (after_send e SCli cli srv p ucb t0) hs ->
    hnow P SCli th (trun e P (after_send e SCli cli srv p ucb t0) hs) now ->
    Z.max th t0 + live_bound P cli < now ->
    c_incoming (t_srv (trun e P (after_send e SCli cli srv p ucb t0) hs))
    = c_incoming srv ++ [(seq_succ (c_seq_msg cli), p)].
  Proof. exact (live_delivered e P k t0 th SCli cli srv p ucb Hstart Henv Hlen hs now). Qed.

  Theorem cli_to_srv_at_most_once hs :
    hvalid e P SCli th (after_send e SCli cli srv p ucb t0) hs ->
    let n := trun e P (after_send e SCli cli srv p ucb t0) hs in
    c_incoming (t_srv n) = c_incoming srv \/ c_incoming (t_srv n) = c_incoming srv ++ [(seq_succ (c_seq_msg cli), p)].
  Proof. exact (live_at_most_once e P k t0 th SCli cli srv p ucb Hstart Henv Hlen hs). Qed.

  Theorem cli_to_srv_done_means_delivered hs :
    hvalid e P SCli th (after_send e SCli cli srv p ucb t0) hs ->
    let n := trun e P (after_send e SCli cli srv p ucb t0) hs in
    zmem (c_next_rid cli) (c_done (t_cli n)) = true ->
    c_incoming (t_srv n) = c_incoming srv ++ [(seq_succ (c_seq_msg cli), p)].
  Proof. exact (live_done_means_delivered e P k t0 th SCli cli srv p ucb Hstart Henv Hlen hs). Qed.

  Theorem cli_to_srv_custody hs :
    hvalid e P SCli th (after_send e SCli cli srv p ucb t0) hs ->
    let n := trun e P (after_send e SCli cli srv p ucb t0) hs in
    let rs := Retry (c_next_rid cli) (seq_succ (c_seq_msg cli)) APP p ucb in
    c_incoming (t_srv n) = c_incoming srv ->
    zmem (c_next_rid cli) (c_done (t_cli n)) = false /\
    ((exists m, In m (c_outgoing (t_cli n)) /\ m_seq m = seq_succ (c_seq_msg cli) /\ m_payload m = p
                /\ m_retry m = RTimeout /\ m_cb m = Some rs)
     \/ (exists m, In (seq_succ (c_seq_msg cli), m) (c_pretry_msg (t_cli n)) /\ m_payload m = p /\ m_cb m = Some rs)).
  Proof. exact (live_custody e P k t0 th SCli cli srv p ucb Hstart Henv Hlen hs). Qed.
End CliToSrv.

Section SrvToCli.
  Variables (e : env) (P : tparams) (k t0 th : Z) (cli srv : conn) (p : list byte) (ucb : icb).
  Hypothesis Hstart : live_start k t0 srv cli.
  Hypothesis Henv : lenv_ok e.
  Hypothesis Hlen : len p <= e_max_payload e.

  Theorem srv_to_cli_delivered hs now :
    0 <= tp_d P ->
    hvalid e P SSrv th (after_send e SSrv cli srv p ucb t0) hs ->
    hnow P SSrv th (trun e P (after_send e SSrv cli srv p ucb t0) hs) now ->
    Z.max th t0 + live_bound P srv < now ->
    c_incoming (t_cli (trun e P (after_send e SSrv cli srv p ucb t0) hs))
    = c_incoming cli ++ [(seq_succ (c_seq_msg srv), p)].
  Proof. exact (live_delivered e P k t0 th SSrv cli srv p ucb Hstart Henv Hlen hs now). Qed.

  Theorem srv_to_cli_at_most_once hs :
    hvalid e P SSrv th (after_send e SSrv cli srv p ucb t0) hs ->
    let n := trun e P (after_send e SSrv cli srv p ucb t0) hs in
    c_incoming (t_cli n) = c_incoming cli \/ c_incoming (t_cli n) = c_incoming cli ++ [(seq_succ (c_seq_msg srv), p)].
  Proof. exact (live_at_most_once e P k t0 th SSrv cli srv p ucb Hstart Henv Hlen hs). Qed.

  Theorem srv_to_cli_done_means_delivered hs :
    hvalid e P SSrv th (after_send e SSrv cli srv p ucb t0) hs ->
    let n := trun e P (after_send e SSrv cli srv p ucb t0) hs in
    zmem (c_next_rid srv) (c_done (t_srv n)) = true ->
    c_incoming (t_cli n) = c_incoming cli ++ [(seq_succ (c_seq_msg srv), p)].
  Proof. exact (live_done_means_delivered e P k t0 th SSrv cli srv p ucb Hstart Henv Hlen hs). Qed.

  Theorem srv_to_cli_custody hs :
    hvalid e P SSrv th (after_send e SSrv cli srv p ucb t0) hs ->
    let n := trun e P (after_send e SSrv cli srv p ucb t0) hs in
    let rs := Retry (c_next_rid srv) (seq_succ (c_seq_msg srv)) APP p ucb in
    c_incoming (t_cli n) = c_incoming cli ->
    zmem (c_next_rid srv) (c_done (t_srv n)) = false /\
    ((exists m, In m (c_outgoing (t_srv n)) /\ m_seq m = seq_succ (c_seq_msg srv) /\ m_payload m = p
                /\ m_retry m = RTimeout /\ m_cb m = Some rs)
     \/ (exists m, In (seq_succ (c_seq_msg srv), m) (c_pretry_msg (t_srv n)) /\ m_payload m = p /\ m_cb m = Some rs)).
  Proof. exact (live_custody e P k t0 th SSrv cli srv p ucb Hstart Henv Hlen hs). Qed.
End SrvToCli.

Lemma on_time_fromb_ok th w d now : on_time_fromb th w d now = true -> on_time_from th w d now.
Proof.
  unfold on_time_fromb, on_time_from. rewrite forallb_forall, Forall_forall. intros H q Hq. specialize (H q Hq). lia.
Qed.

Lemma hsrc_okb_ok key w s : hsrc_okb key w s = true -> hsrc_ok key w s.
Proof.
  destruct s as [|i|dg orcs]; cbn [hsrc_okb hsrc_ok]; [auto| |].
  - destruct (wd_lookup w i) as [[t dg]|]; [|discriminate]. intros _. exists t, dg. reflexivity.
  - destruct (open_dgram key dg); [discriminate|]. intros _ ms. discriminate.
Qed.

Lemma stays_openb_ok T n v : stays_openb T n v = true -> stays_open T n v.
Proof.
  unfold stays_openb, stays_open. destruct v; lia.
Qed.

Lemma hokb_ok P sd th n v : hokb P sd th n v = true -> hok P sd th n v.
Proof.
  unfold hokb, hok. cbv zeta. rewrite !andb_true_iff. intros [[[[[A B] C] D] E] F].
  split; [lia|]. split; [lia|]. split; [apply on_time_fromb_ok; exact C|]. split; [lia|].
  split; [apply stays_openb_ok; exact E|]. destruct v; try apply hsrc_okb_ok; auto.
Qed.

Lemma hvalidb_ok e P sd th vs : forall n, hvalidb e P sd th n vs = true -> hvalid e P sd th n vs.
Proof.
  induction vs as [|v r IH]; intros n H; [exact I|]. cbn [hvalidb hvalid] in *.
  apply andb_prop in H as [H1 H2]. split; [apply hokb_ok; exact H1|apply IH; exact H2].
Qed.

Lemma hvalid_app e P sd th vs1 : forall n vs2, hvalid e P sd th n (vs1 ++ vs2) -> hvalid e P sd th n vs1.
Proof.
  induction vs1 as [|v r IH]; intros n vs2 H; [exact I|].
  cbn [app hvalid] in *. destruct H as [H1 H2]. split; [exact H1|eapply IH; exact H2].
Qed.

Lemma hnowb_ok P sd th n now : hnowb P sd th n now = true -> hnow P sd th n now.
Proof.
  unfold hnowb, hnow. rewrite !andb_true_iff. intros [[A B] C].
  split; [lia|]. split; [lia|apply on_time_fromb_ok; exact C].
Qed.

Lemma live_startb_ok k t0 x y : live_startb k t0 x y = true -> live_start k t0 x y.
Proof.
  unfold live_startb, live_start, pkt_behindb, pkt_behind, msg_behindb, msg_behind.
  rewrite !andb_true_iff, !orb_true_iff, !andb_true_iff.
  intros [[[[[[[[A B] C] D] E] F] G] H] J].
  split; [apply idle_epb_ok; exact A|]. split; [apply idle_epb_ok; exact B|].
  split; [destruct (c_pretry x); [reflexivity|discriminate]|]. split; [lia|].
  split; [destruct (zmem _ _); [discriminate|reflexivity]|].
  split; [|split; [|split; lia]].
  - destruct F as [[[[[F1 F2] F3] F4] F5] F6]. repeat split; try lia.
  - destruct G as [[G1 G2] G3]. repeat split; try lia.
Qed.

Lemma executable_hypotheses e P sd th n vs k t0 x y now :
  (hvalidb e P sd th n vs = true -> hvalid e P sd th n vs) /\
  (hnowb P sd th n now = true -> hnow P sd th n now) /\
  (live_startb k t0 x y = true -> live_start k t0 x y).
Proof. split; [apply hvalidb_ok|split; [apply hnowb_ok|apply live_startb_ok]]. Qed.

(* the bound cannot be lowered by more than two ticks *)
Definition tight_t0 : Z := 1536000.
Definition tight_cli : conn := (conn0 false) <| c_key := Some 7 |> <| c_status := CONNECTED |> <| c_last_recv := tight_t0 |>.
Definition tight_srv : conn := (conn0 true) <| c_key := Some 7 |> <| c_status := CONNECTED |> <| c_last_recv := tight_t0 |>.
Definition tight_env : env := {| e_max_payload := 1434; e_max_frag := 1024; e_max_frags := 8192 |}.
Definition tight_P : tparams := {| tp_tau := 300; tp_d := 100; tp_life := 0; tp_T := 5 * TICKS |}.
(* the first datagram leaves one tick before the network heals and is lost; the update() at
   t0 + 1835 finds the retry one tick too young; the next update() is tau later; the network takes d *)
Definition tight_hs : list tev :=
  [TClient (tight_t0 + 300) SNone; TClient (tight_t0 + 600) SNone; TClient (tight_t0 + 900) SNone;
   TClient (tight_t0 + 1200) SNone; TClient (tight_t0 + 1500) SNone; TClient (tight_t0 + 1800) SNone;
   TClient (tight_t0 + 1835) SNone; TClient (tight_t0 + 2135) SNone].

Lemma bound_nearly_tight_proof :
  exists e P k t0 th cli srv p ucb hs now,
    live_start k t0 cli srv /\ lenv_ok e /\ len p <= e_max_payload e /\ 0 <= tp_d P
    /\ hvalid e P SCli th (after_send e SCli cli srv p ucb t0) hs
    /\ hnow P SCli th (trun e P (after_send e SCli cli srv p ucb t0) hs) now
    /\ now = Z.max th t0 + live_bound P cli - 2
    /\ c_incoming (t_srv (trun e P (after_send e SCli cli srv p ucb t0) hs)) = c_incoming srv.
Proof.
  exists tight_env, tight_P, 7, tight_t0, (tight_t0 + 301), tight_cli, tight_srv, [x2a], (IUser 1), tight_hs, (tight_t0 + 2235).
  split; [apply live_startb_ok; vm_compute; reflexivity|].
  split; [vm_compute; reflexivity|]. split; [vm_compute; discriminate|]. split; [vm_compute; discriminate|].
  split; [apply hvalidb_ok; vm_compute; reflexivity|]. split; [apply hnowb_ok; vm_compute; reflexivity|].
  split; vm_compute; reflexivity.
Qed.
