(* Facts about lists; nothing here depends on the model. *)
From Coq Require Import List Bool PeanoNat Strings.Byte.
Import ListNotations.

Lemma firstn_app_exact {A} (a b : list A) : firstn (length a) (a ++ b) = a.
Proof. rewrite firstn_app, Nat.sub_diag, firstn_all. cbn. apply app_nil_r. Qed.
Lemma skipn_app_exact {A} (a b : list A) : skipn (length a) (a ++ b) = b.
Proof. rewrite skipn_app, Nat.sub_diag, skipn_all. reflexivity. Qed.

Lemma app_inv_length {A} (a b c d : list A) : a ++ b = c ++ d -> length a = length c -> a = c.
Proof. intros E L. rewrite <- (firstn_app_exact a b), E, L. apply firstn_app_exact. Qed.

Lemma In_firstn {A} (x : A) n l : In x (firstn n l) -> In x l.
Proof. intro H. rewrite <- (firstn_skipn n l). apply in_or_app. left. exact H. Qed.

Lemma list_ind3 {A} (P : list A -> Prop) :
  P [] -> (forall a, P [a]) -> (forall a b, P [a; b]) ->
  (forall a b c r, P r -> P (a :: b :: c :: r)) -> forall l, P l.
Proof.
  intros H0 H1 H2 H3. fix IH 1. intros [|a [|b [|c r]]]; [apply H0|apply H1|apply H2|apply H3; apply IH].
Qed.

Lemma list_ind4 {A} (P : list A -> Prop) :
  P [] -> (forall a, P [a]) -> (forall a b, P [a; b]) -> (forall a b c, P [a; b; c]) ->
  (forall a b c d r, P r -> P (a :: b :: c :: d :: r)) -> forall l, P l.
Proof.
  intros H0 H1 H2 H3 H4. fix IH 1. intros [|a [|b [|c [|d r]]]]; [apply H0|apply H1|apply H2|apply H3|apply H4; apply IH].
Qed.

Lemma notin_cons {A} (c x : A) t : ~ In c (x :: t) <-> x <> c /\ ~ In c t.
Proof. cbn. tauto. Qed.

Lemma notin_app {A} (c : A) a b : ~ In c (a ++ b) <-> ~ In c a /\ ~ In c b.
Proof. rewrite in_app_iff. tauto. Qed.

Lemma NoDup_snoc {A} (l : list A) x : NoDup l -> ~ In x l -> NoDup (l ++ [x]).
Proof.
  intros N H. apply (NoDup_Add (Add_app x l [])). rewrite app_nil_r. split; assumption.
Qed.

Lemma Forall2_map_same {A B C} (R : B -> C -> Prop) (f : A -> B) (g : A -> C) l :
  (forall x, In x l -> R (f x) (g x)) -> Forall2 R (map f l) (map g l).
Proof. induction l; cbn; intros; constructor; auto. Qed.

Lemma Forall2_combine_map {A B C} (R : A * B -> C -> Prop) (Q : A -> C -> Prop) f xs :
  (forall x d, R (x, f x) d -> Q x d) -> forall ds, Forall2 R (combine xs (map f xs)) ds -> Forall2 Q xs ds.
Proof. intros HRQ. induction xs; intros ds H; inversion H; subst; constructor; auto. Qed.

Lemma map_fst_combine {A B} (a : list A) (b : list B) : length a = length b -> map fst (combine a b) = a.
Proof. revert b. induction a; destruct b; cbn; intros; try discriminate; auto. f_equal; auto. Qed.

Lemma map_snd_combine {A B} (a : list A) (b : list B) : length a = length b -> map snd (combine a b) = b.
Proof. revert b. induction a; destruct b; cbn; intros; try discriminate; auto. f_equal; auto. Qed.

Lemma combine_map_self {A B C} (g : A * B -> C) (a : list A) (l : list B) :
  combine a (map g (combine a l)) = map (fun q => (fst q, g q)) (combine a l).
Proof. revert l. induction a; destruct l; cbn; auto. f_equal; auto. Qed.

Lemma forallb_map {A B} (f : A -> B) (p : B -> bool) l : forallb p (map f l) = forallb (fun x => p (f x)) l.
Proof. induction l; cbn; auto. rewrite IHl; auto. Qed.

Lemma forallb_mono {A} (f g : A -> bool) l :
  (forall x, f x = true -> g x = true) -> forallb f l = true -> forallb g l = true.
Proof. intros. rewrite forallb_forall in *. auto. Qed.

Lemma Forall_const {A B} (P : B -> Prop) (b : B) (l : list A) : P b -> Forall P (map (fun _ => b) l).
Proof. intros H. induction l; constructor; assumption. Qed.

Lemma NoDup_snd_inj {A B} (l : list (A * B)) t t' c :
  NoDup (map snd l) -> In (t, c) l -> In (t', c) l -> t' = t.
Proof.
  induction l as [|[k v] r IH]; cbn; intros ND H H'; [destruct H|].
  inversion ND as [|? ? Hv ND']; subst. destruct H as [H|H], H' as [H'|H'].
  - congruence.
  - injection H as -> ->. contradict Hv. exact (in_map snd _ _ H').
  - injection H' as -> ->. contradict Hv. exact (in_map snd _ _ H).
  - exact (IH ND' H H').
Qed.

Lemma NoDup_map_inj {A B} (f : A -> B) l a b : NoDup (map f l) -> In a l -> In b l -> f a = f b -> a = b.
Proof.
  induction l as [|x r IH]; simpl; [tauto|]. intros N. inversion N as [|? ? N1 N2]; subst.
  intros [->|Ia] [->|Ib] E; auto.
  - exfalso. apply N1. rewrite E. apply in_map; auto.
  - exfalso. apply N1. rewrite <- E. apply in_map; auto.
Qed.

Lemma NoDup_app_inv {A} (l1 l2 : list A) : NoDup (l1 ++ l2) -> NoDup l1 /\ forall x, In x l1 -> ~ In x l2.
Proof.
  induction l1 as [|a r IH]; simpl; intros N; [split; [constructor|tauto]|].
  inversion N as [|? ? N1 N2]; subst. destruct (IH N2) as [X Y]. split.
  - constructor; auto. intros I. apply N1, in_app_iff. auto.
  - intros x [->|I] J; [apply N1, in_app_iff; auto|exact (Y x I J)].
Qed.

(* The model writes this test out for each element type it compares (Auth.bytes_eqb, Dispatch.name_eqb,
   Json.str_eqb, PathJoin.str_eqb, RecvHist.Zlist_eqb): each is [list_eqb] at its element test, by conversion.
   Two more list equalities of the model are NOT instances, and none of the lemmas below is about them:
   Ser.list_eqb takes the element test inside its [fix], so it is not convertible to this one (where both are
   imported, qualify the name); Wire.bytes_eqb compares the lengths and then runs [forallb] over [combine]:
   it has the name of Auth's test and is another function. *)
Section ListEqb.
  Context {A} (eqb : A -> A -> bool).

  Fixpoint list_eqb (a b : list A) : bool :=
    match a, b with
    | [], [] => true
    | x :: a', y :: b' => eqb x y && list_eqb a' b'
    | _, _ => false
    end.

  Hypothesis eqb_spec : forall x y, reflect (x = y) (eqb x y).

  Lemma list_eqb_spec a b : reflect (a = b) (list_eqb a b).
  Proof.
    revert b. induction a as [|x a IH]; intros [|y b]; cbn; try (constructor; congruence).
    destruct (eqb_spec x y) as [->|Hxy]; cbn; [|constructor; congruence].
    destruct (IH b) as [->|Hab]; constructor; congruence.
  Qed.

  Lemma list_eqb_eq a b : list_eqb a b = true <-> a = b.
  Proof. destruct (list_eqb_spec a b); split; congruence. Qed.

  Lemma list_eqb_refl a : list_eqb a a = true.
  Proof. apply list_eqb_eq. reflexivity. Qed.

  Lemma list_eqb_neq a b : a <> b -> list_eqb a b = false.
  Proof. destruct (list_eqb_spec a b); congruence. Qed.
End ListEqb.

Lemma Byte_eqb_spec (a b : byte) : reflect (a = b) (Byte.eqb a b).
Proof. apply iff_reflect. split; [apply Byte.byte_dec_lb | apply Byte.byte_dec_bl]. Qed.
