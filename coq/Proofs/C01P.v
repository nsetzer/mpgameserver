(* What the C01 theorems rest on beside RecvP: before a key exists nothing but a single
   hello is looked at; Packet.from_bytes binds a ciphertext to its key and header bytes; a toy AEAD
   meeting the hypotheses; UdpClient.update in terms of its send part. *)
From Coq Require Import Lia.
From RecordUpdate Require Import RecordUpdate.
From Model Require Import Base SeqNum Wire Conn RecvSpec.
From Proofs Require Import ConnFrameP Tac WireP RecvP.
Import RecordSetNotations.
Open Scope Z_scope.

Lemma decode_single t p ms : decode_msgs t 1 p = Ok ms ->
  ms = [{| w_seq := unbe (sub p 0 2); w_type := t; w_payload := skipn 2 p |}].
Proof.
  unfold decode_msgs. cbn [Z.eqb Pos.eqb]. dif; [discriminate|]. intros H. injection H as <-. reflexivity.
Qed.

Lemma recv_handshake_incoming c t o : c_incoming (fst (recv_handshake c t o)) = c_incoming c.
Proof. destruct (recv_handshake_effect c t o); reflexivity. Qed.

Lemma recv_handshake_other c t o : is_hello t = true -> t <> expected_hello c ->
  recv_handshake c t o = (c, []).
Proof.
  unfold expected_hello, recv_handshake. intros Hh Hne.
  destruct t; try discriminate; destruct (c_server c); try reflexivity; contradiction.
Qed.

Lemma recv_handshake_quiet c t o : is_hello t = true -> t <> expected_hello c ->
  forall x, ~ In x (snd (recv_handshake c t o)).
Proof. intros H1 H2 x. rewrite recv_handshake_other by assumption. intros []. Qed.

Lemma recv_msgs_hs c now m orcs : is_hs (w_type m) = true ->
  recv_msgs c now [m] orcs = (c, [])
  \/ exists bf, recv_msgs c now [m] orcs
                = recv_handshake (c <| c_bf_msg := bf |>) (w_type m) (hd no_oracle orcs).
Proof.
  intros Hh. rewrite recv_msgs_cons.
  destruct (bf_insert (c_bf_msg c) (w_seq m)) as [bf|]; [right; exists bf|left; reflexivity].
  unfold dispatch. destruct (w_type m); try discriminate;
    destruct (recv_handshake _ _ _) as [c1 o1]; destruct (raised o1); cbn [recv_msgs]; rewrite ?app_nil_r; reflexivity.
Qed.

Lemma is_hello_hs t : is_hello t = true -> is_hs t = true.
Proof. destruct t; cbn; intros; try reflexivity; discriminate. Qed.

Lemma recv_msgs_hello c now m orcs c' o :
  is_hello (w_type m) = true -> recv_msgs c now [m] orcs = (c', o) ->
  c_incoming c' = c_incoming c
  /\ (w_type m <> expected_hello c ->
      o = [] /\ c_key c' = c_key c /\ c_status c' = c_status c /\ c_token c' = c_token c
      /\ c_seq_msg c' = c_seq_msg c).
Proof.
  intros Hh E. destruct (recv_msgs_hs c now m orcs (is_hello_hs _ Hh)) as [E'|[bf E']]; rewrite E' in E.
  - injection E as <- <-. auto 6.
  - split.
    + apply (f_equal fst) in E. cbn [fst] in E. subst c'.
      exact (recv_handshake_incoming (c <| c_bf_msg := bf |>) _ _).
    + intros Hne. rewrite recv_handshake_other in E by assumption. injection E as <- <-. auto 6.
Qed.

Lemma keyless_refuses_false c h : c_key c = None -> keyless_refuses c h = false ->
  h_count h = 1 /\ is_hello (h_type h) = true.
Proof.
  unfold keyless_refuses. intros ->. cbn [is_some negb andb].
  destruct (h_count h =? 1) eqn:E1; destruct (is_hello (h_type h)) eqn:E2; cbn; try discriminate.
  intros _. split; [lia|reflexivity].
Qed.

Lemma C01_prekey_proof : forall c now d orcs c' o,
  c_key c = None -> recv c now d orcs = (c', o) ->
  c_incoming c' = c_incoming c
  /\ (~ single_clear_hello d -> c' = bump c /\ o = [ORet false])
  /\ (h_type (d_hdr d) <> expected_hello c ->
        c_key c' = None /\ c_status c' = c_status c /\ c_token c' = c_token c
        /\ c_seq_msg c' = c_seq_msg c /\ no_handshake_output o).
Proof.
  intros c now d orcs c' o Hk Hr.
  destruct (recv_cases c now d orcs c' o Hr)
    as [(-> & -> & _)|(ms & bf & c1 & o1 & o2 & Hkr & Hop & _ & Hab & Hms & ->)].
  { split; [reflexivity|]. split; [auto|]. intros _. repeat split; [exact Hk|]. intros x [<-|[]]. exact I. }
  (* accepted without a key: one unencrypted hello ... *)
  destruct (keyless_refuses_false c (d_hdr d) Hk Hkr) as [Hcnt Hhello].
  rewrite Hk in Hop. destruct (open_clear_payload d ms Hop) as (p & Hbody & Hlen & Hdec).
  rewrite Hcnt in Hdec. apply decode_single in Hdec. set (m := {| w_seq := _ |}) in Hdec. subst ms.
  (* ... which the ack machinery and then the handshake handler see *)
  pose proof (proj2 (cb_only_Forall _) (ack_loop_cb_only Hab)) as Hout.
  pose proof (wr_keeps W_resolve (fun a => (c_server a, c_key a, c_status a, c_incoming a, c_token a, c_seq_msg a)) (fun _ _ => eq_refl)
                (handle_ack_bits_wr Hab)) as K.
  cbn in K. injection K as Hsrv Hkey Hst Hinc Htok Hsm.
  destruct (recv_msgs_hello c1 now m orcs c' o2 Hhello Hms) as [Hi Hrest]. cbn [w_type m] in Hrest.
  split; [rewrite Hi; exact Hinc|]. split.
  { intros Hn. exfalso. apply Hn. split; [exact Hcnt|]. split; [exact Hhello|]. exists p. auto. }
  intros Hty. unfold expected_hello in Hrest. rewrite Hsrv in Hrest.
  destruct (Hrest Hty) as (-> & -> & -> & -> & ->).
  split; [rewrite Hkey; exact Hk|]. split; [exact Hst|]. split; [exact Htok|]. split; [exact Hsm|].
  intros x Hx. apply in_app_or in Hx as [Hx|[<-|[]]]; [|exact I].
  specialize (Hout x Hx). destruct x; try contradiction; exact I.
Qed.

Lemma run_app e xs : forall c ys,
  run e c (xs ++ ys) =
    let '(c1, o1) := run e c xs in let '(c2, o2) := run e c1 ys in (c2, o1 ++ o2).
Proof.
  induction xs as [|x r IH]; intros c ys.
  - cbn [app run]. destruct (run e c ys); reflexivity.
  - cbn [app run]. destruct (step e c x) as [c1 o]. rewrite IH.
    destruct (run e c1 r) as [c2 os]. destruct (run e c2 ys) as [c3 os']. reflexivity.
Qed.

Lemma encode_header_inj h1 h2 bs : encode_header h1 = Ok bs -> encode_header h2 = Ok bs -> h1 = h2.
Proof.
  intros E1 E2. pose proof (encode_header_ok _ _ E1) as O1. pose proof (encode_header_ok _ _ E2) as O2.
  assert (Hdir : h_to_server h1 = h_to_server h2).
  { unfold encode_header in E1, E2. rewrite O1 in E1. rewrite O2 in E2.
    injection E1 as E1. injection E2 as E2. rewrite <- E2 in E1.
    destruct (h_to_server h1), (h_to_server h2); try reflexivity; cbn in E1; discriminate. }
  destruct (hdr_roundtrip h1 O1) as [b1 [F1 [_ R1]]].
  destruct (hdr_roundtrip h2 O2) as [b2 [F2 [_ R2]]].
  rewrite E1 in F1. rewrite E2 in F2. injection F1 as <-. injection F2 as <-.
  specialize (R1 []). specialize (R2 []). rewrite Hdir in R1. rewrite R1 in R2. injection R2 as R2. exact R2.
Qed.

Section BytesAuth.
  Variable crc : list byte -> Z.
  Variable seal : Z -> list byte -> list byte -> list byte -> list byte.          (* key iv aad plain *)
  Variable open : Z -> list byte -> list byte -> list byte -> option (list byte). (* key iv aad ct||tag *)
  (* AEAD integrity: whatever opens under (k, iv, aad) was sealed under exactly (k, iv, aad) *)
  Hypothesis open_integrity : forall k iv aad c p, open k iv aad c = Some p -> c = seal k iv aad p.
  (* ciphertexts made for different keys / nonces / headers / payloads differ *)
  Hypothesis seal_injective : forall k iv aad p k' iv' aad' p',
    seal k iv aad p = seal k' iv' aad' p' -> k = k' /\ iv = iv' /\ aad = aad' /\ p = p'.

  Lemma from_bytes_key_sealed k h d ms :
    from_bytes crc open (Some k) h d = Ok ms ->
    20 + h_len h <= len d
    /\ exists p, sub d 20 (Z.to_nat (h_len h) + 16) = seal k (firstn 12 d) (firstn 20 d) p
                 /\ decode_msgs (h_type h) (h_count h) p = Ok ms.
  Proof.
    unfold from_bytes. destruct (20 + h_len h >? len d) eqn:El; [discriminate|].
    destruct (open k (firstn 12 d) (firstn 20 d) (sub d 20 (Z.to_nat (h_len h) + 16))) as [p|] eqn:Eo;
      cbn [bind]; [|discriminate].
    intros H. split; [lia|]. exists p. split; [apply open_integrity; exact Eo|exact H].
  Qed.

  Lemma from_bytes_binds k h d ms k0 iv0 aad0 p0 :
    from_bytes crc open (Some k) h d = Ok ms ->
    sub d 20 (Z.to_nat (h_len h) + 16) = seal k0 iv0 aad0 p0 ->
    k0 = k /\ iv0 = firstn 12 d /\ aad0 = firstn 20 d
    /\ decode_msgs (h_type h) (h_count h) p0 = Ok ms.
  Proof.
    intros H Hs. destruct (from_bytes_key_sealed k h d ms H) as [_ [p [Hp Hd]]].
    rewrite Hs in Hp. apply seal_injective in Hp as (-> & -> & -> & ->). repeat split. exact Hd.
  Qed.

  (* the header bytes in front of an accepted ciphertext are the AAD it was sealed with: every
     rewrite of a header field (type, seq, ack, ack bits, count, length, time, direction)
     changes the bytes (encode_header_inj) *)
  Lemma from_bytes_aad k hparsed h' hb' rest ms k0 iv0 aad0 p0 :
    encode_header h' = Ok hb' -> from_bytes crc open (Some k) hparsed (hb' ++ rest) = Ok ms ->
    sub (hb' ++ rest) 20 (Z.to_nat (h_len hparsed) + 16) = seal k0 iv0 aad0 p0 -> aad0 = hb'.
  Proof.
    intros E' E Hs. destruct (from_bytes_binds k hparsed _ ms k0 iv0 aad0 p0 E Hs) as (_ & _ & -> & _).
    rewrite <- (encode_header_length h' hb' E'). apply firstn_app_exact.
  Qed.
End BytesAuth.

(* A toy AEAD meeting the two hypotheses: the ciphertext is key, nonce and AAD, each in the
   self-delimiting encoding dl (01 before every byte, 00 at the end), then the plaintext. *)
Definition dl (l : list byte) : list byte := concat (map (fun b => [x01; b]) l) ++ [x00].
Definition encZ (z : Z) : list byte := (if z <? 0 then x01 else x00) :: repeat x02 (Z.to_nat (Z.abs z)).
Definition toy_pre (k : Z) (iv aad : list byte) : list byte := dl (encZ k) ++ dl iv ++ dl aad.
Definition toy_seal (k : Z) (iv aad p : list byte) : list byte := toy_pre k iv aad ++ p.
Definition toy_open (k : Z) (iv aad c : list byte) : option (list byte) :=
  let pre := toy_pre k iv aad in
  if list_eq_dec byte_eq_dec (firstn (length pre) c) pre then Some (skipn (length pre) c) else None.

Lemma dl_inj a : forall b x y, dl a ++ x = dl b ++ y -> a = b /\ x = y.
Proof.
  unfold dl. induction a as [|u a IH]; intros [|v b] x y H; cbn in H.
  - injection H as H. split; [reflexivity|exact H].
  - discriminate.
  - discriminate.
  - injection H as Hu H. rewrite <- !app_assoc in H. cbn in IH.
    specialize (IH b x y). rewrite <- !app_assoc in IH. destruct (IH H) as [-> ->]. subst. split; reflexivity.
Qed.

Lemma encZ_inj a b : encZ a = encZ b -> a = b.
Proof.
  unfold encZ. intros H. injection H as Hs Hr.
  apply (f_equal (@length byte)) in Hr. rewrite !repeat_length in Hr.
  destruct (a <? 0) eqn:Ea; destruct (b <? 0) eqn:Eb; try discriminate; lia.
Qed.

Lemma toy_open_seal k iv aad p : toy_open k iv aad (toy_seal k iv aad p) = Some p.
Proof.
  unfold toy_open, toy_seal. rewrite firstn_app_exact, skipn_app_exact.
  destruct (list_eq_dec _ _ _); [reflexivity|contradiction].
Qed.

Lemma toy_integrity k iv aad c p : toy_open k iv aad c = Some p -> c = toy_seal k iv aad p.
Proof.
  unfold toy_open, toy_seal. destruct (list_eq_dec _ _ _) as [E|]; [|discriminate].
  intros H. injection H as <-. rewrite <- E at 1. symmetry. apply firstn_skipn.
Qed.

Lemma toy_injective k iv aad p k' iv' aad' p' :
  toy_seal k iv aad p = toy_seal k' iv' aad' p' -> k = k' /\ iv = iv' /\ aad = aad' /\ p = p'.
Proof.
  unfold toy_seal, toy_pre. rewrite <- !app_assoc. intros H.
  apply dl_inj in H as [Hk H]. apply dl_inj in H as [-> H]. apply dl_inj in H as [-> ->].
  apply encZ_inj in Hk. subst. repeat split.
Qed.

Lemma client_update_key c now : c_key (fst (client_update c now)) = c_key c.
Proof. exact (wr_keeps W_update c_key (fun _ _ => eq_refl) (client_update_wr (surjective_pairing _))). Qed.

(* update(): connection upkeep, the receive step, then the send part (build / send / time-outs) *)
Lemma client_tick_send_part e c now r :
  client_tick e c now r =
    let '(c1, o0) := client_update c now in
    if status_eqb (c_status c1) DROPPED then (c1, o0)
    else
      let '(c2, o1) :=
        match r with
        | RxNone => (c1, [])
        | RxBadHeader er => (c1, [ORaise er])
        | RxDgram d orcs => let '(c', o') := recv c1 now d orcs in
                            (c', filter (fun x => match x with ORet _ => false | _ => true end) o')
        end in
      if raised o1 then (c2, o0 ++ o1)
      else let '(c3, o) := client_send_part e c2 now in (c3, o0 ++ o1 ++ o).
Proof.
  rewrite client_tick_eq. unfold client_send_part, tick_tail. destruct (client_update c now) as [c1 o0].
  dif; [reflexivity|]. change (match r with RxNone => _ | _ => _ end) with (rx_recv c1 now r).
  destruct (rx_recv c1 now r) as [c2 o1]. dif; [reflexivity|]. dif; [|rewrite !app_nil_r; reflexivity].
  destruct (build_packet e c2 now) as [c3 pk]. destruct (check_timeout false c3 now) as [c4 o3]. reflexivity.
Qed.
