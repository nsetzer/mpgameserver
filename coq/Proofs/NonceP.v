(* C03: the (direction, ctime, seq, ack) nonce of every datagram a connection builds
   is fresh, for every event history.  Every step is a part that assembles nothing followed by at
   most one packet assembly (ConnFrameP.step_acts); an assembly passes the send-rate gate and consumes one
   sequence number, so RING assemblies take at least RING send intervals, which is more than one
   unit (a second) of the ctime field. *)
From Coq Require Import Lia.
From Model Require Import Base SeqNum Wire Conn.
From Proofs Require Import SeqNumP ConnFrameP.
Open Scope Z_scope.

Definition ev_now (x : ev) : Z :=
  match x with EClientTick now _ | EServerTick now | ERecv now _ _ | EClientHello now _ => now | _ => 0 end.

Lemma recv_key_frame c now d orcs c' o : recv c now d orcs = (c', o) -> same_core c c' /\ no_emit o.
Proof. exact (@recv_frame c now d orcs c' o). Qed.

Definition emits (os : list out) : list header :=
  flat_map (fun o => match o with OEmit h _ _ => [h] | _ => [] end) os.

Lemma emits_app a b : emits (a ++ b) = emits a ++ emits b.
Proof. unfold emits. apply flat_map_app. Qed.
Lemma emits_no_emit o : no_emit o -> emits o = [].
Proof.
  induction o as [|x o IH]; intros H; [reflexivity|]. cbn.
  pose proof (H x (or_introl eq_refl)) as Hx. destruct x; try discriminate; cbn; apply IH;
    intros y Hy; apply H; right; exact Hy.
Qed.

Lemma emits_emit c h ms : emits (emit c (h, ms)) = [] \/ exists n, emits (emit c (h, ms)) = [with_len h n].
Proof. destruct (emit_cases c h ms) as [(er & _ & ->)|(p & _ & ->)]; [left|right; exists (len p)]; reflexivity. Qed.

Lemma emit_shape c pk : forall x, In x (emit c pk) ->
  (exists e, x = ORaise e) \/
  (exists p k, x = OEmit {| h_to_server := h_to_server (fst pk); h_ctime := h_ctime (fst pk); h_seq := h_seq (fst pk);
                           h_ack := h_ack (fst pk); h_type := h_type (fst pk); h_len := len p;
                           h_count := h_count (fst pk); h_ackbits := h_ackbits (fst pk) |} k p).
Proof.
  destruct pk as [h ms]. intros x Hx.
  destruct (emit_cases c h ms) as [(er & _ & E)|(p & _ & E)]; rewrite E in Hx; destruct Hx as [<-|[]];
    [left; eexists|right; do 2 eexists]; reflexivity.
Qed.

Definition fresh_hdr (c : conn) (now : Z) (h : header) : Prop :=
  h_seq h = seq_succ (c_seq_send c) /\ h_ctime h = now / TICKS /\ h_to_server h = negb (c_server c).

Inductive built (S : Z) (c c' : conn) (now : Z) (o : list out) : Prop :=
  | B_none : c_seq_send c' = c_seq_send c -> c_last_send c' = c_last_send c -> emits o = [] -> built S c c' now o
  | B_some : c_seq_send c' = seq_succ (c_seq_send c) -> c_last_send c' = now -> S <= now - c_last_send c ->
             (emits o = [] \/ exists h, emits o = [h] /\ fresh_hdr c now h) ->
             built S c c' now o.

(* the send interval may be reconfigured, but never below S *)
Definition ev_ok (S : Z) (x : ev) : Prop :=
  match x with ESetCfg w v => w = 0 \/ w = 1 \/ w = 2 \/ S <= v | _ => True end.

Definition paced (S : Z) (c c' : conn) (o : list out) : Prop :=
  c_server c' = c_server c /\ c_seq_send c' = c_seq_send c /\ c_last_send c' = c_last_send c /\
  (S <= c_send_interval c -> S <= c_send_interval c') /\ no_emit o.

Lemma atom_paced e S x c c' o : ev_ok S x -> atom e x c c' o -> paced S c c' o.
Proof.
  intros Hok H. pose proof (atom_no_emit H) as N.
  destruct (atom_cases H) as [[d ->]|[(h & E)|[(k & _ & ->)|(w & v & -> & ->)]]].
  - repeat split; auto.
  - destruct (handle_ack_bits_wr E) as [d ->]. repeat split; auto.
  - destruct (disconnect_wr c k) as [d ->]. repeat split; auto.
  - cbn [ev_ok] in Hok. repeat split; try exact N; destruct w as [|[[q|q|]|[q|q|]|]|q]; try reflexivity; cbn; intros; lia.
Qed.

Lemma paced_trans S a b c oa ob : paced S a b oa -> paced S b c ob -> paced S a c (oa ++ ob).
Proof. intros (A1 & Q1 & L1 & I1 & N1) (A2 & Q2 & L2 & I2 & N2). repeat split; try congruence; auto with frame. Qed.

Lemma acts_paced e S x c c' o : ev_ok S x -> acts e x c c' o -> paced S c c' o.
Proof.
  intros Hok. apply (star_rel (atom e x) (paced S)); [|apply paced_trans|intros ? ? ?; apply atom_paced, Hok].
  intros c0. repeat split; auto with frame.
Qed.

(* a step assembles at most once, behind the gate, and only the assembly emits *)
Lemma step_built e S c x c' o :
  step e c x = (c', o) -> S <= c_send_interval c -> ev_ok S x ->
  built S c c' (ev_now x) o /\ c_server c' = c_server c /\ S <= c_send_interval c'.
Proof.
  intros E HS Hok. apply step_acts in E as (c1 & o1 & ot & H1 & Ht & ->).
  apply (acts_paced e S x _ _ _ Hok) in H1 as (A & Q & L & I & N).
  destruct Ht as [_|c3 o2 o3 _ G T]; [rewrite app_nil_r; split; [apply B_none; auto using emits_no_emit|auto]|].
  change (ev_clock x) with (ev_now x) in *. generalize dependent (ev_strict x). intros strict T. apply tick_tail_cases in T as (c2 & pk & E1 & E2 & ->).
  destruct (build_packet_wr E1) as [d2 W2]. pose proof (build_packet_hdr _ _ _ _ _ E1) as Hh.
  pose proof (proj2 (check_timeout_frame E2)) as N3. destruct (check_timeout_wr E2) as [d3 W3].
  assert (K : c_server c3 = c_server c1 /\ c_send_interval c3 = c_send_interval c1 /\
              c_seq_send c3 = c_seq_send c2 /\ c_last_send c3 = c_last_send c2) by (rewrite W3, W2; repeat split; reflexivity).
  destruct K as (A3 & I3 & Q3 & L3). split; [|split; [congruence|rewrite I3; auto]].
  assert (Ho : forall o2, emits (o1 ++ (if strict then o3 ++ o2 else o2 ++ o3)) = emits o2)
    by (intros o2; destruct strict; rewrite !emits_app, (emits_no_emit _ N), (emits_no_emit _ N3), ?app_nil_r; reflexivity).
  destruct pk as [[h ms]|].
  - destruct Hh as (Q1 & _ & L1 & _ & G1 & F1 & F2 & F3 & _). apply B_some; try congruence; [specialize (I HS); lia|].
    rewrite Ho. destruct (emits_emit c2 h ms) as [->|(n & ->)]; [left; reflexivity|right].
    eexists. split; [reflexivity|]. repeat split; cbn; congruence.
  - destruct Hh as (Q1 & _ & L1 & _). apply B_none; try congruence. rewrite Ho. reflexivity.
Qed.

(* ghost trace, newest first: (absolute build index, build time, header) *)
Definition entry := (Z * Z * header)%type.

(* S is a floor of the send interval, n the number of packets built so far, last the time of the newest build.
   Entry i was built at t, and each of the n - i builds since came at least S after the one before it (the
   send-rate gate): that is the last clause, from which two entries RING builds apart are at least RING * S,
   hence a whole second, apart. *)
Definition entry_ok (S n last : Z) (x : entry) : Prop :=
  let '(i, t, h) := x in
  1 <= i <= n /\ h_seq h = wire i /\ h_ctime h = t / TICKS /\ t + (n - i) * S <= last.

Fixpoint ordered (S : Z) (tr : list entry) : Prop :=
  match tr with
  | [] => True
  | (i, t, _) :: r => Forall (fun y => let '(i', t', _) := y in i' < i /\ t' + (i - i') * S <= t) r /\ ordered S r
  end.

Definition seq_of_index (n : Z) : Z := if n =? 0 then 0 else wire n.

Record Inv (S : Z) (c : conn) (n : Z) (tr : list entry) : Prop := {
  inv_n : 0 <= n;
  inv_seq : c_seq_send c = seq_of_index n;
  inv_S : S <= c_send_interval c;
  inv_entries : Forall (entry_ok S n (c_last_send c)) tr;
  inv_ordered : ordered S tr }.

Lemma seq_succ_index n : 0 <= n -> seq_succ (seq_of_index n) = seq_of_index (n + 1).
Proof.
  intros Hn. unfold seq_of_index. destruct (n =? 0) eqn:E0.
  - apply Z.eqb_eq in E0. subst n. exact seq_succ_first.
  - assert (n + 1 =? 0 = false) as -> by lia. apply seq_succ_wire.
Qed.

Lemma seq_of_index_pos n : 0 <= n -> seq_of_index (n + 1) = wire (n + 1).
Proof. intros Hn. unfold seq_of_index. assert (n + 1 =? 0 = false) as -> by lia. reflexivity. Qed.

Lemma seq_succ_index_wire n : 0 <= n -> seq_succ (seq_of_index n) = wire (n + 1).
Proof. intros H. rewrite seq_succ_index by exact H. apply seq_of_index_pos, H. Qed.

Lemma Inv_step e S c n tr x c' o :
  0 <= S -> Inv S c n tr -> ev_ok S x -> step e c x = (c', o) ->
  exists n' tr', Inv S c' n' tr' /\ map snd tr' = rev (emits o) ++ map snd tr.
Proof.
  intros HS0 [Hn Hseq HS Hent Hord] Hok E.
  destruct (step_built e S c x c' o E HS Hok) as (B & _ & HS').
  destruct B as [B1 B2 B3|B1 B2 B3 B4].
  - exists n, tr. split; [|rewrite B3; reflexivity].
    constructor; try assumption; congruence.
  - (* a packet was built at index n+1, at least S after the newest entry *)
    assert (Hent' : Forall (entry_ok S (n + 1) (c_last_send c')) tr).
    { eapply Forall_impl; [|exact Hent]. intros [[i t] h] (I1 & I2 & I3 & I4). unfold entry_ok.
      repeat split; try assumption; lia. }
    assert (Hseq' : c_seq_send c' = seq_of_index (n + 1)) by (rewrite B1, Hseq; apply seq_succ_index; exact Hn).
    destruct B4 as [B4|(h & B4 & F1 & F2 & F3)].
    + exists (n + 1), tr. split; [|rewrite B4; reflexivity].
      constructor; try assumption; lia.
    + exists (n + 1), ((n + 1, ev_now x, h) :: tr). split; [|rewrite B4; reflexivity].
      constructor; try assumption; try lia.
      * constructor; [|exact Hent'].
        unfold entry_ok. repeat split; try lia; try exact F2.
        rewrite F1, Hseq, seq_succ_index by exact Hn. apply seq_of_index_pos, Hn.
      * cbn [ordered]. split; [|exact Hord].
        eapply Forall_impl; [|exact Hent]. intros [[i t] h'] (I1 & I2 & I3 & I4). split; lia.
Qed.

Fixpoint all_ok (S : Z) (xs : list ev) : Prop :=
  match xs with [] => True | x :: r => ev_ok S x /\ all_ok S r end.

Lemma Inv_run e S xs : forall c n tr c' oss,
  0 <= S -> Inv S c n tr -> all_ok S xs -> run e c xs = (c', oss) ->
  exists n' tr', Inv S c' n' tr' /\ map snd tr' = rev (emits (concat oss)) ++ map snd tr.
Proof.
  induction xs as [|x r IH]; intros c n tr c' oss HS0 HI Hok E; cbn [run] in E.
  - injection E as <- <-. exists n, tr. split; [exact HI|reflexivity].
  - destruct Hok as [Hx Hr].
    destruct (step e c x) as [c1 o] eqn:E1. destruct (run e c1 r) as [c2 os] eqn:E2. injection E as <- <-.
    destruct (Inv_step e S c n tr x c1 o HS0 HI Hx E1) as (n1 & tr1 & HI1 & M1).
    destruct (IH c1 n1 tr1 c2 os HS0 HI1 Hr E2) as (n2 & tr2 & HI2 & M2).
    exists n2, tr2. split; [exact HI2|].
    rewrite M2, M1. cbn [concat]. rewrite emits_app, rev_app_distr, app_assoc. reflexivity.
Qed.

(* two of the four components of the nonce already tell all datagrams of one connection apart; the direction
   keeps the two sides apart (server_flag_run) and the ack field is not needed *)
Definition nonce2 (h : header) : Z * Z := (h_ctime h, h_seq h).

Lemma wire_eq_far i j : j < i -> wire i = wire j -> RING <= i - j.
Proof. unfold wire, RING. intros. Z.div_mod_to_equations. lia. Qed.

Lemma ring_takes_a_tick S d t t' : TICKS <= RING * S -> RING <= d -> t' + d * S <= t -> t' / TICKS < t / TICKS.
Proof.
  intros HS Hd Ht. assert (t' + TICKS <= t) by (unfold RING, TICKS in *; nia).
  unfold TICKS in *. Z.div_mod_to_equations. lia.
Qed.

Lemma ordered_NoDup S n last tr :
  TICKS <= RING * S -> Forall (entry_ok S n last) tr -> ordered S tr ->
  NoDup (map nonce2 (map snd tr)).
Proof.
  intros HS. induction tr as [|[[i t] h] r IH]; intros Hent Hord; cbn [map]; [constructor|].
  inversion Hent as [|? ? He Hent']; subst. destruct Hord as [Hf Hord].
  constructor; [|apply IH; assumption].
  intros Hin. apply in_map_iff in Hin as (h' & Hn & Hin). apply in_map_iff in Hin as ([[i' t'] h''] & Hs & Hin).
  cbn in Hs. subst h''.
  rewrite Forall_forall in Hf, Hent'. pose proof (Hf _ Hin) as [L1 L2]. pose proof (Hent' _ Hin) as (_ & J2 & J3 & _).
  destruct He as (_ & I2 & I3 & _). unfold nonce2 in Hn. injection Hn as Hc Hq.
  assert (Hfar : RING <= i - i') by (apply wire_eq_far; congruence).
  pose proof (ring_takes_a_tick S _ t t' HS Hfar L2). lia.
Qed.

(* a history from any state whose counter is in range; its index is the counter's value *)
Theorem nonces_fresh e S c xs c' oss :
  0 <= S -> TICKS <= RING * S -> S <= c_send_interval c -> 0 <= c_seq_send c <= RING -> all_ok S xs ->
  run e c xs = (c', oss) ->
  NoDup (map nonce2 (emits (concat oss))).
Proof.
  intros HS0 HS HSi Hrange Hok E.
  assert (HI : Inv S c (c_seq_send c) []).
  { constructor; try lia; try constructor.
    unfold seq_of_index. destruct (c_seq_send c =? 0) eqn:E0; [lia|]. symmetry. apply wire_small. lia. }
  destruct (Inv_run e S xs c _ [] c' oss HS0 HI Hok E) as (n' & tr' & [_ _ _ Hent Hord] & M).
  cbn [map] in M. rewrite app_nil_r in M.
  pose proof (ordered_NoDup S n' _ tr' HS Hent Hord) as ND. rewrite M in ND.
  rewrite map_rev in ND. apply NoDup_rev in ND. rewrite rev_involutive in ND. exact ND.
Qed.

(* the two directions use disjoint nonce spaces: the direction flag of every emitted header is
   the emitting side's, for the whole history *)
Lemma server_flag_run e S xs : forall c c' oss,
  S <= c_send_interval c -> all_ok S xs -> run e c xs = (c', oss) ->
  c_server c' = c_server c /\ Forall (fun h => h_to_server h = negb (c_server c)) (emits (concat oss)).
Proof.
  induction xs as [|x r IH]; intros c c' oss HS Hok E; cbn [run] in E.
  - injection E as <- <-. split; [reflexivity|constructor].
  - destruct Hok as [Hx Hr].
    destruct (step e c x) as [c1 o] eqn:E1. destruct (run e c1 r) as [c2 os] eqn:E2. injection E as <- <-.
    destruct (step_built e S c x c1 o E1 HS Hx) as (B & A & HS').
    destruct (IH c1 c2 os HS' Hr E2) as [A2 F2].
    split; [congruence|]. cbn [concat]. rewrite emits_app. apply Forall_app. split.
    + destruct B as [_ _ B3|_ _ _ [B4|(h & B4 & _ & _ & F3)]]; rewrite ?B3, ?B4; repeat constructor. exact F3.
    + rewrite <- A. exact F2.
Qed.
