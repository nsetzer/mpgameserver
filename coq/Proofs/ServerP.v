(* The server loop of Model/Server.v read as a sequence of atomic transitions (tr), and
   what holds along every such sequence: the pool bookkeeping with the per-client automaton over
   handler events (Inv), the fields no transition writes, the one transition that stops the loop. *)
From Coq Require Import Lia Permutation.
From RecordUpdate Require Import RecordUpdate.
From Model Require Import Base SeqNum Wire Conn Server.
From Proofs Require Import ListP DictP ConnSpecP HandshakeP.
Import RecordSetNotations.
Open Scope Z_scope.

Lemma addr_eqb_spec a b : reflect (a = b) (addr_eqb a b).
Proof.
  destruct a as [a1 a2], b as [b1 b2]. unfold addr_eqb; simpl.
  destruct (Z.eqb_spec a1 b1), (Z.eqb_spec a2 b2); constructor; congruence.
Qed.
Lemma addr_eqb_refl a : addr_eqb a a = true.
Proof. destruct (addr_eqb_spec a a); congruence. Qed.

(* what the bookkeeping invariant reads of a pool: which identity sits at which address; adel is pdel on shapes *)
Definition shape (p : pool) : list (Z * addr) := map (fun cl => (cl_id cl, cl_addr cl)) p.
Definition adel (a : addr) (l : list (Z * addr)) : list (Z * addr) :=
  filter (fun x => negb (addr_eqb a (snd x))) l.

Lemma shape_app p q : shape (p ++ q) = shape p ++ shape q.
Proof. apply map_app. Qed.
Lemma shape_ids p : map fst (shape p) = map cl_id p.
Proof. unfold shape. rewrite map_map. auto. Qed.
Lemma shape_addrs p : map snd (shape p) = map cl_addr p.
Proof. unfold shape. rewrite map_map. auto. Qed.
Lemma shape_pmap_id cid f p : shape (pmap_id cid f p) = shape p.
Proof.
  unfold shape, pmap_id. rewrite map_map. apply map_ext. intros cl.
  destruct (cl_id cl =? cid); auto.
Qed.
Lemma shape_pdel a p : shape (pdel a p) = adel a (shape p).
Proof.
  unfold shape, pdel, adel. induction p as [|x r IH]; simpl; auto.
  destruct (addr_eqb a (cl_addr x)); simpl; rewrite IH; auto.
Qed.
Lemma in_shape cl p : In cl p -> In (cl_id cl, cl_addr cl) (shape p).
Proof. apply (in_map (fun cl => (cl_id cl, cl_addr cl))). Qed.

Lemma pget_in a p cl : pget a p = Some cl -> In cl p /\ cl_addr cl = a.
Proof.
  induction p as [|x r IH]; simpl; [discriminate|].
  destruct (addr_eqb_spec a (cl_addr x)) as [->|_].
  - intros [= <-]. auto.
  - intros H. destruct (IH H). auto.
Qed.
Lemma pget_none a p : pget a p = None -> ~ In a (map cl_addr p).
Proof.
  induction p as [|x r IH]; simpl; auto.
  destruct (addr_eqb_spec a (cl_addr x)); [discriminate|].
  intros H [F|F]; [congruence|apply IH; auto].
Qed.
Lemma pget_some_in a p : In a (map cl_addr p) -> exists cl, pget a p = Some cl.
Proof.
  induction p as [|x r IH]; simpl; [tauto|].
  destruct (addr_eqb_spec a (cl_addr x)); [eauto|].
  intros [F|F]; [congruence|auto].
Qed.
Lemma pset_fresh cl p : pget (cl_addr cl) p = None -> pset cl p = p ++ [cl].
Proof.
  induction p as [|x r IH]; simpl; auto.
  destruct (addr_eqb (cl_addr cl) (cl_addr x)); [discriminate|].
  intros H. rewrite IH; auto.
Qed.
Lemma in_pset cl p y : In y (pset cl p) -> y = cl \/ In y p.
Proof.
  induction p as [|x r IH]; simpl.
  - intros [<-|[]]; auto.
  - destruct (addr_eqb _ _); simpl; intros [<-|I]; auto. destruct (IH I); auto.
Qed.
Lemma in_pdel a p y : In y (pdel a p) -> In y p.
Proof. intros I. apply filter_In in I. tauto. Qed.

Lemma pfind_in cid p cl : pfind cid p = Some cl -> In cl p /\ cl_id cl = cid.
Proof.
  induction p as [|x r IH]; simpl; [discriminate|].
  destruct (Z.eqb_spec (cl_id x) cid).
  - intros [= <-]. auto.
  - intros H. destruct (IH H). auto.
Qed.
Lemma pfind_some cid p : In cid (map cl_id p) -> exists cl, pfind cid p = Some cl.
Proof.
  induction p as [|x r IH]; simpl; [tauto|].
  destruct (Z.eqb_spec (cl_id x) cid); [eauto|].
  intros [F|F]; [contradiction|auto].
Qed.
Lemma pfind_none cid p : pfind cid p = None -> ~ In cid (map cl_id p).
Proof.
  induction p as [|x r IH]; simpl; auto.
  destruct (Z.eqb_spec (cl_id x) cid); [discriminate|].
  intros H [F|F]; [contradiction|apply IH; auto].
Qed.
Lemma pfind_shape cid p cl : pfind cid p = Some cl -> In (cid, cl_addr cl) (shape p).
Proof. intros H. apply pfind_in in H. destruct H as [H <-]. apply in_shape; auto. Qed.
Lemma pfind_pmap_id cid f p :
  pfind cid (pmap_id cid f p) = option_map (fun cl => with_conn cl (f (cl_conn cl))) (pfind cid p).
Proof.
  induction p as [|x r IH]; simpl; auto. destruct (cl_id x =? cid) eqn:E; simpl; rewrite ?E; auto.
Qed.
Lemma in_pmap_id cid f p y : In y (pmap_id cid f p) ->
  exists z, In z p /\ cl_id y = cl_id z /\
            ((cl_id z <> cid /\ y = z) \/ (cl_id z = cid /\ cl_conn y = f (cl_conn z))).
Proof.
  intros I. apply in_map_iff in I. destruct I as (z & <- & I). exists z.
  destruct (Z.eqb_spec (cl_id z) cid); auto.
Qed.

Lemma sfind_in cid s cl : sfind cid s = Some cl -> cl_id cl = cid /\ In cl (s_conns s ++ s_temp s).
Proof.
  unfold sfind. rewrite in_app_iff. destruct (pfind cid (s_conns s)) eqn:E.
  - intros [= <-]. apply pfind_in in E. tauto.
  - intros H. apply pfind_in in H. tauto.
Qed.
Lemma pool_supd cid f s :
  s_conns (supd cid f s) ++ s_temp (supd cid f s) = pmap_id cid f (s_conns s ++ s_temp s).
Proof. symmetry. apply map_app. Qed.

Lemma adel_in a l x : In x (adel a l) <-> In x l /\ snd x <> a.
Proof.
  unfold adel. rewrite filter_In. destruct (addr_eqb_spec a (snd x)); simpl; intuition congruence.
Qed.
Lemma map_adel_sub {B} (f : Z * addr -> B) a l z : In z (map f (adel a l)) -> In z (map f l).
Proof. rewrite !in_map_iff. intros (y & E & I). apply adel_in in I. exists y. tauto. Qed.
Lemma NoDup_map_adel {B} (f : Z * addr -> B) a l r : NoDup (map f (l ++ r)) -> NoDup (map f (adel a l ++ r)).
Proof.
  induction l as [|x l IH]; simpl; auto. intros N. inversion N as [|? ? N1 N2]; subst.
  destruct (addr_eqb a (snd x)); simpl; auto. constructor; auto.
  intros I. apply N1. rewrite map_app, in_app_iff in *. destruct I; [left; eapply map_adel_sub|right]; eauto.
Qed.

Lemma adel_perm cid a l : NoDup (map snd l) -> In (cid, a) l -> Permutation l ((cid, a) :: adel a l).
Proof.
  induction l as [|x r IH]; simpl; [tauto|].
  intros N [->|I]; inversion N as [|? ? N1 N2]; subst; simpl.
  - rewrite addr_eqb_refl. simpl. apply perm_skip. clear - N1.
    induction r as [|y r IH]; simpl in *; auto.
    destruct (addr_eqb_spec a (snd y)); [exfalso; apply N1; left; congruence|]. simpl. apply perm_skip, IH. tauto.
  - destruct (addr_eqb_spec a (snd x)) as [->|_]; simpl.
    + exfalso. apply N1. apply (in_map snd _ _ I).
    + eapply perm_trans; [apply perm_skip, IH; auto|apply perm_swap].
Qed.

(* the per-client automaton over handler events, accepting exactly the prefixes of connect . message* . disconnect
   (lc_fresh): the state None is rejection.  proj cid l: the events of l that are about cid; adv phi l: every
   client's state after the log l, from the states phi *)
Inductive phase := Fresh | Live | Gone.
Definition ev_cid (e : hevent) : option Z :=
  match e with HConnect c _ _ => Some c | HMessage c _ _ => Some c | HDisconnect c => Some c | _ => None end.
Definition ev_is (cid : Z) (e : hevent) : bool :=
  match ev_cid e with Some c => c =? cid | None => false end.
Definition lc_step (p : option phase) (e : hevent) : option phase :=
  match p, e with
  | Some Fresh, HConnect _ _ _ => Some Live
  | Some Live, HMessage _ _ _ => Some Live
  | Some Live, HDisconnect _ => Some Gone
  | _, _ => None
  end.
Definition hlog (o : list sout) : list hevent :=
  flat_map (fun x => match x with SEv e => [e] | _ => [] end) o.
Definition proj (cid : Z) (l : list hevent) : list hevent := filter (ev_is cid) l.
Definition adv (phi : Z -> option phase) (l : list hevent) (cid : Z) : option phase :=
  fold_left lc_step (proj cid l) (phi cid).

Lemma hlog_app a b : hlog (a ++ b) = hlog a ++ hlog b.
Proof. unfold hlog. apply flat_map_app. Qed.
Lemma adv_app phi a b cid : adv phi (a ++ b) cid = adv (adv phi a) b cid.
Proof. unfold adv, proj. rewrite filter_app, fold_left_app. auto. Qed.
Lemma adv_nil phi cid : adv phi [] cid = phi cid.
Proof. reflexivity. Qed.
Lemma ev_is_true cid e : ev_is cid e = true <-> ev_cid e = Some cid.
Proof.
  unfold ev_is. destruct (ev_cid e); [|split; discriminate]. rewrite Z.eqb_eq. split; congruence.
Qed.
Lemma adv_one phi e cid c : ev_cid e = Some cid ->
  adv phi [e] c = if c =? cid then lc_step (phi cid) e else phi c.
Proof.
  intros E. unfold adv, proj, ev_is. simpl. rewrite E, (Z.eqb_sym cid c).
  destruct (Z.eqb_spec c cid) as [->|_]; reflexivity.
Qed.
Lemma adv_other phi e c : ev_cid e = None -> adv phi [e] c = phi c.
Proof. intros E. unfold adv, proj, ev_is. simpl. rewrite E. reflexivity. Qed.

(* st, sc: the shapes of temp_connections and connections; n: the identity the next object gets; phi: the automaton
   state of each identity.  Identities and addresses are unique over both pools and below n; connections holds
   exactly the Live identities; temp_connections and the identities not yet given out are Fresh; no log so far
   was rejected *)
Definition Inv' (st sc : list (Z * addr)) (n : Z) (phi : Z -> option phase) : Prop :=
  NoDup (map fst (st ++ sc)) /\ NoDup (map snd (st ++ sc)) /\
  (forall x, In x (st ++ sc) -> fst x < n) /\
  (forall cid, In cid (map fst sc) <-> phi cid = Some Live) /\
  (forall cid, In cid (map fst st) -> phi cid = Some Fresh) /\
  (forall cid, n <= cid -> phi cid = Some Fresh) /\
  (forall cid, phi cid <> None).

Definition Inv (s : srv) (phi : Z -> option phase) : Prop :=
  Inv' (shape (s_temp s)) (shape (s_conns s)) (s_next_id s) phi.

Lemma Inv'_ext st sc n phi phi' : (forall c, phi c = phi' c) -> Inv' st sc n phi -> Inv' st sc n phi'.
Proof.
  intros E (A & B & C & D & F & G & H). repeat split; auto; try solve [intros c; rewrite <- E; auto].
  - intros I. rewrite <- E. apply D; auto.
  - intros I. apply D. rewrite E. auto.
Qed.

Lemma Inv'_drop st sc n phi a : Inv' st sc n phi -> Inv' (adel a st) sc n phi.
Proof.
  intros (A & B & C & D & F & G & H). repeat split; auto; try apply D; try (apply NoDup_map_adel; auto).
  - intros x I. apply C. rewrite in_app_iff in *. destruct I as [I|I]; auto. apply adel_in in I. tauto.
  - intros cid I. apply F. eapply map_adel_sub; eauto.
Qed.

Lemma Inv'_new st sc n phi a :
  Inv' st sc n phi -> ~ In a (map snd (st ++ sc)) -> Inv' (st ++ [(n, a)]) sc (n + 1) phi.
Proof.
  intros (A & B & C & D & F & G & H) N.
  assert (P : Permutation ((st ++ [(n, a)]) ++ sc) ((n, a) :: st ++ sc)).
  { rewrite <- app_assoc. symmetry. apply Permutation_middle. }
  repeat split; auto; try apply D.
  - rewrite P. simpl. constructor; auto.
    intros I. apply in_map_iff in I. destruct I as (y & E & I). apply C in I. lia.
  - rewrite P. simpl. constructor; auto.
  - intros x I. rewrite P in I. destruct I as [<-|I]; simpl; [lia|]. apply C in I. lia.
  - intros cid I. rewrite map_app, in_app_iff in I. destruct I as [I|[<-|[]]]; auto. apply G. simpl. lia.
  - intros cid I. apply G. lia.
Qed.

Lemma Inv'_quiet st sc n phi e : Inv' st sc n phi -> ev_cid e = None -> Inv' st sc n (adv phi [e]).
Proof. intros I E. eapply Inv'_ext; [|exact I]. intros c. symmetry. apply adv_other, E. Qed.

Lemma Inv'_msg st sc n phi cid ms p :
  Inv' st sc n phi -> In cid (map fst sc) -> Inv' st sc n (adv phi [HMessage cid ms p]).
Proof.
  intros I M. eapply Inv'_ext; [|exact I]. intros c. rewrite (adv_one _ _ cid); [|reflexivity].
  destruct (Z.eqb_spec c cid) as [->|_]; auto.
  destruct I as (_ & _ & _ & D & _). apply D in M. rewrite M. auto.
Qed.

Lemma adel_ids cid a l r : NoDup (map fst (l ++ r)) -> NoDup (map snd (l ++ r)) -> In (cid, a) l ->
  Permutation (l ++ r) ((cid, a) :: adel a l ++ r) /\
  (forall c, In c (map fst l) <-> c = cid \/ In c (map fst (adel a l))) /\
  ~ In cid (map fst (adel a l ++ r)).
Proof.
  intros A B M.
  assert (P : Permutation l ((cid, a) :: adel a l)).
  { apply adel_perm; auto. rewrite map_app in B. apply NoDup_app_inv in B. tauto. }
  assert (Q : Permutation (l ++ r) ((cid, a) :: adel a l ++ r)) by (apply (Permutation_app_tail r P)).
  split; [exact Q|split].
  - intros c. rewrite P at 1. simpl. split; intros [E|I]; auto.
  - rewrite Q in A. inversion A; auto.
Qed.

Lemma Inv'_connect st sc n phi cid a t :
  Inv' st sc n phi -> In (cid, a) st -> Inv' (adel a st) (sc ++ [(cid, a)]) n (adv phi [HConnect cid a t]).
Proof.
  intros (A & B & C & D & F & G & H) M.
  destruct (adel_ids cid a st sc A B M) as (P & Ids & NI).
  assert (P2 : Permutation (st ++ sc) (adel a st ++ sc ++ [(cid, a)])).
  { rewrite P, app_assoc. apply Permutation_cons_append. }
  assert (Fc : phi cid = Some Fresh) by (apply F, (in_map fst _ _ M)).
  assert (AV : forall c, adv phi [HConnect cid a t] c = if c =? cid then Some Live else phi c).
  { intros c. rewrite (adv_one _ _ cid), Fc; reflexivity. }
  rewrite map_app, in_app_iff in NI.
  repeat split.
  - rewrite <- P2. exact A.
  - rewrite <- P2. exact B.
  - intros x I. apply C. rewrite P2. exact I.
  - rewrite AV, map_app, in_app_iff. destruct (Z.eqb_spec cid0 cid); auto.
    intros [I|[I|[]]]; [apply D; auto|simpl in I; congruence].
  - rewrite AV, map_app, in_app_iff. destruct (Z.eqb_spec cid0 cid) as [->|_]; [simpl; auto|].
    intros I. left. apply D; auto.
  - intros c I. rewrite AV. destruct (Z.eqb_spec c cid) as [->|_]; [tauto|]. apply F, Ids. auto.
  - intros c I. rewrite AV. destruct (Z.eqb_spec c cid) as [->|_]; auto.
    assert (X : In (cid, a) (st ++ sc)) by (apply in_app_iff; auto). apply C in X. simpl in X. lia.
  - intros c. rewrite AV. destruct (c =? cid); auto. discriminate.
Qed.

Lemma Inv'_disc st sc n phi cid a :
  Inv' st sc n phi -> In (cid, a) sc -> Inv' st (adel a sc) n (adv phi [HDisconnect cid]).
Proof.
  intros (A & B & C & D & F & G & H) M.
  rewrite (Permutation_app_comm st sc) in A, B.
  destruct (adel_ids cid a sc st A B M) as (P & Ids & NI).
  assert (Lc : phi cid = Some Live) by (apply D, (in_map fst _ _ M)).
  assert (AV : forall c, adv phi [HDisconnect cid] c = if c =? cid then Some Gone else phi c).
  { intros c. rewrite (adv_one _ _ cid), Lc; reflexivity. }
  rewrite map_app, in_app_iff in NI.
  repeat split.
  - rewrite (Permutation_app_comm st). apply NoDup_map_adel, A.
  - rewrite (Permutation_app_comm st). apply NoDup_map_adel, B.
  - intros x I. apply C. rewrite in_app_iff in *. destruct I as [I|I]; auto. apply adel_in in I. tauto.
  - intros I. rewrite AV. destruct (Z.eqb_spec cid0 cid) as [->|_]; [tauto|]. apply D, Ids. auto.
  - rewrite AV. destruct (Z.eqb_spec cid0 cid); [discriminate|]. intros I. apply D, Ids in I. tauto.
  - intros c I. rewrite AV. destruct (Z.eqb_spec c cid) as [->|_]; [tauto|auto].
  - intros c I. rewrite AV. destruct (Z.eqb_spec c cid) as [->|_]; auto.
    assert (X : In (cid, a) (st ++ sc)) by (apply in_app_iff; auto). apply C in X. simpl in X. lia.
  - intros c. rewrite AV. destruct (c =? cid); auto. discriminate.
Qed.

Lemma Inv_srv0 g bl : Inv (srv0 g bl) (fun _ => Some Fresh).
Proof.
  unfold Inv, Inv'; simpl. repeat split; try constructor; auto; try tauto; try discriminate.
Qed.

Lemma Inv_ids s phi : Inv s phi -> NoDup (map cl_id (s_conns s ++ s_temp s)).
Proof.
  intros (A & _). rewrite <- shape_app, shape_ids in A.
  rewrite Permutation_app_comm. exact A.
Qed.
Lemma Inv_unique s phi z y :
  Inv s phi -> In z (s_conns s ++ s_temp s) -> In y (s_conns s ++ s_temp s) -> cl_id z = cl_id y -> z = y.
Proof. intros I. apply NoDup_map_inj, (Inv_ids _ _ I). Qed.

Definition is_message (e : hevent) : Prop := match e with HMessage _ _ _ => True | _ => False end.

Lemma lc_none l : fold_left lc_step l None = None.
Proof. induction l; simpl; auto. Qed.
Lemma lc_gone l : fold_left lc_step l (Some Gone) <> None -> l = [].
Proof. destruct l; auto. simpl. rewrite lc_none. congruence. Qed.
Lemma lc_live cid l : (forall x, In x l -> ev_cid x = Some cid) -> fold_left lc_step l (Some Live) <> None ->
  exists msgs tail, l = msgs ++ tail /\ Forall is_message msgs /\ (tail = [] \/ tail = [HDisconnect cid]).
Proof.
  induction l as [|x r IH]; intros A H.
  - exists [], []. auto.
  - destruct x; simpl in H; try (rewrite lc_none in H; congruence).
    + destruct IH as (ms & tl & E & F & G); auto. { intros y I. apply A. simpl; auto. }
      exists (HMessage cid0 mseq p :: ms), tl. subst. split; auto. split; auto. constructor; simpl; auto.
    + apply lc_gone in H. subst. exists [], [HDisconnect cid0]. split; auto. split; auto. right.
      specialize (A (HDisconnect cid0) (or_introl eq_refl)). simpl in A. congruence.
Qed.
Lemma lc_fresh cid l : (forall x, In x l -> ev_cid x = Some cid) -> fold_left lc_step l (Some Fresh) <> None ->
  l = [] \/ exists a t msgs tail, l = HConnect cid a t :: msgs ++ tail /\ Forall is_message msgs /\
                                  (tail = [] \/ tail = [HDisconnect cid]).
Proof.
  destruct l as [|x r]; auto. intros A H. right.
  destruct x; simpl in H; try (rewrite lc_none in H; congruence).
  destruct (lc_live cid r) as (ms & tl & E & F & G); auto. { intros y I. apply A. simpl; auto. }
  specialize (A (HConnect cid0 a token) (or_introl eq_refl)). simpl in A. injection A as ->.
  exists a, token, ms, tl. subst; auto.
Qed.
Lemma lc_msgs msgs : Forall is_message msgs -> fold_left lc_step msgs (Some Live) = Some Live.
Proof. induction 1 as [|x r Hx _ IH]; simpl; auto. destruct x; simpl in *; tauto. Qed.
Lemma proj_cid cid l x : In x (proj cid l) -> ev_cid x = Some cid.
Proof. unfold proj. intros H. apply filter_In in H. apply ev_is_true. tauto. Qed.

(* a datagram of one message, as srv_msg hands it to the connection object c: only an accepted
   CLIENT_HELLO that is not a duplicate writes key and token of a server-side object, only an
   accepted CHALLENGE_RESP asks for the connect *)
Lemma recv_one c now m o c' outs : recv_msgs c now [m] [o] = (c', outs) ->
  c_server c' = c_server c /\ (c_key c <> None -> c_key c' <> None) /\
  (c_server c = true -> same c c' \/
     (w_type m = CLIENT_HELLO /\ match bf_insert (c_bf_msg c) (w_seq m) with Err _ => true | Ok _ => false end = false /\
      o_parse o = 0 /\ o_version_ok o = true /\ c_token c' = o_token o)) /\
  (has_connect outs = true -> w_type m = CHALLENGE_RESP /\ o_parse o = 0 /\ o_temp_token o = Some (o_token o)).
Proof.
  intros R. rewrite recv_msgs_cons in R. destruct (bf_insert _ _) as [bf|er]; cbn [recv_msgs] in R.
  2:{ injection R as <- <-. split; [reflexivity|]. split; [auto|]. split; [left; apply same_refl|discriminate]. }
  destruct (dispatch _ now m [o]) as [[c1 o1] orcs'] eqn:E.
  apply dispatch_fx in E. destruct E as (A & B & _ & D & F). cbn [hd] in D, F.
  assert (R' : (c', outs) = (c1, o1)).
  { destruct (raised o1); injection R as <- <-; rewrite ?app_nil_r; reflexivity. }
  injection R' as -> ->. split; [exact A|]. split; [exact B|]. split.
  - intros Sv. destruct (F Sv) as [S|(Ty & P & V & T)]; [left; exact S|right; auto].
  - intros X. destruct (D X) as (_ & Ty & _ & P & T). auto.
Qed.

Lemma get_token_fresh used rand t rest : get_token used rand = Some (t, rest) ->
  t <> 0 /\ ~ In t used /\ exists r, In r rand /\ t = mask_token r.
Proof.
  revert t rest. induction rand as [|x r IH]; simpl; intros t rest; [discriminate|].
  destruct (Z.eqb_spec (mask_token x) 0) as [_|Nz]; simpl.
  { intros H. destruct (IH _ _ H) as (A & B & y & I & Ey). eauto 6. }
  destruct (zmem (mask_token x) used) eqn:M.
  { intros H. destruct (IH _ _ H) as (A & B & y & I & Ey). eauto 6. }
  intros [= <- <-]. repeat split; eauto. rewrite <- zmem_In. congruence.
Qed.

Lemma get_token_some used rand : (exists r, In r rand /\ mask_token r <> 0 /\ ~ In (mask_token r) used) ->
  get_token used rand <> None.
Proof.
  induction rand as [|x rest IH]; simpl; intros (r & I & N & U); [tauto|].
  destruct ((mask_token x =? 0) || zmem (mask_token x) used) eqn:E; [|discriminate].
  destruct I as [<-|I]; [|apply IH; eauto].
  exfalso. apply orb_true_iff in E. destruct E as [E|E]; [apply N, Z.eqb_eq, E|apply U, zmem_In, E].
Qed.

(* the state changes that move no object between pools and leave key, role and token of every object alone: the random
   supply, the call counter, and supd with a function (upd_all) or a value (upd_one) that is `same`.  They keep the
   shapes (upd_frame), hence Inv, and a key once held (upd_keyed) *)
Inductive upd : srv -> srv -> Prop :=
| upd_refl s : upd s s
| upd_trans s1 s2 s3 : upd s1 s2 -> upd s2 s3 -> upd s1 s3
| upd_rand s l : upd s (s <| s_rand := l |>)
| upd_calls s n : upd s (s <| s_calls := n |>)
| upd_all s cid f : (forall c, same c (f c)) -> upd s (supd cid f s)
(* the code computes the new state from the object it has found; it is the state of every object
   of that identity only because identities are unique (Inv) *)
| upd_one s cid cl c' : In cl (s_conns s ++ s_temp s) -> cl_id cl = cid -> same (cl_conn cl) c' ->
    upd s (supd cid (fun _ => c') s).

Record frame (s s' : srv) : Prop := {
  fr_temp : shape (s_temp s') = shape (s_temp s);
  fr_conns : shape (s_conns s') = shape (s_conns s);
  fr_next : s_next_id s' = s_next_id s;
  fr_block : s_block s' = s_block s;
  fr_cfg : s_cfg s' = s_cfg s;
  fr_active : s_active s' = s_active s;
  fr_dead : s_dead s' = s_dead s }.
Arguments fr_temp {s s'}. Arguments fr_conns {s s'}. Arguments fr_next {s s'}. Arguments fr_block {s s'}.
Arguments fr_cfg {s s'}. Arguments fr_active {s s'}. Arguments fr_dead {s s'}.

Lemma frame_supd cid f s : frame s (supd cid f s).
Proof. constructor; try reflexivity; apply shape_pmap_id. Qed.
Lemma upd_frame s s' : upd s s' -> frame s s'.
Proof.
  induction 1 as [| ? ? ? _ [] _ [] | | | |]; try apply frame_supd; constructor; try reflexivity; congruence.
Qed.
Lemma frame_pfind s s' cid cl : frame s s' -> pfind cid (s_conns s) = Some cl ->
  exists cl', pfind cid (s_conns s') = Some cl'.
Proof.
  intros F P. apply pfind_some. rewrite <- shape_ids, (fr_conns F), shape_ids.
  apply pfind_in in P. destruct P as [P <-]. apply in_map, P.
Qed.
Lemma Inv_frame s s' phi : frame s s' -> Inv s phi -> Inv s' phi.
Proof. unfold Inv. intros F. rewrite (fr_temp F), (fr_conns F), (fr_next F). auto. Qed.

(* every object of identity cid holds a session key: what tr_promote needs of the object it moves *)
Definition keyed (cid : Z) (s : srv) : Prop :=
  forall cl, In cl (s_conns s ++ s_temp s) -> cl_id cl = cid -> c_key (cl_conn cl) <> None.

Lemma keyed_supd cid cid' f s :
  (forall z, In z (s_conns s ++ s_temp s) -> cl_id z = cid -> cid' = cid -> c_key (f (cl_conn z)) <> None) ->
  (cid' <> cid -> keyed cid s) -> keyed cid (supd cid' f s).
Proof.
  intros Hf K y Iy Ey. rewrite pool_supd in Iy. apply in_pmap_id in Iy.
  destruct Iy as (z & Iz & Ei & [[N ->]|[E ->]]); [apply K; congruence|]. apply Hf; congruence.
Qed.
Lemma upd_keyed cid s s' : upd s s' -> keyed cid s -> keyed cid s'.
Proof.
  induction 1 as [| | | |s cid' f Hf|s cid' cl c' I E Hc]; auto; intros K; apply keyed_supd; auto; intros z Iz Ez Ec.
  - destruct (Hf (cl_conn z)) as (-> & _). auto.
  - destruct Hc as (-> & _). apply K; congruence.
Qed.

Definition msg_effect (used : list Z) (c c' : conn) : Prop :=
  c_server c' = c_server c /\ (c_key c <> None -> c_key c' <> None) /\
  (c_server c = true -> same c c' \/ (c_token c' <> 0 /\ ~ In (c_token c') used)).

(* tr k s o s': the loop goes from s to s' and writes o.  Each transition carries what the code has
   just checked; the one premise that is not a check of that moment is Kc of tr_promote (the promoted
   object holds a key), which the walk carries from the gate of _recv_datagram as `keyed`.  k names the
   connected client whose datagram is being handled: only then are its messages delivered, and no
   client is removed meanwhile.
   `induction 1` on a tr introduces the premises under the names given here (Coq renames only
   those that are transitions themselves). *)
Inductive tr : option Z -> srv -> list sout -> srv -> Prop :=
| tr_app k s o1 s1 o2 s2 (T1 : tr k s o1 s1) (T2 : tr k s1 o2 s2) : tr k s (o1 ++ o2) s2
| tr_upd k s s' (U : upd s s') : tr k s [] s'
| tr_say k s o (L : hlog o = []) : tr k s o s
| tr_ev k s s' ev o (E : ev_cid ev = None) (U : upd s s') (L : hlog o = [ev]) : tr k s o s'
| tr_msg cid s s' ms p o (U : upd s s') (L : hlog o = [HMessage cid ms p]) : tr (Some cid) s o s'
| tr_within cid s o s' (M : In cid (map cl_id (s_conns s))) (T : tr (Some cid) s o s') : tr None s o s'
| tr_promote k s cid cl x s' o
    (F : sfind cid s = Some cl) (G : pget (cl_addr cl) (s_temp s) = Some x) (Kc : c_key (cl_conn cl) <> None)
    (U : upd (s <| s_temp := pdel (cl_addr cl) (s_temp s) |> <| s_conns := pset cl (s_conns s) |>) s')
    (L : hlog o = [HConnect cid (cl_addr cl) (c_token (cl_conn cl))]) : tr k s o s'
| tr_new k s a (PC : pget a (s_conns s) = None) (PT : pget a (s_temp s) = None) :
    tr k s [] (s <| s_next_id := s_next_id s + 1 |>
                 <| s_temp := pset {| cl_id := s_next_id s; cl_addr := a; cl_conn := new_conn (s_cfg s) |} (s_temp s) |>)
| tr_recv k s cid cl c' (F : sfind cid s = Some cl) (ME : msg_effect (tokens_in_use s) (cl_conn cl) c') :
    tr k s [] (supd cid (fun _ => c') s)
| tr_die k s : tr k s [SDied 1] (s <| s_dead := true |>)
| tr_drop k s a : tr k s [] (s <| s_temp := pdel a (s_temp s) |>)
| tr_disc s cid cl s2 o (P : pfind cid (s_conns s) = Some cl) (U : upd s s2) (L : hlog o = [HDisconnect cid]) :
    tr None s o (s2 <| s_conns := pdel (cl_addr cl) (s_conns s2) |>).

Lemma tr_nil k s : tr k s [] s.
Proof. apply tr_say. reflexivity. Qed.
Lemma tr_after k s s1 o s' : tr k s [] s1 -> tr k s1 o s' -> tr k s o s'.
Proof. apply (tr_app k s []). Qed.
Lemma tr_say_then k s o1 o2 s' : hlog o1 = [] -> tr k s o2 s' -> tr k s (o1 ++ o2) s'.
Proof. intros H. apply tr_app, tr_say, H. Qed.
Lemma tr_then_say k s o1 s' o2 : tr k s o1 s' -> hlog o2 = [] -> tr k s (o1 ++ o2) s'.
Proof. intros T H. eapply tr_app; [exact T|apply tr_say, H]. Qed.

(* what no transition writes; s_dead only together with the output SDied 1 *)
Definition kept (s : srv) (o : list sout) (s' : srv) : Prop :=
  s_block s' = s_block s /\ s_cfg s' = s_cfg s /\ s_active s' = s_active s /\
  (s_dead s' = s_dead s \/ In (SDied 1) o).

Lemma kept_frame s o s' : frame s s' -> kept s o s'.
Proof. intros []. repeat split; auto. Qed.
Lemma kept_trans s o1 s1 o2 s2 : kept s o1 s1 -> kept s1 o2 s2 -> kept s (o1 ++ o2) s2.
Proof.
  intros (B1 & G1 & A1 & D1) (B2 & G2 & A2 & D2). repeat split; try congruence.
  rewrite in_app_iff. destruct D1, D2; auto. left. congruence.
Qed.

Lemma tr_keeps k s o s' : tr k s o s' -> kept s o s'.
Proof.
  (* where U starts from a state with pools rewritten, kept reads through the rewriting *)
  induction 1; try exact (kept_frame _ _ _ (upd_frame _ _ U)); auto; try (repeat split; simpl; auto; fail).
  eapply kept_trans; eauto.
Qed.

Lemma Inv'_log st sc n phi l l' : Inv' st sc n (adv (adv phi l) l') -> Inv' st sc n (adv phi (l ++ l')).
Proof. apply Inv'_ext. intros c. symmetry. apply adv_app. Qed.

(* the client whose datagram is being handled (the index of tr) is in connections: tr_msg needs it Live *)
Definition scoped (k : option Z) (s : srv) : Prop :=
  forall cid, k = Some cid -> In cid (map cl_id (s_conns s)).
Lemma scoped_frame k s s' : frame s s' -> scoped k s -> scoped k s'.
Proof. intros F Sc cid H. rewrite <- shape_ids, (fr_conns F), shape_ids. auto. Qed.

(* phi is the automaton state of every client before the log l *)
Lemma tr_Inv k s o s' : tr k s o s' -> forall phi l, Inv s (adv phi l) -> scoped k s ->
  Inv s' (adv phi (l ++ hlog o)) /\ scoped k s'.
Proof.
  induction 1;
    intros phi l I Sc; try apply upd_frame in U; try rewrite L; try rewrite app_nil_r.
  - destruct (IHtr1 _ _ I Sc) as [I1 Sc1]. destruct (IHtr2 _ _ I1 Sc1) as [I2 Sc2]. rewrite hlog_app, app_assoc. auto.
  - split; [eapply Inv_frame; eauto|apply (scoped_frame _ _ _ U Sc)].
  - auto.
  - split; [|apply (scoped_frame _ _ _ U Sc)].
    apply (Inv_frame _ _ _ U), Inv'_log, Inv'_quiet; auto.
  - (* tr_msg: the client is in connections (scoped), so Live stays Live *) split; [|apply (scoped_frame _ _ _ U Sc)].
    apply (Inv_frame _ _ _ U), Inv'_log, Inv'_msg; auto. rewrite shape_ids. apply Sc. reflexivity.
  - destruct (IHtr _ _ I) as [I' _]; [intros ? [= <-]; exact M|]. split; [exact I'|discriminate].
  - (* tr_promote: the promoted object is the entry of temp_connections at its address, and that address is not in connections *)
    apply sfind_in in F. destruct F as [Ec Mem]. apply pget_in in G. destruct G as [Gx Ga].
    assert (Dj : forall a, In a (map cl_addr (s_temp s)) -> ~ In a (map cl_addr (s_conns s))).
    { destruct I as (_ & B & _). rewrite <- shape_app, shape_addrs, map_app in B. apply NoDup_app_inv in B. apply B. }
    assert (At : In (cl_addr cl) (map cl_addr (s_temp s))) by (rewrite <- Ga; apply in_map, Gx).
    assert (NC : pget (cl_addr cl) (s_conns s) = None).
    { destruct (pget (cl_addr cl) (s_conns s)) eqn:Pg; auto. apply pget_in in Pg. destruct Pg as [P1 P2].
      destruct (Dj _ At). rewrite <- P2. apply in_map, P1. }
    assert (Ec' : shape (s_conns s') = shape (s_conns s) ++ [(cid, cl_addr cl)]).
    { rewrite (fr_conns U). cbn. rewrite pset_fresh, shape_app, <- Ec; auto. }
    split.
    + unfold Inv. rewrite (fr_temp U), Ec', (fr_next U). cbn. rewrite shape_pdel.
      apply Inv'_log, Inv'_connect; auto. rewrite in_app_iff in Mem.
      destruct Mem as [Mc|Mt]; [destruct (Dj _ At (in_map cl_addr _ _ Mc))|rewrite <- Ec; apply in_shape, Mt].
    + intros ? Hk. apply Sc in Hk. rewrite <- shape_ids, Ec', map_app, in_app_iff, shape_ids. auto.
  - split; [|exact Sc]. unfold Inv; cbn. rewrite pset_fresh, shape_app by auto. apply Inv'_new; auto.
    rewrite <- shape_app, shape_addrs, map_app, in_app_iff. intros [X|X]; [apply pget_none in PT|apply pget_none in PC]; auto.
  - split; [apply (Inv_frame _ _ _ (frame_supd _ _ _) I)|apply (scoped_frame _ _ _ (frame_supd _ _ _) Sc)].
  - auto.
  - split; [|exact Sc]. unfold Inv; simpl. rewrite shape_pdel. apply Inv'_drop, I.
  - split; [|discriminate]. unfold Inv; simpl. rewrite shape_pdel, (fr_temp U), (fr_conns U), (fr_next U).
    apply Inv'_log, Inv'_disc; auto. apply pfind_shape, P.
Qed.

Lemma hlog_cb_outs cid o : hlog (cb_outs cid o) = [].
Proof.
  unfold cb_outs. induction o as [|x r IH]; simpl; auto. rewrite hlog_app, IH. destruct x; reflexivity.
Qed.
Lemma hlog_send_all l : hlog (send_all l) = [].
Proof.
  induction l as [|[[[a hd] k] p] r IH]; simpl; auto. destruct (_ && _); simpl; auto.
Qed.

Lemma fold_actions_upd e l : forall s, upd s (fold_left (apply_action e) l s).
Proof.
  induction l as [|a r IH]; intros s; simpl; [apply upd_refl|]. eapply upd_trans; [|apply IH].
  destruct a; simpl; destruct (pget _ _); try apply upd_refl; apply upd_all; intros c0;
    [apply disconnect_same|apply send_same].
Qed.
Lemma call_handler_tr h e s ev s' o : call_handler h e s ev = (s', o) -> upd s s' /\ hlog o = [ev].
Proof.
  unfold call_handler. intros [= <- <-]. split; [|destruct (r_raises _); reflexivity].
  eapply upd_trans; [apply upd_calls|apply fold_actions_upd].
Qed.

Lemma tick_client_tr e s cl now s' o p r :
  tick_client e s cl now = (s', o, p, r) -> In cl (s_conns s ++ s_temp s) ->
  upd s s' /\ forall cid, hlog (o ++ if r then [SUpdErr cid] else []) = [].
Proof.
  unfold tick_client. pose proof (server_tick_same e (cl_conn cl) now) as [K _].
  destruct (server_tick _ _ _) as [c' o']. intros [= <- <- <- <-] I.
  split; [apply (upd_one s (cl_id cl) cl); auto|]. intros cid. rewrite hlog_app, hlog_cb_outs. destruct (raised o'); reflexivity.
Qed.

(* promotion needs a key on the promoted object: a CHALLENGE_RESP is only looked at when the datagram
   was opened under a key (srv_recv_tr), and the key stays while the messages are processed *)
Lemma on_connect_tr k h e s cid s' o :
  on_connect h e s cid = (s', o) -> keyed cid s -> tr k s o s' /\ keyed cid s'.
Proof.
  unfold on_connect. destruct (sfind cid s) as [cl|] eqn:F. 2:{ intros [= <- <-] K. split; [apply tr_nil|exact K]. }
  destruct (pget (cl_addr cl) (s_temp s)) as [x|] eqn:G. 2:{ intros [= <- <-] K. split; [apply tr_nil|exact K]. }
  intros C K. apply call_handler_tr in C. destruct C as [U L].
  pose proof (sfind_in _ _ _ F) as [Ec Pcl]. split; [eapply tr_promote; eauto|].
  apply (upd_keyed _ _ _ U). intros y Iy. apply K. cbn in Iy. rewrite in_app_iff in *.
  destruct Iy as [Iy|Iy]; [|right; apply (in_pdel _ _ _ Iy)].
  apply in_pset in Iy. destruct Iy as [->|]; auto.
Qed.

Lemma srv_msg_tr k h e s cid now m x s' o r :
  srv_msg h e s cid now m x = (s', o, r) -> keyed cid s \/ w_type m <> CHALLENGE_RESP ->
  tr k s o s' /\ (keyed cid s -> keyed cid s').
Proof.
  unfold srv_msg. cbv zeta. destruct (sfind cid s) as [cl|] eqn:F.
  2:{ intros [= <- <- <-] _. split; [apply tr_nil|auto]. }
  match goal with |- context [match (if ?b then ?u else ?v) with _ => _ end] =>
    set (draws := b); destruct (if draws then u else v) as [[t rand']|] eqn:Tk end.
  2:{ intros [= <- <- <-] _. split; [apply tr_die|auto]. }
  destruct (recv_msgs _ _ _ _) as [c' outs] eqn:R. apply recv_one in R. destruct R as (Sv' & Km & Tok & Con).
  cbn [o_parse o_version_ok o_token o_temp_token] in Tok, Con.
  match goal with |- context [supd cid (fun _ => ?cc) ?s0] => set (c'' := cc); set (s1 := supd cid (fun _ => c'') s0) end.
  (* the object becomes c'': the ecdh failure writes the drawn token after the message is refused *)
  assert (Fr : draws = true -> t <> 0 /\ ~ In t (tokens_in_use s)).
  { intros Dr. rewrite Dr in Tk. apply get_token_fresh in Tk. tauto. }
  assert (ME : msg_effect (tokens_in_use s) (cl_conn cl) c'').
  { unfold c''. destruct (draws && negb (x_ecdh x =? 0)) eqn:EF; (split; [exact Sv'|split; [exact Km|]]); intros Sv.
    - right. apply andb_true_iff in EF. apply Fr, EF.
    - destruct (Tok Sv) as [K|(Ty & Du & Pz & Vo & Tk')]; [left; exact K|right].
      rewrite Tk'. apply Fr. unfold draws. rewrite Ty, Du, Pz, Vo. reflexivity. }
  assert (T1 : tr k s [] s1).
  { apply (tr_after k s (s <| s_rand := rand' |>)); [apply tr_upd, upd_rand|]. apply (tr_recv k _ cid cl); auto. }
  assert (K1 : keyed cid s -> keyed cid s1).
  { intros K. apply keyed_supd; auto. intros z _ _ _. apply ME. apply sfind_in in F. apply K; tauto. }
  destruct (has_connect outs).
  - destruct (on_connect h e s1 cid) as [s2 o2] eqn:OC. intros [= <- <- <-] Pre.
    destruct (Con eq_refl) as (Ty & _). destruct Pre as [Kd|N]; [|contradiction].
    destruct (on_connect_tr k _ _ _ _ _ _ OC (K1 Kd)) as [T2 K2].
    split; [|auto]. apply (tr_after _ _ _ _ _ T1). apply tr_say_then; [destruct (draws && negb (draws && _)); reflexivity|].
    apply (tr_say_then _ _ [_] o2); [reflexivity|exact T2].
  - intros [= <- <- <-] _. split; [|exact K1].
    apply (tr_after _ _ _ _ _ T1), tr_say. destruct (draws && negb (draws && _)); reflexivity.
Qed.

Lemma srv_msgs_tr k h e cid now ms : forall s xs s' o r,
  srv_msgs h e s cid now ms xs = (s', o, r) -> keyed cid s \/ no_chal ms -> tr k s o s'.
Proof.
  induction ms as [|m rest IH]; simpl; intros s xs s' o r.
  - intros [= <- <- <-] _. apply tr_nil.
  - destruct (srv_msg h e s cid now m (hd no_hsx xs)) as [[s1 o1] r1] eqn:M. intros H P.
    destruct (srv_msg_tr k _ _ _ _ _ _ _ _ _ _ M) as [T1 K1].
    { destruct P as [K|N]; [left; exact K|right; inversion N; assumption]. }
    destruct r1. { injection H as <- <- <-. exact T1. }
    destruct (srv_msgs h e s1 cid now rest _) as [[s2 o2] r2] eqn:R. injection H as <- <- <-.
    eapply tr_app; [exact T1|]. eapply IH; [exact R|].
    destruct P as [K|N]; [left; auto|right; inversion N; assumption].
Qed.

Lemma srv_recv_tr k h e s cid now d xs s' o r : srv_recv h e s cid now d xs = (s', o, r) -> tr k s o s'.
Proof.
  unfold srv_recv. cbv zeta. destruct (sfind cid s) as [cl|] eqn:F. 2:{ intros [= <- <- <-]. apply tr_nil. }
  apply sfind_in in F. destruct F as [Ec Pcl].
  assert (DR : tr k s [] (supd cid (fun c => c <| c_dropped := c_dropped c + 1 |>) s)).
  { apply tr_upd, upd_all. intros c. repeat split. }
  destruct (keyless_refuses _ _) eqn:KR. { intros [= <- <- <-]. exact DR. }
  destruct (open_dgram _ _) as [ms|er] eqn:OD. 2:{ intros [= <- <- <-]. exact DR. }
  destruct (bf_insert _ _) as [bf|er2]. 2:{ intros [= <- <- <-]. exact DR. }
  destruct (handle_ack_bits _ _) as [c1 o1] eqn:HA.
  assert (S1 : same (cl_conn cl) c1)
    by (refine (proj1 (wr_rel same_st W_resolve _ _ _ (handle_ack_bits_wr HA))); intros ? ?; repeat split).
  destruct (srv_msgs _ _ _ _ _ _ _) as [[s2 o2] r2] eqn:M. intros [= <- <- <-].
  apply (tr_after k s (supd cid (fun _ => c1) s)); [apply tr_upd, (upd_one s cid cl); auto|].
  apply tr_say_then; [apply hlog_cb_outs|]. eapply srv_msgs_tr; [exact M|].
  (* a datagram accepted without a key is a single hello *)
  destruct S1 as (K1 & _). destruct (c_key (cl_conn cl)) as [kk|] eqn:Kc.
  - left. apply keyed_supd; [|contradiction]. intros _ _ _ _. rewrite K1. discriminate.
  - right. rewrite keyless_refuses_eq, Kc in KR. eapply keyless_single_hello; eauto.
Qed.

Lemma deliver_msgs_tr h e cid q : forall s s' o, deliver_msgs h e s cid q = (s', o) -> tr (Some cid) s o s'.
Proof.
  induction q as [|[ms p] rest IH]; cbn [deliver_msgs]; intros s s' o.
  - intros [= <- <-]. apply tr_nil.
  - destruct (call_handler h e s (HMessage cid ms p)) as [s1 o1] eqn:C.
    destruct (deliver_msgs h e s1 cid rest) as [s2 o2] eqn:R. intros [= <- <-].
    apply call_handler_tr in C. destruct C as [U L].
    eapply tr_app; [eapply tr_msg; eauto|eapply IH; eauto].
Qed.

Lemma deliver_tr h e s cid s' o : deliver h e s cid = (s', o) -> tr (Some cid) s o s'.
Proof.
  unfold deliver. destruct (sfind cid s). 2:{ intros [= <- <-]. apply tr_nil. }
  destruct (deliver_msgs _ _ _ _ _) as [s1 o1] eqn:D. intros [= <- <-].
  rewrite <- (app_nil_r o1). eapply tr_app; [eapply deliver_msgs_tr; eauto|]. apply tr_upd, upd_all. intros c0. repeat split.
Qed.

Lemma disp_item_tr h e s now a d xs s' o : disp_item h e s now a d xs = (s', o) -> tr None s o s'.
Proof.
  unfold disp_item. destruct (pget a (s_conns s)) as [cl|] eqn:PC.
  - destruct (srv_recv _ _ _ _ _ _ _) as [[s1 o1] r1] eqn:R. intros H.
    apply pget_in in PC. apply (tr_within (cl_id cl)); [apply in_map; tauto|].
    apply (srv_recv_tr (Some (cl_id cl))) in R.
    destruct (s_dead s1). { injection H as <- <-. auto. }
    destruct r1.
    + injection H as <- <-. apply tr_then_say; auto.
    + destruct (deliver h e s1 (cl_id cl)) as [s2 o2] eqn:D. injection H as <- <-.
      eapply tr_app; [exact R|eapply deliver_tr; eauto].
  - destruct (pget a (s_temp s)) as [cl|] eqn:PT.
    + destruct (negb _). { intros [= <- <-]. apply tr_nil. }
      destruct (srv_recv _ _ _ _ _ _ _) as [[s1 o1] r1] eqn:R. intros H. apply (srv_recv_tr None) in R.
      destruct (s_dead s1); injection H as <- <-; auto. apply tr_then_say; auto. destruct r1; reflexivity.
    + destruct (negb _). { intros [= <- <-]. apply tr_nil. }
      cbv zeta. destruct (srv_recv _ _ _ _ _ _ _) as [[s1 o1] r1] eqn:R. intros H. apply (srv_recv_tr None) in R.
      apply (tr_after _ _ _ _ _ (tr_new None s a PC PT)).
      destruct (s_dead s1); injection H as <- <-; auto. apply tr_then_say; auto. destruct r1; reflexivity.
Qed.

Lemma disp_all_tr h e now q : forall s s' o, disp_all h e s now q = (s', o) -> tr None s o s'.
Proof.
  induction q as [|it rest IH]; simpl; intros s s' o.
  - intros [= <- <-]. apply tr_nil.
  - destruct (s_dead s). { intros [= <- <-]. apply tr_nil. }
    destruct (match gate (s_block s) it with Some _ => _ | None => _ end) as [s1 o1] eqn:G.
    destruct (disp_all h e s1 now rest) as [s2 o2] eqn:R. intros [= <- <-].
    eapply tr_app; [|eapply IH; eauto].
    destruct (gate (s_block s) it) as [[[a d] xs]|]; [eapply disp_item_tr; eauto|].
    injection G as <- <-. apply tr_nil.
Qed.

Lemma srv_du_tr h e s i s' o : srv_du h e s i = (s', o) -> tr None s o s'.
Proof.
  unfold srv_du. destruct (disp_all _ _ _ _ _) as [s1 o1] eqn:D. apply disp_all_tr in D. intros H.
  apply (tr_after _ _ _ _ _ (tr_upd None _ _ (upd_rand s (i_rand i)))).
  destruct (s_dead s1). { injection H as <- <-. auto. }
  destruct (call_handler h e s1 HUpdate) as [s2 o2] eqn:C. injection H as <- <-.
  apply call_handler_tr in C. destruct C as [U L]. eapply tr_app; [exact D|]. eapply tr_ev; eauto. reflexivity.
Qed.

(* the sweep of one connected client: its transition, and the one event it may bring — the
   disconnect, exactly when the client found is DISCONNECTING, DISCONNECTED or silent for connection_timeout *)
Lemma sweep_conn_both h e s now cid s' o p : sweep_conn h e s now cid = (s', o, p) ->
  tr None s o s' /\
  forall cl, pfind cid (s_conns s) = Some cl ->
    hlog o = if status_eqb (c_status (cl_conn cl)) DISCONNECTING || status_eqb (c_status (cl_conn cl)) DISCONNECTED
                || timedout (cl_conn cl) now (g_conn_timeout (s_cfg s))
             then [HDisconnect cid] else [].
Proof.
  unfold sweep_conn. destruct (pfind cid (s_conns s)) as [cl0|] eqn:P0.
  2:{ intros [= <- <- <-]. split; [apply tr_nil|discriminate]. }
  set (sa := if status_eqb (c_status (cl_conn cl0)) DISCONNECTING then supd cid (fun c => disconnect c INone) s else s).
  assert (Ua : upd s sa).
  { unfold sa. destruct (status_eqb _ _); [apply upd_all; intros c; apply disconnect_same|apply upd_refl]. }
  (* after client.disconnect() the object found again is DISCONNECTED *)
  assert (Pa : exists cla, pfind cid (s_conns sa) = Some cla /\
    status_eqb (c_status (cl_conn cla)) DISCONNECTED || timedout (cl_conn cla) now (g_conn_timeout (s_cfg sa)) =
    status_eqb (c_status (cl_conn cl0)) DISCONNECTING || status_eqb (c_status (cl_conn cl0)) DISCONNECTED
    || timedout (cl_conn cl0) now (g_conn_timeout (s_cfg s))).
  { unfold sa. destruct (status_eqb (c_status (cl_conn cl0)) DISCONNECTING).
    - eexists. split; [unfold supd; simpl; rewrite pfind_pmap_id, P0; reflexivity|reflexivity].
    - eauto. }
  destruct Pa as (cla & P1 & Ed). rewrite P1. intros H.
  enough (X : tr None sa o s' /\
              hlog o = if status_eqb (c_status (cl_conn cla)) DISCONNECTED || timedout (cl_conn cla) now (g_conn_timeout (s_cfg sa))
                       then [HDisconnect cid] else []).
  { destruct X as [T L]. split; [exact (tr_after _ _ _ _ _ (tr_upd None _ _ Ua) T)|intros cl [= <-]; rewrite <- Ed; exact L]. }
  clearbody sa. revert H. destruct (_ || _).
  - destruct (call_handler h e sa (HDisconnect cid)) as [s1 o1] eqn:C. apply call_handler_tr in C. destruct C as [U1 L1].
    destruct (frame_pfind _ _ _ _ (upd_frame _ _ U1) P1) as [cl1 P2]. rewrite P2.
    destruct (tick_client e s1 cl1 now) as [[[s2 o2] snd_] r2] eqn:Tk.
    apply tick_client_tr in Tk; [|apply in_app_iff; left; apply (pfind_in _ _ _ P2)]. destruct Tk as [U2 L2].
    intros [= <- <- <-].
    assert (L : hlog (o1 ++ o2 ++ (if r2 then [SUpdErr cid] else [])) = [HDisconnect cid]) by (rewrite hlog_app, L1, L2; reflexivity).
    split; [eapply tr_disc; eauto; eapply upd_trans; eauto|exact L].
  - destruct (tick_client e sa cla now) as [[[s2 o2] snd_] r2] eqn:Tk.
    apply tick_client_tr in Tk; [|apply in_app_iff; left; apply (pfind_in _ _ _ P1)]. destruct Tk as [U2 L2].
    intros [= <- <- <-]. split; [apply (tr_after _ _ _ _ _ (tr_upd None _ _ U2)), tr_say, L2|apply L2].
Qed.

Lemma sweep_conn_tr h e s now cid s' o p : sweep_conn h e s now cid = (s', o, p) -> tr None s o s'.
Proof. intros H. apply (sweep_conn_both _ _ _ _ _ _ _ _ H). Qed.

Lemma sweep_temp_tr e s now cid s' o p : sweep_temp e s now cid = (s', o, p) -> tr None s o s'.
Proof.
  unfold sweep_temp. destruct (pfind cid (s_temp s)) as [cl|] eqn:P0. 2:{ intros [= <- <- <-]. apply tr_nil. }
  destruct (_ || _). { intros [= <- <- <-]. apply tr_drop. }
  destruct (tick_client e s cl now) as [[[s2 o2] snd_] r2] eqn:Tk.
  apply tick_client_tr in Tk; [|apply in_app_iff; right; apply (pfind_in _ _ _ P0)]. destruct Tk as [U2 L2].
  intros [= <- <- <-]. apply (tr_after _ _ _ _ _ (tr_upd None _ _ U2)), tr_say, L2.
Qed.

Lemma sweep_list_tr (f : srv -> Z -> srv * list sout * list pending) :
  (forall s cid s' o p, f s cid = (s', o, p) -> tr None s o s') ->
  forall ids s s' o p, sweep_list f s ids = (s', o, p) -> tr None s o s'.
Proof.
  intros Hf. induction ids as [|cid r IH]; simpl; intros s s' o p.
  - intros [= <- <- <-]. apply tr_nil.
  - destruct (f s cid) as [[s1 o1] p1] eqn:F1. destruct (sweep_list f s1 r) as [[s2 o2] p2] eqn:F2.
    intros [= <- <- <-]. eapply tr_app; eauto.
Qed.

Lemma shutdown_list_tr h e ids : forall s s' o, shutdown_list h e s ids = (s', o) -> tr None s o s'.
Proof.
  induction ids as [|cid r IH]; cbn [shutdown_list]; intros s s' o.
  - intros [= <- <-]. apply tr_nil.
  - destruct (pfind cid (s_conns s)) as [cl|] eqn:P. 2:{ apply IH. }
    destruct (call_handler h e s (HDisconnect cid)) as [s1 o1] eqn:C. apply call_handler_tr in C. destruct C as [U L].
    destruct (shutdown_list h e _ r) as [s2 o2] eqn:R. intros [= <- <-].
    eapply tr_app; [eapply tr_disc; eauto|eapply IH; eauto].
Qed.

(* the shutdown sweep empties `connections`: identities are unique, so removing the address of
   each identity removes the identity *)
Lemma shutdown_list_clears h e ids : forall s s' o phi, shutdown_list h e s ids = (s', o) -> Inv s phi ->
  forall c, In c (map cl_id (s_conns s')) -> In c (map cl_id (s_conns s)) /\ ~ In c ids.
Proof.
  induction ids as [|cid r IH]; cbn [shutdown_list]; intros s s' o phi.
  - intros [= <- <-] I c M. auto.
  - destruct (pfind cid (s_conns s)) as [cl|] eqn:P.
    + destruct (call_handler h e s (HDisconnect cid)) as [s1 o1] eqn:C. apply call_handler_tr in C. destruct C as [U L].
      destruct (shutdown_list h e _ r) as [s2 o2] eqn:R. intros [= <- <-] I c M.
      destruct (tr_Inv _ _ _ _ (tr_disc _ _ _ _ _ P U L) phi [] I) as [Ib _]; [discriminate|].
      destruct (IH _ _ _ _ R Ib c M) as [M1 M2]. apply upd_frame in U.
      simpl in M1. rewrite <- shape_ids, shape_pdel, (fr_conns U) in M1.
      pose proof I as (A & B & _). rewrite <- (Permutation_app_comm _ _) in A, B.
      destruct (adel_ids cid (cl_addr cl) _ _ A B (pfind_shape _ _ _ P)) as (_ & Ids & NI).
      rewrite map_app, in_app_iff in NI. rewrite <- shape_ids. split; [apply Ids; auto|].
      intros [<-|X]; tauto.
    + intros R I c M. destruct (IH _ _ _ _ R I c M) as [M1 M2]. split; auto.
      intros [<-|X]; [|contradiction]. apply pfind_none in P. contradiction.
Qed.

(* UdpServerThread.run leaves its loop only after the shutdown sweep *)
Definition stops (s s1 s' : srv) : Prop :=
  s' = s1 \/ (s' = s1 <| s_active := false |> /\ forall phi, Inv s phi -> s_conns s1 = []).

Lemma stops_after s o s1 s2 s' : tr None s o s1 -> stops s1 s2 s' -> stops s s2 s'.
Proof.
  intros T [->|[-> E]]; [left; reflexivity|right]. split; [reflexivity|].
  intros phi I. destruct (tr_Inv _ _ _ _ T phi [] I) as [I1 _]; [discriminate|eauto].
Qed.

Lemma srv_sx_tr h e s i s' o : srv_sx h e s i = (s', o) -> exists s1, tr None s o s1 /\ stops s s1 s'.
Proof.
  unfold srv_sx.
  destruct (sweep_list _ s _) as [[s3 o3] p3] eqn:S3. apply sweep_list_tr in S3; [|intros; eapply sweep_conn_tr; eauto].
  destruct (sweep_list _ s3 _) as [[s4 o4] p4] eqn:S4. apply sweep_list_tr in S4; [|intros; eapply sweep_temp_tr; eauto].
  assert (T4 : tr None s (o3 ++ o4 ++ send_all (p3 ++ p4)) s4).
  { eapply tr_app; [exact S3|]. apply tr_then_say; [exact S4|apply hlog_send_all]. }
  destruct (i_stop i). 2:{ intros [= <- <-]. exists s4. split; [exact T4|left; reflexivity]. }
  unfold srv_shutdown. destruct (shutdown_list _ _ _ _) as [s5 o5] eqn:L.
  destruct (call_handler h e s5 HShutdown) as [s6 o6] eqn:C. apply call_handler_tr in C. destruct C as [U6 L6].
  intros [= <- <-]. exists s6. split.
  - replace (o3 ++ o4 ++ send_all (p3 ++ p4) ++ o5 ++ o6) with ((o3 ++ o4 ++ send_all (p3 ++ p4)) ++ o5 ++ o6)
      by (rewrite <- !app_assoc; reflexivity).
    eapply tr_app; [exact T4|]. eapply tr_app; [eapply shutdown_list_tr; eauto|]. eapply tr_ev; eauto. reflexivity.
  - right. split; [reflexivity|]. intros phi I.
    destruct (tr_Inv _ _ _ _ T4 phi [] I) as [I4 _]; [discriminate|].
    pose proof (shutdown_list_clears _ _ _ _ _ _ _ L I4) as Cl.
    apply upd_frame in U6. pose proof (fr_conns U6) as E.
    destruct (s_conns s5) as [|y r]; [destruct (s_conns s6); [reflexivity|discriminate]|].
    destruct (Cl (cl_id y)) as [A B]; [simpl; auto|contradiction].
Qed.

Lemma srv_step_tr h e s i s' o : srv_step h e s i = (s', o) -> exists s1, tr None s o s1 /\ stops s s1 s'.
Proof.
  unfold srv_step. destruct (negb (s_active s) || s_dead s).
  { intros [= <- <-]. exists s. split; [apply tr_nil|left; reflexivity]. }
  destruct (srv_du h e s i) as [s2 o2] eqn:DU. apply srv_du_tr in DU.
  destruct (s_dead s2). { intros [= <- <-]. exists s2. split; [exact DU|left; reflexivity]. }
  destruct (srv_sx h e s2 i) as [s6 o6] eqn:SX. intros [= <- <-].
  apply srv_sx_tr in SX. destruct SX as (s1 & T & St). exists s1.
  split; [eapply tr_app; eauto|eapply stops_after; eauto].
Qed.

Lemma srv_run_stopped h e is : forall s, s_active s = false -> srv_run h e s is = (s, []).
Proof.
  induction is as [|i r IH]; intros s A; simpl; [reflexivity|].
  unfold srv_step. rewrite A. simpl. rewrite IH; auto.
Qed.

Lemma srv_run_tr h e is : forall s s' o, srv_run h e s is = (s', o) -> exists s1, tr None s o s1 /\ stops s s1 s'.
Proof.
  induction is as [|i r IH]; simpl; intros s s' o.
  - intros [= <- <-]. exists s. split; [apply tr_nil|left; reflexivity].
  - destruct (srv_step h e s i) as [sa o1] eqn:S1. destruct (srv_run h e sa r) as [sb o2] eqn:R. intros [= <- <-].
    apply srv_step_tr in S1. destruct S1 as (s1 & T1 & [->|[-> E1]]).
    + apply IH in R. destruct R as (s2 & T2 & St). exists s2.
      split; [eapply tr_app; eauto|eapply stops_after; eauto].
    + rewrite srv_run_stopped in R by reflexivity. injection R as <- <-. rewrite app_nil_r.
      exists s1. split; [exact T1|right; auto].
Qed.

Definition srv_life (h : horacle) (e : env) (g : cfg) (bl : list Z) (is : list sin) : srv * list sout :=
  let '(s0, o0) := srv_start h e (srv0 g bl) in
  let '(s1, o1) := srv_run h e s0 is in (s1, o0 ++ o1).

Lemma srv_life_tr h e g bl is s o :
  srv_life h e g bl is = (s, o) -> exists s1, tr None (srv0 g bl) o s1 /\ stops (srv0 g bl) s1 s.
Proof.
  unfold srv_life, srv_start. destruct (call_handler _ _ _ _) as [s0 o0] eqn:C. apply call_handler_tr in C. destruct C as [U L].
  destruct (srv_run h e s0 is) as [s1 o1] eqn:R. intros [= <- <-].
  assert (T0 : tr None (srv0 g bl) o0 s0) by (eapply tr_ev; eauto; reflexivity).
  apply srv_run_tr in R. destruct R as (s2 & T & St). exists s2.
  split; [eapply tr_app; eauto|eapply stops_after; eauto].
Qed.

(* a loop that has left its while holds nobody in `connections` (the shutdown sweep: stops) *)
Definition quiescent (s : srv) : Prop := s_active s = false -> s_conns s = [].

Lemma srv_life_inv h e g bl is s o :
  srv_life h e g bl is = (s, o) -> Inv s (adv (fun _ => Some Fresh) (hlog o)) /\ quiescent s.
Proof.
  intros L. apply srv_life_tr in L. destruct L as (s1 & T & St).
  destruct (tr_Inv _ _ _ _ T (fun _ => Some Fresh) [] (Inv_srv0 g bl)) as [I _]; [discriminate|].
  apply tr_keeps in T. destruct St as [->|[-> E]]; (split; [exact I|]); intros A.
  - destruct T as (_ & _ & A' & _). rewrite A' in A. discriminate.
  - apply (E _ (Inv_srv0 g bl)).
Qed.

(* the loop never stops serving, except when get_token is starved of an acceptable value *)
Lemma tr_survives s o s1 s' : tr None s o s1 -> stops s s1 s' ->
  s_dead s = false -> s_dead s' = true -> In (SDied 1) o.
Proof.
  intros T St. apply tr_keeps in T. destruct T as (_ & _ & _ & D).
  assert (E : s_dead s' = s_dead s1) by (destruct St as [->|[-> _]]; reflexivity).
  destruct D; [congruence|auto].
Qed.
Theorem srv_step_survives h e s i s' o :
  srv_step h e s i = (s', o) -> s_dead s = false -> s_dead s' = true -> In (SDied 1) o.
Proof. intros S. apply srv_step_tr in S. destruct S as (s1 & T & St). exact (tr_survives _ _ _ _ T St). Qed.
Theorem srv_run_survives h e s is s' o :
  srv_run h e s is = (s', o) -> s_dead s = false -> s_dead s' = true -> In (SDied 1) o.
Proof. intros S. apply srv_run_tr in S. destruct S as (s1 & T & St). exact (tr_survives _ _ _ _ T St). Qed.

Definition blocked (bl : list Z) (it : witem) : bool := zmem (fst (w_addr it)) bl.

Lemma disp_all_dead h e s now q : s_dead s = true -> disp_all h e s now q = (s, []).
Proof. intros D. destruct q; cbn [disp_all]; [|rewrite D]; reflexivity. Qed.

(* datagrams from block-listed addresses are discarded before any processing *)
Lemma disp_all_blocked h e now q : forall s,
  disp_all h e s now q = disp_all h e s now (filter (fun it => negb (blocked (s_block s) it)) q).
Proof.
  induction q as [|it rest IH]; intros s; [reflexivity|].
  destruct (s_dead s) eqn:D. { rewrite !disp_all_dead by exact D. reflexivity. }
  cbn [filter]. destruct (blocked (s_block s) it) eqn:B; cbn [negb disp_all]; rewrite D.
  - unfold gate. unfold blocked in B. rewrite B, <- IH. destruct (disp_all h e s now rest); auto.
  - destruct (match gate (s_block s) it with Some _ => _ | None => _ end) as [s1 o1] eqn:G.
    assert (Bk : s_block s1 = s_block s).
    { destruct (gate (s_block s) it) as [[[a d] xs]|].
      - apply disp_item_tr, tr_keeps in G. apply G.
      - injection G as <- <-. auto. }
    rewrite IH, Bk. auto.
Qed.
