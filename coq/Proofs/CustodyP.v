(* C05 (safety half) / C07 (at least once): a guaranteed message is never dropped
   by the sender while the connection is open.  Its RetrySender callback K is, at every moment,
   either done (acknowledged), or attached to a queued message, or registered for a datagram that
   is still pending — from which it is re-queued when that datagram times out. *)
From Coq Require Import Lia.
From RecordUpdate Require Import RecordUpdate.
From Model Require Import Base SeqNum Wire Conn.
From Proofs Require Import DictP ConnFrameP PackP AckP AssemblyP StoredP QueueP.
Import RecordSetNotations.
Open Scope Z_scope.

Definition rid_of (k : cb) : Z := match k with Retry rid _ _ _ _ => rid | Plain _ => -1 end.

Definition queued (K : cb) (c : conn) : Prop := exists m, In m (c_outgoing c) /\ m_cb m = Some K.
Definition registered (K : cb) (c : conn) : Prop :=
  exists s ks, dget s (c_pcbs c) = Some ks /\ In K ks /\ In s (map fst (c_packs c)).
Definition is_done (K : cb) (c : conn) : Prop := zmem (rid_of K) (c_done c) = true.

Definition Custody (K : cb) (c : conn) : Prop := is_done K c \/ queued K c \/ registered K c.

(* what the callback machinery, sending and the per-message receive path may do to the fields
   custody looks at *)
Record grows (c c' : conn) : Prop := {
  g_out : forall m, In m (c_outgoing c) -> In m (c_outgoing c');
  g_done : forall r, zmem r (c_done c) = true -> zmem r (c_done c') = true;
  g_pcbs : c_pcbs c' = c_pcbs c;
  g_packs : c_packs c' = c_packs c }.
Lemma grows_refl c : grows c c. Proof. constructor; auto. Qed.
Lemma grows_trans a b c : grows a b -> grows b c -> grows a c.
Proof. intros [A1 A2 A3 A4] [B1 B2 B3 B4]. constructor; auto; congruence. Qed.
Lemma grows_upd c c' :
  c_outgoing c' = c_outgoing c -> c_done c' = c_done c -> c_pcbs c' = c_pcbs c -> c_packs c' = c_packs c -> grows c c'.
Proof. intros O D P A. constructor; auto; intros x; [rewrite O|rewrite D]; auto. Qed.

Lemma grows_settled K c c' : grows c c' -> is_done K c \/ queued K c -> is_done K c' \/ queued K c'.
Proof. intros [G1 G2 _ _] [H|(m & Hm & Hk)]; [left; apply G2, H|right; exists m; auto]. Qed.

Lemma grows_Custody K c c' : grows c c' -> Custody K c -> Custody K c'.
Proof.
  intros G [H|[H|(s & ks & H1 & H2 & H3)]].
  - destruct (grows_settled K _ _ G (or_introl H)); [left|right; left]; assumption.
  - destruct (grows_settled K _ _ G (or_intror H)); [left|right; left]; assumption.
  - right. right. exists s, ks. destruct G as [_ _ G3 G4]. rewrite G3, G4. auto.
Qed.

Lemma zmem_cons x y l : zmem x (y :: l) = (x =? y) || zmem x l.
Proof. exact (DictP.zmem_cons x y l). Qed.

Definition cfields (c : conn) := (c_outgoing c, c_done c, c_pcbs c, c_packs c).
Lemma wr_grows m : (forall c d, cfields (over m c d) = cfields c) -> forall c c', wr m c c' -> grows c c'.
Proof. intros G c c' Hw. pose proof (wr_keeps m cfields G Hw) as E. injection E as O D P A. apply grows_upd; assumption. Qed.

Lemma fire_icb_grows c k ok c' o : fire_icb c k ok = (c', o) -> grows c c'.
Proof. intros E. exact (wr_grows W_icb (fun _ _ => eq_refl) _ _ (fire_icb_wr E)). Qed.

(* the message a RetrySender puts back into the queue when its datagram has timed out *)
Definition requeue (k : cb) : pmsg :=
  match k with
  | Retry rid mseq ty p i => {| m_seq := mseq; m_type := ty; m_payload := p; m_cb := Some k; m_retry := RTimeout; m_atime := 0 |}
  | Plain _ => {| m_seq := 0; m_type := UNKNOWN; m_payload := []; m_cb := None; m_retry := RNone; m_atime := 0 |}
  end.

Lemma fire_cb_grows c k ok c' o : fire_cb c k ok = (c', o) ->
  grows c c' /\ (rid_of k <> -1 -> is_done k c' \/ queued k c').
Proof.
  unfold fire_cb. intros E. destruct k as [i|rid mseq ty p i].
  - split; [eapply fire_icb_grows; exact E|]. cbn. lia.
  - destruct (zmem rid (c_done c)) eqn:Ed; [injection E as <- <-; split; [apply grows_refl|left; exact Ed]|].
    destruct (negb ok).
    + injection E as <- <-. split.
      * constructor; cbn; auto. intros m Hm. apply in_or_app. left. exact Hm.
      * right. exists (requeue (Retry rid mseq ty p i)). split; [cbn; apply in_or_app; right; left; reflexivity|reflexivity].
    + apply fire_icb_grows in E as G. split.
      * eapply grows_trans; [|exact G]. constructor; cbn; auto. intros r Hr. unfold zmem in *. cbn [existsb]. rewrite Hr. apply orb_true_r.
      * left. apply (g_done _ _ G). unfold is_done. cbn [rid_of c_done set]. cbn. rewrite Z.eqb_refl. reflexivity.
Qed.

Lemma fire_all_grows ks : forall c ok c' o, fire_all c ks ok = (c', o) ->
  grows c c' /\ (forall K, In K ks -> rid_of K <> -1 -> is_done K c' \/ queued K c').
Proof.
  induction ks as [|k ks IH]; intros c ok c' o E; cbn [fire_all] in E.
  - injection E as <- <-. split; [apply grows_refl|intros K []].
  - destruct (fire_cb c k ok) as [c1 o1] eqn:E1. destruct (fire_all c1 ks ok) as [c2 o2] eqn:E2.
    injection E as <- <-. destruct (fire_cb_grows _ _ _ _ _ E1) as [G1 F1]. destruct (IH _ _ _ _ E2) as [G2 F2].
    split; [eapply grows_trans; eassumption|].
    intros K [<-|Hin] Hr; [|apply F2; assumption]. apply (grows_settled k _ _ G2), F1, Hr.
Qed.

(* datagram s leaves pending_acks and pending_callbacks: custody survives if whatever was
   registered for s has been settled *)
Lemma drop_Custody K s c c' :
  c_outgoing c' = c_outgoing c -> c_done c' = c_done c -> c_packs c' = ddel s (c_packs c) ->
  (forall s', s' <> s -> dget s' (c_pcbs c') = dget s' (c_pcbs c)) ->
  (forall ks, dget s (c_pcbs c) = Some ks -> In K ks -> is_done K c \/ queued K c) ->
  Custody K c -> Custody K c'.
Proof.
  intros O D A P Hs HC.
  assert (Hset : is_done K c \/ queued K c -> Custody K c').
  { intros [H|(m & Hm & Hk)]; [left; unfold is_done; rewrite D; exact H|right; left; exists m; rewrite O; auto]. }
  destruct HC as [H|[H|(s' & ks & H1 & H2 & H3)]]; auto.
  destruct (Z.eq_dec s' s) as [->|Hne]; [eauto|].
  right. right. exists s', ks. rewrite P, A by exact Hne. auto using in_keys_ddel.
Qed.

Lemma resolve_Custody K ok c s c' o : rid_of K <> -1 -> resolve ok c s = (c', o) -> Custody K c -> Custody K c'.
Proof.
  intros Hr E HC. rewrite resolve_eq in E.
  assert (P0 : c_pcbs (count_outcome ok c) = c_pcbs c) by (destruct ok; reflexivity).
  assert (HC0 : Custody K (count_outcome ok c)) by (revert HC; apply grows_Custody; destruct ok; apply grows_upd; reflexivity).
  destruct (dget s (c_pcbs c)) as [ks|] eqn:Eg.
  - (* the callbacks registered for s are fired first: K among them is then done or queued *)
    destruct (fire_all _ ks ok) as [c1 o1] eqn:E1. injection E as <- <-.
    destruct (fire_all_grows _ _ _ _ _ E1) as [G1 F1].
    destruct (forget_fields s (c1 <| c_pcbs := ddel s (c_pcbs c1) |>)) as (O & D & P & A).
    apply (drop_Custody K s c1); auto.
    + intros s' Hne. rewrite P. apply dget_ddel_other, Hne.
    + intros ks' Hk Hin. rewrite (g_pcbs _ _ G1), P0, Eg in Hk. injection Hk as <-. auto.
    + exact (grows_Custody _ _ _ G1 HC0).
  - injection E as <- <-. destruct (forget_fields s (count_outcome ok c)) as (O & D & P & A).
    apply (drop_Custody K s (count_outcome ok c)); auto.
    + intros s' _. rewrite P. reflexivity.
    + intros ks' Hk. rewrite P0, Eg in Hk. discriminate.
Qed.

Lemma sweep_Custody K verdict snap c c' o : rid_of K <> -1 -> sweep verdict c snap = (c', o) -> Custody K c -> Custody K c'.
Proof.
  intros Hr. apply (sweep_walk (fun a b _ => Custody K a -> Custody K b)); [auto|auto|].
  intros a s t ok a' o' _ _ E. exact (resolve_Custody K ok a s a' o' Hr E).
Qed.

Lemma send_type_grows c ty p r k : grows c (send_type c ty p r k).
Proof. constructor; auto. intros m Hm. rewrite send_type_out_eq. apply in_or_app. auto. Qed.

Lemma send_frags_grows frags : forall c fid n r i, grows c (send_frags c fid n r i frags).
Proof.
  induction frags as [|f rest IH]; intros; cbn [send_frags]; [apply grows_refl|].
  eapply grows_trans; [apply send_type_grows|apply IH].
Qed.

Lemma send_grows e c p r k c' o : send e c p r k = (c', o) -> grows c c'.
Proof.
  intros E. destruct (send_inv E) as [_|_ _|_ _ _|_ _]; [apply grows_refl|apply send_type_grows|apply grows_upd; reflexivity|].
  unfold send_fragmented. apply (grows_trans _ (c <| c_seq_frag := seq_succ (c_seq_frag c) |>)); [apply grows_upd; reflexivity|].
  eapply grows_trans; [apply send_frags_grows|apply grows_upd; reflexivity].
Qed.

(* a new guaranteed send takes custody of its own RetrySender *)
Lemma send_new_Custody e c p k c' o :
  c_status c = CONNECTED -> len p <= e_max_payload e -> send e c p RTimeout k = (c', o) ->
  Custody (Retry (c_next_rid c) (seq_succ (c_seq_msg c)) APP p k) c' /\ c_next_rid c' = c_next_rid c + 1.
Proof.
  intros Hs Hl E. rewrite (send_connected _ _ _ _ _ Hs) in E.
  assert (len p >? e_max_payload e = false) as Hg by lia. rewrite Hg in E. injection E as <- <-.
  split; [|reflexivity]. right. left. exists (new_msg c APP p RTimeout k).
  split; [rewrite send_type_out_eq; apply in_or_app; right; left; reflexivity|reflexivity].
Qed.

(* nothing queued is typed UNKNOWN (so packet assembly never discards a selection) *)
Definition cbk_ok (k : cb) : Prop := match k with Retry _ _ ty _ _ => ty <> UNKNOWN | Plain _ => True end.
Definition msg_ok (m : pmsg) : Prop := m_type m <> UNKNOWN /\ forall k, m_cb m = Some k -> cbk_ok k.

Record NU (c : conn) : Prop := {
  nu_out : Forall msg_ok (c_outgoing c);
  nu_prm : Forall (fun p => msg_ok (snd p)) (c_pretry_msg c);
  nu_pcbs : Forall (fun p => Forall cbk_ok (snd p)) (c_pcbs c) }.

Lemma NU_Stored c : NU c <-> Stored msg_ok cbk_ok c.
Proof. split; intros [A B D]; constructor; assumption. Qed.

Lemma NU_no_unknown c : NU c -> no_unknown c.
Proof.
  intros [A B _] m [H|H].
  - rewrite Forall_forall in A. exact (proj1 (A _ H)).
  - apply in_map_iff in H as (x & <- & Hx). rewrite Forall_forall in B. exact (proj1 (B _ Hx)).
Qed.

Lemma msg_ok_new c ty p r k : ty <> UNKNOWN -> msg_ok (new_msg c ty p r k).
Proof. apply (msgP_new (fun ty _ => ty <> UNKNOWN)). Qed.

Lemma msg_ok_closed : closed msg_ok cbk_ok.
Proof. apply (msgP_closed (fun ty _ => ty <> UNKNOWN)). intros ty p H ->. discriminate. Qed.

Lemma creates_ok e c x : ev_creates msg_ok e c x.
Proof. destruct x; cbn [ev_creates]; try exact I; [destruct (_ >? _)|]; intros; apply msg_ok_new; discriminate. Qed.

Lemma step_NU e c x c' o : step e c x = (c', o) -> NU c -> NU c'.
Proof. rewrite !NU_Stored. intros E H. exact (proj1 (step_Stored _ _ msg_ok_closed _ _ _ _ _ (creates_ok e c x) E H)). Qed.

(* packet assembly: a queued message that is selected becomes registered *)
Lemma built_Custody K c c' now r msgs :
  built_spec c c' now r msgs -> no_unknown c -> ~ In (seq_succ (c_seq_send c)) (map fst (c_packs c)) ->
  Custody K c -> Custody K c'.
Proof.
  intros [B1 B2 B3 B4 _ B5 B6] Hnu Hnew [H|[(m & Hm & Hk)|(s' & ks & H1 & H2 & H3)]].
  - left. unfold is_done. rewrite B4. exact H.
  - destruct (B2 m Hm) as [Hq|Hsel]; [right; left; exists m; auto|].
    right. right. destruct r as [[h ms]|]; [|destruct B6 as (_ & _ & Hn); rewrite (Hn Hnu) in Hsel; destruct Hsel].
    destruct B6 as (_ & _ & _ & P & C).
    assert (HK : In K (opt_list (map m_cb msgs))) by (apply opt_list_In; rewrite <- Hk; apply in_map; exact Hsel).
    exists (seq_succ (c_seq_send c)), (opt_list (map m_cb msgs)).
    rewrite C, P. destruct (opt_list (map m_cb msgs)) as [|k0 cbs] eqn:Ec; [destruct HK|].
    split; [apply dget_dset_same|]. split; [exact HK|apply key_dset_self].
  - right. right. exists s', ks.
    assert (Hne : s' <> seq_succ (c_seq_send c)) by (intros ->; exact (Hnew H3)).
    destruct r as [[h ms]|].
    + destruct B6 as (_ & _ & _ & P & C). rewrite C, P.
      split; [|split; [exact H2|apply keys_dset; exact H3]].
      destruct (opt_list (map m_cb msgs)); [exact H1|]. rewrite dget_dset_other by exact Hne. exact H1.
    + destruct B6 as (C & P & _). rewrite C, P. auto.
Qed.

Lemma build_packet_Custody K e c now c' r :
  build_packet e c now = (c', r) -> no_unknown c -> ~ In (seq_succ (c_seq_send c)) (map fst (c_packs c)) ->
  Custody K c -> Custody K c'.
Proof.
  intros E Hnu Hnew HC. apply build_packet_spec in E as [(-> & _)|(c1 & msgs & B & O & _ & C & A & D & _)]; [exact HC|].
  apply (grows_Custody K c1); [apply grows_upd; assumption|]. eapply built_Custody; eassumption.
Qed.

Lemma tick_tail_Custody K strict e S Ka c n now c' o2 o3 :
  rid_of K <> -1 -> NU c -> AInv S Ka c n -> tick_tail strict e c now = (c', o2, o3) -> Custody K c -> Custody K c'.
Proof.
  intros Hr HN HA E HC. apply tick_tail_cases in E as (c1 & pk & E1 & E2 & _).
  unfold check_timeout in E2. rewrite timeout_loop_sweep in E2. eapply sweep_Custody; [exact Hr|exact E2|].
  eapply build_packet_Custody; eauto using NU_no_unknown, next_seq_fresh.
Qed.

Lemma grows_status_hello t v h : grows t (t <| c_status := v |> <| c_hello_sent := h |>).
Proof. exact (wr_grows W_update (fun _ _ => eq_refl) _ _ (status_hello_wr t v h)). Qed.

(* everything an event does before the tail leaves the four fields alone or adds to the queue and to the
   acknowledged RetrySenders, except a sweep of acknowledgements and the application's disconnect *)
Lemma atom_grows e x c c' o : atom e x c c' o ->
  grows c c' \/ (exists h, handle_ack_bits c h = (c', o)) \/ (exists k, x = EDisconnect k).
Proof.
  intros [H|H|H];
    [destruct H as [p r k c1 o1 _ E|k ->|w v ->|now hello _|_|b _|now r c1 o1 _ E|now er _]
    |destruct H as [o1 _|s bf _|h c1 o1 _ E|o1 _]
    |destruct H as [s bf _|s p|s p c1 o1 E| |ty oo c1 os _ _ E]]; eauto; left; try (apply grows_upd; reflexivity); try apply grows_refl.
  (* eauto took a_disconnect and a_acks, grows_upd the atoms that are one record update; the others, each by its lemma *)
  - eapply send_grows, E.
  - exact (wr_grows W_cfg (fun _ _ => eq_refl) _ _ (setcfg_wr e c w v)).
  - unfold client_hello. eapply grows_trans; [apply send_type_grows|apply grows_status_hello].
  - exact (wr_grows W_update (fun _ _ => eq_refl) _ _ (client_update_wr E)).
  - exact (wr_grows W_frag (fun _ _ => eq_refl) _ _ (recv_fragment_wr E)).
  - destruct (recv_handshake_inv _ _ _ _ _ E) as [os' _ _ _|_ _ _ _|_ _ _ _|_ _ _|_ _ _].
    + apply grows_refl.
    + eapply grows_trans; [|apply send_type_grows]. apply grows_upd; reflexivity.
    + apply grows_upd; reflexivity.
    + apply grows_upd; reflexivity.
    + eapply grows_trans; [|apply grows_status_hello].
      eapply grows_trans; [|apply send_type_grows]. apply grows_upd; reflexivity.
Qed.

Lemma atom_Custody e x K c c' o : rid_of K <> -1 -> ev_open x -> atom e x c c' o -> Custody K c -> Custody K c'.
Proof.
  intros Hr Hop H. destruct (atom_grows _ _ _ _ _ H) as [G|[(h & E)|(k & ->)]]; [apply grows_Custody, G| |destruct Hop].
  unfold handle_ack_bits in E. rewrite ack_loop_sweep in E. exact (sweep_Custody K _ _ _ _ _ Hr E).
Qed.

(* what a step is proved from: nothing queued is UNKNOWN, and AckP's invariant AInv (from which next_seq_fresh) *)
Definition W (S Ka : Z) (c : conn) : Prop := NU c /\ exists n, AInv S Ka c n.

Theorem step_Custody e S Ka K c x c' o :
  rid_of K <> -1 -> ev_open x -> W S Ka c -> Custody K c -> step e c x = (c', o) -> W S Ka c' /\ Custody K c'.
Proof.
  intros Hr Hop [HN [n HA]] HC E.
  split; [split; [eapply step_NU; eassumption|eapply step_AInv; eassumption]|].
  (* packet assembly needs NU and the clock invariant at the state the part before the tail leaves *)
  apply step_acts in E as (c1 & o1 & ot & H1 & Ht & _).
  pose proof (star_pres _ _ (fun a a' o' => atom_Custody e x K a a' o' Hr Hop) _ _ _ H1 HC) as C1.
  destruct Ht as [_|c2 o2 o3 _ _ T]; [exact C1|].
  pose proof (star_rel _ _ (keeps_AInv_refl S Ka) (keeps_AInv_trans S Ka) (fun a a' o' => atom_AInv e S Ka x a a' o' Hop) _ _ _ H1 n HA) as [A1 _].
  eapply tick_tail_Custody; [exact Hr| |exact A1|exact T|exact C1].
  apply NU_Stored. exact (acts_Stored _ _ msg_ok_closed _ _ _ _ _ H1 (fun c0 => creates_ok e c0 x) (proj1 (NU_Stored c) HN)).
Qed.

Theorem run_Custody e S Ka K xs : forall c c' oss,
  rid_of K <> -1 -> all_open xs -> W S Ka c -> Custody K c -> run e c xs = (c', oss) -> W S Ka c' /\ Custody K c'.
Proof.
  induction xs as [|x r IH]; intros c c' oss Hr Hop HW HC E; cbn [run] in E.
  - injection E as <- <-. auto.
  - destruct Hop as [Hx Hr']. destruct (step e c x) as [c1 o] eqn:E1. destruct (run e c1 r) as [c2 os] eqn:E2.
    injection E as <- <-. destruct (step_Custody _ _ _ _ _ _ _ _ Hr Hx HW HC E1) as [W1 C1]. eapply IH; eassumption.
Qed.

Lemma W_conn0 S b : 0 < S -> S <= 256 -> TICKS < (RING - 1) * S -> W S 0 (conn0 b).
Proof. intros. split; [constructor; constructor|exists 0; apply AInv_conn0; assumption]. Qed.
