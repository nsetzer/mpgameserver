(* Lemmas about Model/Ser.v, up to the round-trip theorem by structural induction on the value grammar. *)
From Coq Require Import Lia ZifyBool.
From Model Require Import Base Utf8 Ser.
From Proofs Require Import BytesP Utf8P.
Open Scope Z_scope.

Section ValueInd.
  Variable P : value -> Prop.
  Hypothesis HNone : P VNone.
  Hypothesis HBool : forall b, P (VBool b).
  Hypothesis HInt : forall z, P (VInt z).
  Hypothesis HFloat : forall b, P (VFloat b).
  Hypothesis HStr : forall s, P (VStr s).
  Hypothesis HBytes : forall b, P (VBytes b).
  Hypothesis HList : forall l, Forall P l -> P (VList l).
  Hypothesis HTuple : forall l, Forall P l -> P (VTuple l).
  Hypothesis HDict : forall kv, Forall (fun p => P (fst p) /\ P (snd p)) kv -> P (VDict kv).
  Hypothesis HSet : forall l, Forall P l -> P (VSet l).
  Hypothesis HObj : forall t l, Forall P l -> P (VObj t l).
  Hypothesis HEnum : forall t x, P x -> P (VEnum t x).
  Hypothesis HUnsup : P VUnsup.

  Fixpoint value_ind' (v : value) : P v :=
    let go := fix go (l : list value) : Forall P l :=
      match l with
      | [] => Forall_nil P
      | x :: r => Forall_cons x (value_ind' x) (go r)
      end in
    match v with
    | VNone => HNone
    | VBool b => HBool b
    | VInt z => HInt z
    | VFloat b => HFloat b
    | VStr s => HStr s
    | VBytes b => HBytes b
    | VList l => HList l (go l)
    | VTuple l => HTuple l (go l)
    | VDict kv =>
        HDict kv ((fix gd (l : list (value * value)) : Forall (fun p => P (fst p) /\ P (snd p)) l :=
                     match l with
                     | [] => Forall_nil _
                     | p :: r => Forall_cons p (conj (value_ind' (fst p)) (value_ind' (snd p))) (gd r)
                     end) kv)
    | VSet l => HSet l (go l)
    | VObj t l => HObj t l (go l)
    | VEnum t x => HEnum t x (value_ind' x)
    | VUnsup => HUnsup
    end.
End ValueInd.

Lemma sbind_ok {A B} (r : sres A) (f : A -> sres B) b :
  sbind r f = SOk b <-> exists a, r = SOk a /\ f a = SOk b.
Proof.
  destruct r as [a|e]; cbn; (split; [intro H | intros (a' & E & H)]);
    [eauto | injection E as <-; exact H | discriminate | discriminate].
Qed.

Lemma sbind_ret_ok {A B} (r : sres A) (g : A -> B) b :
  (dos a <- r; SOk (g a)) = SOk b <-> exists a, r = SOk a /\ g a = b.
Proof.
  rewrite sbind_ok. split; intros (a & E & H); exists a; [apply SOk_inj in H | rewrite H]; auto.
Qed.

Lemma mapM_cons {A B} (f : A -> sres B) x r :
  mapM f (x :: r) = dos y <- f x; dos ys <- mapM f r; SOk (y :: ys).
Proof. reflexivity. Qed.

Lemma mapM_Forall2 {A B} (f : A -> sres B) l ys :
  mapM f l = SOk ys <-> Forall2 (fun x y => f x = SOk y) l ys.
Proof.
  revert ys. induction l as [|x r IH]; intro ys.
  - split; [intros [= <-]; constructor | inversion 1; reflexivity].
  - rewrite mapM_cons, sbind_ok. split.
    + intros (y & Ey & H). apply sbind_ok in H as (ys' & Er & [= <-]).
      constructor; [exact Ey | apply IH, Er].
    + inversion 1 as [|? y ? ys' Ey Er]; subst. exists y. split; [exact Ey|].
      apply IH in Er. rewrite Er. reflexivity.
Qed.

Lemma mapM_length {A B} (f : A -> sres B) l ys : mapM f l = SOk ys -> length ys = length l.
Proof. intro H. apply mapM_Forall2 in H. induction H; cbn; congruence. Qed.

Lemma mapM_total {A B} (f : A -> sres B) (P : A -> Prop) l :
  Forall (fun x => (exists y, f x = SOk y) <-> P x) l ->
  ((exists ys, mapM f l = SOk ys) <-> Forall P l).
Proof.
  induction 1 as [|x r Hx _ IH]; [split; [constructor | exists []; reflexivity]|]. split.
  - intros (ys & H). rewrite mapM_cons in H. apply sbind_ok in H as (y & Ey & H).
    apply sbind_ok in H as (ys' & Er & _). constructor; [apply Hx | apply IH]; eauto.
  - intros H. inversion H as [|? ? Px Pr]; subst. apply Hx in Px as (y & Ey). apply IH in Pr as (ys & Er).
    exists (y :: ys). rewrite mapM_cons, Ey, Er. reflexivity.
Qed.

Lemma mapM_ok_post {A B} (f : A -> sres B) (Q : B -> Prop) l :
  Forall (fun x => exists y, f x = SOk y /\ Q y) l -> exists ys, mapM f l = SOk ys /\ Forall Q ys.
Proof.
  induction 1 as [|x r (y & Ey & Qy) _ (ys & Er & Qr)]; [exists []; split; [reflexivity | constructor]|].
  exists (y :: ys). rewrite mapM_cons, Ey, Er. split; [reflexivity | constructor; assumption].
Qed.

Lemma mapM_id {A} (f : A -> sres A) l : Forall (fun x => f x = SOk x) l -> mapM f l = SOk l.
Proof. induction 1 as [|x r Hx _ IH]; [reflexivity|]. rewrite mapM_cons, Hx, IH. reflexivity. Qed.

Notation "'dom' x <- r ; k" := (mbind r (fun x => k)) (at level 200, x pattern, r at level 100, k at level 200).

Definition Runs {A} (m : M A) (i : list byte) (a : A) (o : list byte) : Prop :=
  forall s, rem s = i -> exists s', m s = (SOk a, s') /\ rem s' = o.

Lemma Runs_ret : forall A (a : A) i, Runs (ret a) i a i.
Proof. intros A a i s Hs. exists s. split; [reflexivity | assumption]. Qed.

Lemma Runs_bind : forall A B (m : M A) (f : A -> M B) i a mid b o,
  Runs m i a mid -> Runs (f a) mid b o -> Runs (mbind m f) i b o.
Proof.
  intros A B m f i a mid b o H1 H2 s Hs.
  destruct (H1 s Hs) as [s1 [E1 R1]]. destruct (H2 s1 R1) as [s2 [E2 R2]].
  exists s2. unfold mbind. rewrite E1. split; assumption.
Qed.

Lemma Runs_conv : forall A (m : M A) i a o, Runs m i a o -> Runs (conv m) i a o.
Proof.
  intros A m i a o H s Hs. destruct (H s Hs) as [s' [E R]].
  exists s'. unfold conv. rewrite E. split; [reflexivity | assumption].
Qed.

Lemma Runs_tick : forall i, Runs tick_val i tt i.
Proof. intros i s Hs. eexists. split; [reflexivity | exact Hs]. Qed.

Lemma Runs_read : forall bs rest n, n = len bs -> Runs (m_read n) (bs ++ rest) bs rest.
Proof.
  intros bs rest n Hn s Hs. unfold m_read. rewrite Hs.
  replace (n <? 0) with false by (unfold len in Hn; lia).
  replace (Z.to_nat n) with (length bs) by (unfold len in Hn; lia).
  rewrite firstn_app_exact, skipn_app_exact. eexists. split; reflexivity.
Qed.

Lemma Runs_rd : forall f bs rest k, k = len bs -> Runs (rd (S f) k) (bs ++ rest) bs rest.
Proof.
  intros f bs rest k Hk. unfold rd.
  eapply Runs_bind; [apply Runs_read; exact Hk|].
  replace (len bs =? k) with true by lia. apply Runs_ret.
Qed.

Lemma Runs_rep : forall A (m : M A) (xs : list A) (bss : list (list byte)) rest,
  Forall2 (fun x bs => forall r, Runs m (bs ++ r) x r) xs bss ->
  Runs (rep (length xs) m) (concat bss ++ rest) xs rest.
Proof.
  intros A m xs bss rest H. induction H as [|x bs xs bss Hx _ IH].
  - cbn. apply Runs_ret.
  - cbn [length rep concat]. rewrite <- app_assoc.
    eapply Runs_bind; [apply Hx|]. eapply Runs_bind; [apply IH|]. apply Runs_ret.
Qed.

Lemma Runs_dec_fields : forall (sub : M value) xs bss rest,
  Forall2 (fun x bs => forall r, Runs sub (bs ++ r) x r) xs bss ->
  forall defs, length defs = length xs ->
  Runs (dec_fields sub (len xs) defs) (concat bss ++ rest) xs rest.
Proof.
  intros sub xs bss rest H. induction H as [|x bs xs bss Hx _ IH]; intros defs Hd.
  - destruct defs; [|discriminate]. cbn. apply Runs_ret.
  - destruct defs as [|d ds]; [discriminate|]. cbn [dec_fields].
    rewrite len_cons. pose proof (len_nonneg xs). replace (1 + len xs <=? 0) with false by lia.
    cbn [concat]. rewrite <- app_assoc.
    eapply Runs_bind; [apply Hx|].
    replace (1 + len xs - 1) with (len xs) by lia.
    eapply Runs_bind; [apply IH; cbn in Hd; lia|]. apply Runs_ret.
Qed.

Lemma tag_len : forall t, len (tag t) = 2.
Proof. intro t. apply (be_enc_len 2). Qed.

Lemma tag_dec : forall t, 0 <= t < 65536 -> be_dec (tag t) = t.
Proof. intros t H. unfold tag. rewrite be_dec_enc. apply Z.mod_small. exact H. Qed.

Lemma tid_ok_inv t : tid_ok t = true -> 0 <= t < 65536 /\ base_kind t = None /\ tid_packable t = true.
Proof. unfold tid_ok, tid_packable. destruct (base_kind t); [lia | split; [lia | split; [reflexivity | lia]]]. Qed.

(* serialize_int: the width chosen by |z|, and the reader registered under its tag *)
Lemma enc_int_cases z :
  if (- 2 ^ 63 <=? z) && (z <? 2 ^ 63)
  then exists n t k, enc_int z = SOk (tag t ++ be_enc n z) /\ (0 < n)%nat /\
         - 256 ^ Z.of_nat n <= 2 * z < 256 ^ Z.of_nat n /\ 0 <= t < 65536 /\ base_kind t = Some k /\
         forall fc sub f, dec_base fc sub f k = (dom b <- rd f (Z.of_nat n); ret (VInt (be_dec_signed b)))
  else enc_int z = SErr (SE EValue).
Proof.
  unfold enc_int. destruct ((- 2 ^ 63 <=? z) && (z <? 2 ^ 63)) eqn:Hr.
  - destruct (0x7FFFFFFF <? Z.abs z) eqn:E1; [exists 8%nat, 6, KI64|
    destruct (0x7FFF <? Z.abs z) eqn:E2; [exists 4%nat, 5, KI32|
    destruct (0x7F <? Z.abs z) eqn:E3; [exists 2%nat, 4, KI16 | exists 1%nat, 3, KI8]]];
      repeat split; try reflexivity; lia.
  - replace (0x7FFFFFFF <? Z.abs z) with true by lia. reflexivity.
Qed.

Lemma enc_int_SOk z : (exists bs, enc_int z = SOk bs) <-> - 2 ^ 63 <= z < 2 ^ 63.
Proof.
  pose proof (enc_int_cases z) as H. destruct ((- 2 ^ 63 <=? z) && (z <? 2 ^ 63)) eqn:Hr.
  - destruct H as (n & t & k & -> & _). split; [lia | eauto].
  - rewrite H. split; [intros [bs [=]] | lia].
Qed.

Lemma enc_len_total {A} (l : list A) : len l < 2 ^ 63 -> exists h, enc_int (len l) = SOk h.
Proof. intro H. apply enc_int_SOk. pose proof (len_nonneg l). lia. Qed.

Definition enc_body {A} (e : A -> sres (list byte)) (t : Z) (l : list A) : sres (list byte) :=
  dos h <- enc_int (len l); dos body <- mapM e l; SOk (tag t ++ h ++ concat body).

Lemma enc_body_ok {A} (e : A -> sres (list byte)) t l bs :
  enc_body e t l = SOk bs <->
  exists h bodies, enc_int (len l) = SOk h /\ mapM e l = SOk bodies /\ bs = tag t ++ h ++ concat bodies.
Proof.
  unfold enc_body. rewrite sbind_ok. split.
  - intros (h & Eh & H). apply sbind_ok in H as (b & Eb & [= <-]). eauto.
  - intros (h & b & Eh & Eb & ->). exists h. rewrite Eb. auto.
Qed.

Lemma enc_counted_ok {A} (e : A -> sres (list byte)) t l bs :
  (if MAXA <? len l then SErr (SE EValue) else enc_body e t l) = SOk bs <->
  len l <= MAXA /\
  exists h bodies, enc_int (len l) = SOk h /\ mapM e l = SOk bodies /\ bs = tag t ++ h ++ concat bodies.
Proof.
  rewrite <- enc_body_ok. destruct (MAXA <? len l) eqn:E.
  - split; [discriminate | lia].
  - split; [split; [lia | assumption] | tauto].
Qed.

Section Dec.
  Variable fc : fconv.
  Variable pk : value -> option serr.
  Variable reg : registry.

  Notation dv := (dec_value fc pk reg).
  Notation encv := (enc fc reg).
  Notation normv := (norm fc).
  Definition enc_pair (p : value * value) : sres (list byte) :=
    let '(k, x) := p in dos a <- encv k; dos b <- encv x; SOk (a ++ b).
  Definition norm_pair (p : value * value) : sres (value * value) :=
    let '(k, x) := p in dos a <- normv k; dos b <- normv x; SOk (a, b).

  Lemma enc_seq_eq : forall l, encv (VList l) = if MAXA <? len l then SErr (SE EValue) else enc_body encv 16 l.
  Proof. reflexivity. Qed.
  Lemma enc_tuple_eq : forall l, encv (VTuple l) = encv (VList l).
  Proof. reflexivity. Qed.
  Lemma enc_set_eq : forall l, encv (VSet l) = if MAXA <? len l then SErr (SE EValue) else enc_body encv 18 l.
  Proof. reflexivity. Qed.
  Lemma enc_dict_eq : forall kv, encv (VDict kv) = if MAXA <? len kv then SErr (SE EValue) else enc_body enc_pair 17 kv.
  Proof. reflexivity. Qed.
  Lemma enc_obj_eq : forall t fs, encv (VObj t fs) = if tid_packable t then enc_body encv t fs else SErr (SE EStruct).
  Proof. reflexivity. Qed.
  Lemma enc_enum_eq : forall t x, encv (VEnum t x) =
    if tid_packable t then
      match reg_find reg t with
      | Some (CEnum ms) =>
          if hashable x then
            dos m <- mem_py x ms;
            if m then dos b <- encv x; SOk (tag t ++ b) else SErr (SE EValue)
          else SErr (SE EType)
      | _ => SErr (SE EOther)
      end
    else SErr (SE EStruct).
  Proof. reflexivity. Qed.

  Lemma norm_list_eq : forall l, normv (VList l) = dos l' <- mapM normv l; SOk (VList l').
  Proof. reflexivity. Qed.
  Lemma norm_set_eq : forall l, normv (VSet l) =
    dos l' <- mapM normv l; dos s <- set_build [] l'; SOk (VSet s).
  Proof. reflexivity. Qed.
  Lemma norm_dict_eq : forall kv, normv (VDict kv) =
    dos kv' <- mapM norm_pair kv; dos d <- dict_build [] kv'; SOk (VDict d).
  Proof. reflexivity. Qed.
  Lemma norm_obj_eq : forall t fs, normv (VObj t fs) = dos fs' <- mapM normv fs; SOk (VObj t fs').
  Proof. reflexivity. Qed.
  Lemma norm_enum_eq : forall t x, normv (VEnum t x) = dos x' <- normv x; SOk (VEnum t x').
  Proof. reflexivity. Qed.

  (* one deserialize_value call on a stream that starts with a whole type id *)
  Lemma Runs_dv t f i v o : 0 <= t < 65536 -> (2 <= f)%nat ->
    Runs (match base_kind t with
          | Some k => dec_base fc (dv (f - 2)) (f - 2) k
          | None => match reg_find reg t with
                    | Some c => dec_cls pk (dv (f - 2)) t c
                    | None => fail SHeader
                    end
          end) i v o ->
    Runs (dv f) (tag t ++ i) v o.
  Proof.
    intros Ht Hf H. replace f with (S (S (f - 2))) at 1 by lia.
    change (dv (S (S (f - 2)))) with (dec_body fc pk reg (dv (f - 2)) (S (f - 2))). unfold dec_body.
    eapply Runs_bind; [apply Runs_tick|].
    eapply Runs_bind; [apply Runs_read; symmetry; apply tag_len|].
    rewrite tag_len. cbn [Z.eqb Pos.eqb negb]. rewrite (tag_dec t Ht).
    destruct (base_kind t); [apply Runs_conv, H|].
    destruct (reg_find reg t); [apply Runs_conv, H | exact H].
  Qed.

  Lemma Runs_leaf t k n (g : list byte -> value) bs v f rest :
    0 <= t < 65536 -> base_kind t = Some k -> (3 <= f)%nat -> n = len bs -> g bs = v ->
    (forall sub f2, dec_base fc sub f2 k = (dom b <- rd f2 n; ret (g b))) ->
    Runs (dv f) ((tag t ++ bs) ++ rest) v rest.
  Proof.
    intros Ht Hk Hf Hn <- Hd. rewrite <- app_assoc. apply Runs_dv; [exact Ht | lia |].
    rewrite Hk, Hd. replace (f - 2)%nat with (S (f - 3)) by lia.
    eapply Runs_bind; [apply Runs_rd; exact Hn | apply Runs_ret].
  Qed.

  Lemma Runs_int z bs f rest :
    enc_int z = SOk bs -> (3 <= f)%nat -> Runs (dv f) (bs ++ rest) (VInt z) rest.
  Proof.
    intros E Hf. pose proof (enc_int_cases z) as H.
    destruct ((- 2 ^ 63 <=? z) && (z <? 2 ^ 63)); [|congruence].
    destruct H as (n & t & k & E' & Hn & Hz & Ht & Hk & Hd). rewrite E' in E. injection E as <-.
    eapply Runs_leaf; [exact Ht | exact Hk | exact Hf | symmetry; apply be_enc_len | | apply Hd].
    cbv beta. rewrite be_dec_signed_enc by assumption. reflexivity.
  Qed.

  Lemma Runs_len n h cap f rest :
    enc_int n = SOk h -> n <= cap -> (3 <= f)%nat -> Runs (dec_len (dv f) cap) (h ++ rest) n rest.
  Proof.
    intros E Hc Hf. unfold dec_len. eapply Runs_bind; [apply Runs_int; eassumption|].
    cbn [as_len]. replace (cap <? n) with false by lia. apply Runs_ret.
  Qed.

  Lemma Runs_decode fuel i v o : Runs (dv fuel) i v o -> decode fc pk reg fuel i = SOk (v, o).
  Proof. intro H. destruct (H (st0 i) eq_refl) as (s' & E & R). unfold decode. rewrite E, R. reflexivity. Qed.

  (* used by the float case of [roundtrip_value] only *)
  Hypothesis fc_range : forall b w, to32 fc b = SOk w -> 0 <= w < 2 ^ 32.
  Definition RT (v : value) : Prop :=
    forall nv bs, wf fc reg v -> normv v = SOk nv -> encv v = SOk bs ->
    forall f rest, (need v <= f)%nat -> Runs (dv f) (bs ++ rest) nv rest.

  Lemma RT_list l l' bodies f :
    Forall RT l -> Forall (wf fc reg) l ->
    mapM normv l = SOk l' -> mapM encv l = SOk bodies -> (forall x, In x l -> (need x <= f)%nat) ->
    Forall2 (fun y b => forall r, Runs (dv f) (b ++ r) y r) l' bodies.
  Proof.
    intros HR Hw Hn. apply mapM_Forall2 in Hn. revert bodies HR Hw.
    induction Hn as [|x y l l' Hxy _ IH]; intros bodies HR Hw He Hf;
      apply mapM_Forall2 in He; inversion He as [|? b ? bs' Hxb Hrest]; subst; constructor.
    - intro r. apply (Forall_inv HR); [apply (Forall_inv Hw) | exact Hxy | exact Hxb | apply Hf; left; reflexivity].
    - apply IH; [exact (Forall_inv_tail HR) | exact (Forall_inv_tail Hw) | apply mapM_Forall2, Hrest |].
      intros z Hz. apply Hf. right. exact Hz.
  Qed.

  Lemma RT_dict kv kv' bodies f :
    Forall (fun p => RT (fst p) /\ RT (snd p)) kv ->
    Forall (fun p => wf fc reg (fst p) /\ wf fc reg (snd p)) kv ->
    mapM norm_pair kv = SOk kv' -> mapM enc_pair kv = SOk bodies ->
    (forall p, In p kv -> (Nat.max (need (fst p)) (need (snd p)) <= f)%nat) ->
    forall acc d rest, dict_build acc kv' = SOk d ->
      Runs (dec_map_loop (dv f) (length kv) acc) (concat bodies ++ rest) d rest.
  Proof.
    intros HR Hw Hn. apply mapM_Forall2 in Hn. revert bodies HR Hw.
    induction Hn as [|[k x] [nk nx] kv kv' Hp _ IH]; intros bodies HR Hw He Hf acc d rest Hd;
      apply mapM_Forall2 in He; inversion He as [|? b ? bs' Hb Hrest]; subst.
    - injection Hd as <-. apply Runs_ret.
    - cbn [norm_pair] in Hp. apply sbind_ok in Hp as (nk' & Ek & Hp). apply sbind_ok in Hp as (nx' & Ex & [= <- <-]).
      cbn [enc_pair] in Hb. apply sbind_ok in Hb as (bk & Ebk & Hb). apply sbind_ok in Hb as (bx & Ebx & [= <-]).
      cbn [dict_build] in Hd. apply sbind_ok in Hd as (acc' & Ep & Hd).
      destruct (Forall_inv HR) as [Rk Rx]. destruct (Forall_inv Hw) as [Wk Wx]. cbn [fst snd] in *.
      pose proof (Hf (k, x) (or_introl eq_refl)) as Hfk. cbn [fst snd] in Hfk.
      cbn [length dec_map_loop concat]. rewrite <- !app_assoc.
      eapply Runs_bind; [apply (Rk _ _ Wk Ek Ebk); lia|].
      eapply Runs_bind; [apply (Rx _ _ Wx Ex Ebx); lia|].
      rewrite Ep. eapply Runs_bind; [apply (Runs_ret _ acc')|].
      apply IH; [exact (Forall_inv_tail HR) | exact (Forall_inv_tail Hw) | apply mapM_Forall2, Hrest | | exact Hd].
      intros p Hin. apply Hf. right. exact Hin.
  Qed.

  (* list, tuple and set: the declared length, that many elements, then what the kind does with them *)
  Lemma RT_counted l l' bodies h f (k : list value -> M value) v rest :
    Forall RT l -> lall (wf fc reg) l -> mapM normv l = SOk l' -> mapM encv l = SOk bodies ->
    enc_int (len l) = SOk h -> len l <= MAXA ->
    (2 + fold_right (fun x a => Nat.max (need x) a) 3 l <= f)%nat ->
    Runs (k l') rest v rest ->
    Runs (dom n <- dec_len (dv (f - 2)) MAXA; dom xs <- rep (Z.to_nat n) (dv (f - 2)); k xs)
         (h ++ concat bodies ++ rest) v rest.
  Proof.
    intros HR Hw En Eb Eh Hl Hf Hk. apply lall_Forall in Hw.
    destruct (fold_max_ge need 3%nat l) as [H3 Hmax].
    eapply Runs_bind; [apply Runs_len; [exact Eh | exact Hl | lia]|].
    replace (Z.to_nat (len l)) with (length l') by (rewrite (mapM_length _ _ _ En); unfold len; lia).
    eapply Runs_bind; [apply Runs_rep, (RT_list l l' bodies); auto | exact Hk].
    intros x Hx. specialize (Hmax x Hx). lia.
  Qed.

  Lemma RT_seq l : Forall RT l -> RT (VList l).
  Proof.
    intros H nv bs [Hl Hw] Hn He f rest Hf. cbn [need] in Hf.
    rewrite norm_list_eq in Hn. apply sbind_ret_ok in Hn as (l' & En & <-).
    rewrite enc_seq_eq in He. apply enc_counted_ok in He as (_ & h & bodies & Eh & Eb & ->).
    rewrite <- !app_assoc. apply Runs_dv; [lia | lia |]. cbn [base_kind Z.eqb Pos.eqb dec_base].
    eapply RT_counted; eauto. apply Runs_ret.
  Qed.

  Lemma wf_fold_Forall : forall l, fold_right (fun x P => wf fc reg x /\ P) True l -> Forall (wf fc reg) l.
  (* [pk] does not occur in the statement: it is listed so that the lemma takes the same three section
     arguments as its neighbours. *)
  Proof using fc pk reg. intro l. apply lall_Forall. Qed.

  Theorem roundtrip_value : forall v, RT v.
  Proof.
    induction v using value_ind'; intros nv bs Hwf Hn He f rest Hf; cbn [need] in Hf.
    -
      injection Hn as <-. injection He as <-.
      apply Runs_dv; [lia | lia |]. apply Runs_ret.
    -
      injection Hn as <-. injection He as <-.
      eapply Runs_leaf with (k := KBool) (g := fun b => VBool (negb (be_dec b =? 0)));
        [lia | reflexivity | lia | reflexivity | destruct b; reflexivity | reflexivity].
    -
      injection Hn as <-. apply Runs_int; [exact He | lia].
    -
      cbn [norm] in Hn. apply sbind_ret_ok in Hn as (w & Hw & <-).
      cbn [enc] in He. rewrite Hw in He. apply SOk_inj in He. subst bs.
      eapply Runs_leaf with (k := KF32) (g := fun b => VFloat (of32 fc (be_dec b)));
        [lia | reflexivity | lia | symmetry; apply (be_enc_len 4) | | reflexivity].
      cbv beta. rewrite be_dec_enc. change (256 ^ Z.of_nat 4) with (2 ^ 32).
      rewrite Z.mod_small by (eapply fc_range; exact Hw). reflexivity.
    -
      injection Hn as <-. destruct Hwf as [u [Hu Hl]]. cbn [enc] in He. rewrite Hu in He.
      replace (MAXB <? len u) with false in He by lia. apply sbind_ret_ok in He as (h & Eh & <-).
      rewrite <- !app_assoc. apply Runs_dv; [lia | lia |]. cbn [base_kind Z.eqb Pos.eqb dec_base].
      eapply Runs_bind; [apply Runs_len; [exact Eh | exact Hl | lia]|].
      eapply Runs_bind; [apply Runs_read; reflexivity|].
      rewrite (utf8_roundtrip _ _ Hu). apply Runs_ret.
    -
      injection Hn as <-. cbn [wf] in Hwf. cbn [enc] in He.
      replace (MAXB <? len b) with false in He by lia. apply sbind_ret_ok in He as (h & Eh & <-).
      rewrite <- !app_assoc. apply Runs_dv; [lia | lia |]. cbn [base_kind Z.eqb Pos.eqb dec_base].
      eapply Runs_bind; [apply Runs_len; [exact Eh | exact Hwf | lia]|].
      eapply Runs_bind; [apply Runs_read; reflexivity | apply Runs_ret].
    - exact (RT_seq l H nv bs Hwf Hn He f rest Hf).
    - exact (RT_seq l H nv bs Hwf Hn He f rest Hf).
    -
      destruct Hwf as [Hl Hw]. apply kvall_Forall in Hw.
      rewrite norm_dict_eq in Hn. apply sbind_ok in Hn as (kv' & En & Hn). apply sbind_ret_ok in Hn as (d & Ed & <-).
      rewrite enc_dict_eq in He. apply enc_counted_ok in He as (_ & h & bodies & Eh & Eb & ->).
      destruct (fold_max_ge (fun p => Nat.max (need (fst p)) (need (snd p))) 3%nat kv) as [H3 Hmax].
      rewrite <- !app_assoc. apply Runs_dv; [lia | lia |]. cbn [base_kind Z.eqb Pos.eqb dec_base].
      eapply Runs_bind; [apply Runs_len; [exact Eh | exact Hl | lia]|].
      replace (Z.to_nat (len kv)) with (length kv) by (unfold len; lia).
      eapply Runs_bind; [eapply RT_dict; eauto | apply Runs_ret].
      intros p Hp. specialize (Hmax p Hp). cbv beta in Hmax. lia.
    -
      destruct Hwf as [Hl Hw].
      rewrite norm_set_eq in Hn. apply sbind_ok in Hn as (l' & En & Hn). apply sbind_ret_ok in Hn as (s & Es & <-).
      rewrite enc_set_eq in He. apply enc_counted_ok in He as (_ & h & bodies & Eh & Eb & ->).
      rewrite <- !app_assoc. apply Runs_dv; [lia | lia |]. cbn [base_kind Z.eqb Pos.eqb dec_base].
      eapply RT_counted; eauto. rewrite Es. eapply Runs_bind; [apply (Runs_ret _ s) | apply Runs_ret].
    -
      destruct Hwf as (Ht & (defs & Hc & Hd) & Hl & Hw). apply lall_Forall in Hw.
      apply tid_ok_inv in Ht as (Ht & Hbk & Hp).
      rewrite norm_obj_eq in Hn. apply sbind_ret_ok in Hn as (l' & En & <-).
      rewrite enc_obj_eq, Hp in He. apply enc_body_ok in He as (h & bodies & Eh & Eb & ->).
      destruct (fold_max_ge need 3%nat l) as [H3 Hmax].
      rewrite <- !app_assoc. apply Runs_dv; [exact Ht | lia |]. rewrite Hbk, Hc. cbn [dec_cls].
      eapply Runs_bind; [apply Runs_int; [exact Eh | lia]|]. cbn [as_len].
      pose proof (mapM_length _ _ _ En) as Hlen.
      replace (len l) with (len l') by (unfold len; lia).
      eapply Runs_bind; [apply Runs_dec_fields; [apply (RT_list l l' bodies); auto | lia] | apply Runs_ret].
      intros x Hx. specialize (Hmax x Hx). lia.
    -
      destruct Hwf as (Ht & (ms & Hc & Hm) & Hh & Hw). apply tid_ok_inv in Ht as (Ht & Hbk & Hp).
      rewrite norm_enum_eq in Hn. apply sbind_ret_ok in Hn as (x' & En & <-).
      rewrite enc_enum_eq, Hp, Hc, Hh, Hm in He. apply sbind_ret_ok in He as (bx & Ebx & <-).
      rewrite <- app_assoc. apply Runs_dv; [exact Ht | lia |]. rewrite Hbk, Hc. cbn [dec_cls].
      eapply Runs_bind; [apply (IHv _ _ Hw En Ebx); lia | apply Runs_ret].
    - destruct Hwf.
  Qed.

End Dec.
