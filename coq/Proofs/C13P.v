(* C13P.v — [decode_seq] and [accepts], of which the statements of Properties/C13.v speak, and the
   proofs of those statements. *)
From Coq Require Import Lia ZifyBool.
From Model Require Import Base Utf8 Ser.
From Proofs Require Import BytesP SerP.
Open Scope Z_scope.

(* k values read one after another from one stream (k calls of deserialize_value / loadb) *)
Fixpoint decode_seq (fc : fconv) (pk : value -> option serr) (reg : registry) (fuel : nat) (k : nat)
                    (bs : list byte) : sres (list value * list byte) :=
  match k with
  | O => SOk ([], bs)
  | S k' =>
      dos p <- decode fc pk reg fuel bs;
      dos q <- decode_seq fc pk reg fuel k' (snd p);
      SOk (fst p :: fst q, snd q)
  end.

(* what serialize_value accepts (the registry only matters for enum members): the domain of the
   encoder.  wf = accepts + "object classes are registered with that many fields, class ids are
   not shadowed by base type ids" *)
Fixpoint accepts (fc : fconv) (reg : registry) (v : value) : Prop :=
  match v with
  | VNone | VBool _ => True
  | VInt z => - 2 ^ 63 <= z < 2 ^ 63
  | VFloat b => exists w, to32 fc b = SOk w
  | VStr s => exists bs, utf8_encode s = Some bs /\ len bs <= MAXB
  | VBytes bs => len bs <= MAXB
  | VList l | VTuple l | VSet l => len l <= MAXA /\ fold_right (fun x P => accepts fc reg x /\ P) True l
  | VDict kv =>
      len kv <= MAXA /\ fold_right (fun p P => accepts fc reg (fst p) /\ accepts fc reg (snd p) /\ P) True kv
  | VObj t fs =>
      tid_packable t = true /\ len fs < 2 ^ 63 /\ fold_right (fun x P => accepts fc reg x /\ P) True fs
  | VEnum t x =>
      tid_packable t = true /\ (exists ms, reg_find reg t = Some (CEnum ms) /\ mem_py x ms = SOk true)
      /\ hashable x = true /\ accepts fc reg x
  | VUnsup => False
  end.

Section C13.
  Variable fc : fconv.
  Variable pk : value -> option serr.
  Variable reg : registry.

  Notation encv := (enc fc reg).
  Notation acc := (accepts fc reg).

  Theorem enc_iff_accepts : forall v, (exists bs, encv v = SOk bs) <-> acc v.
  Proof.
    assert (Hlen : forall A (l : list A), len l <= MAXA -> exists h, enc_int (len l) = SOk h).
    { intros A l H. apply enc_len_total. unfold MAXA in H. lia. }
    assert (Hcnt : forall A (e : A -> sres (list byte)) t l,
              (exists bs, (if MAXA <? len l then SErr (SE EValue) else enc_body e t l) = SOk bs)
              <-> len l <= MAXA /\ exists bodies, mapM e l = SOk bodies).
    { intros A e t l. split.
      - intros (bs & H). apply enc_counted_ok in H as (Hl & _ & bodies & _ & Eb & _). eauto.
      - intros (Hl & bodies & Eb). destruct (Hlen _ l Hl) as [h Eh]. eexists. apply enc_counted_ok. eauto 6. }
    induction v using value_ind'; cbn [accepts].
    - split; [trivial | eexists; reflexivity].
    - split; [trivial | eexists; reflexivity].
    - apply enc_int_SOk.
    - cbn [enc]. split; intros (x & H); [apply sbind_ok in H as (w & Hw & _); eauto | rewrite H; eexists; reflexivity].
    - cbn [enc]. destruct (utf8_encode s) as [u|]; [|split; [intros [? [=]] | intros (? & [=] & _)]].
      destruct (MAXB <? len u) eqn:El.
      + split; [intros [? [=]] | intros (? & [= <-] & ?); lia].
      + destruct (enc_len_total u) as [h ->]; [unfold MAXB in *; lia|]. split; [exists u; split; [reflexivity | lia] | eexists; reflexivity].
    - cbn [enc]. destruct (MAXB <? len b) eqn:El; [split; [intros [? [=]] | lia]|].
      destruct (enc_len_total b) as [h ->]; [unfold MAXB in *; lia|]. split; [lia | eexists; reflexivity].
    - rewrite enc_seq_eq, Hcnt, (mapM_total _ _ _ H), <- lall_Forall. reflexivity.
    - rewrite enc_tuple_eq, enc_seq_eq, Hcnt, (mapM_total _ _ _ H), <- lall_Forall. reflexivity.
    - rewrite enc_dict_eq, Hcnt, (mapM_total _ (fun p => acc (fst p) /\ acc (snd p))), <- kvall_Forall; [reflexivity|].
      eapply Forall_impl; [|exact H]. intros [k x] [Hk Hx]. cbn [fst snd enc_pair] in *. rewrite <- Hk, <- Hx. split.
      + intros (y & Hy). apply sbind_ok in Hy as (a & Ea & Hy). apply sbind_ok in Hy as (b & Eb & _). eauto.
      + intros ((a & ->) & (b & ->)). eexists. reflexivity.
    - rewrite enc_set_eq, Hcnt, (mapM_total _ _ _ H), <- lall_Forall. reflexivity.
    - rewrite enc_obj_eq. change (fold_right _ True l) with (lall acc l). rewrite lall_Forall, <- (mapM_total _ _ _ H).
      destruct (tid_packable t); [|split; [intros [? [=]] | intros [[=] _]]]. split.
      + intros (bs & Hb). apply enc_body_ok in Hb as (h & bodies & Eh & Eb & _).
        split; [reflexivity|]. split; [apply enc_int_SOk; eauto | eauto].
      + intros (_ & Hl & bodies & Eb). destruct (enc_len_total l Hl) as [h Eh].
        eexists. apply enc_body_ok. eauto 6.
    - rewrite enc_enum_eq. destruct (tid_packable t); [|split; [intros [? [=]] | intros [[=] _]]]. split.
      + intros (bs & Hb). destruct (reg_find reg t) as [[d|ms|b|]|]; try discriminate.
        destruct (hashable v) eqn:Eh; [|discriminate]. apply sbind_ok in Hb as ([|] & Em & Hb); [|discriminate].
        apply sbind_ok in Hb as (b & Eb & _). repeat split; [eauto.. | apply IHv; eauto].
      + intros (_ & (ms & -> & ->) & -> & Hx). apply IHv in Hx as (b & ->). eexists. reflexivity.
    - split; [intros [? [=]] | intros []].
  Qed.

  Lemma wf_accepts : forall v, wf fc reg v -> accepts fc reg v.
  (* [pk] does not occur in the statement: it is listed so that the lemma takes the same three section
     arguments as its neighbours. *)
  Proof using fc pk reg.
    induction v using value_ind'; cbn [wf accepts]; try tauto.
    - intros [Hl Hf]. split; [exact Hl | exact (lall_impl _ _ _ H Hf)].
    - intros [Hl Hf]. split; [exact Hl | exact (lall_impl _ _ _ H Hf)].
    - intros [Hl Hf]. split; [exact Hl | exact (kvall_impl _ _ _ _ _ H Hf)].
    - intros [Hl Hf]. split; [exact Hl | exact (lall_impl _ _ _ H Hf)].
    - intros (Ht & _ & Hl & Hf). apply tid_ok_inv in Ht as (_ & _ & Hp). repeat split; [exact Hp | exact Hl | exact (lall_impl _ _ _ H Hf)].
    - intros (Ht & Hm & Hh & Hx). apply tid_ok_inv in Ht as (_ & _ & Hp). auto.
  Qed.

  Section RoundTrip.
  Hypothesis fc_range : forall b w, to32 fc b = SOk w -> 0 <= w < 2 ^ 32.

  Theorem roundtrip_decode : forall v nv,
    wf fc reg v -> norm fc v = SOk nv ->
    exists bs, encv v = SOk bs /\
      forall fuel rest, (need v <= fuel)%nat -> decode fc pk reg fuel (bs ++ rest) = SOk (nv, rest).
  Proof.
    intros v nv Hwf Hn. destruct (proj2 (enc_iff_accepts v) (wf_accepts v Hwf)) as [bs E].
    exists bs. split; [exact E|]. intros fuel rest Hf.
    apply Runs_decode, (roundtrip_value fc pk reg fc_range v nv bs); assumption.
  Qed.

  Theorem C13_concat_proof : forall vs nvs,
    Forall2 (fun v nv => wf fc reg v /\ norm fc v = SOk nv) vs nvs ->
    exists bss, mapM encv vs = SOk bss /\
      forall fuel rest, (forall v, In v vs -> (need v <= fuel)%nat) ->
        decode_seq fc pk reg fuel (length vs) (concat bss ++ rest) = SOk (nvs, rest).
  Proof.
    induction 1 as [|v nv vs nvs [Hwf Hn] _ [bss [Eb IH]]].
    - exists []. split; [reflexivity|]. intros. reflexivity.
    - destruct (roundtrip_decode v nv Hwf Hn) as [bs [E R]].
      exists (bs :: bss). split; [rewrite mapM_cons, E, Eb; reflexivity|].
      intros fuel rest Hf. cbn [length decode_seq concat]. rewrite <- app_assoc.
      rewrite (R fuel (concat bss ++ rest)) by (apply Hf; left; reflexivity).
      cbn [sbind fst snd]. rewrite IH by (intros y Hy; apply Hf; right; exact Hy).
      reflexivity.
  Qed.

  Theorem C13_self_delimiting_proof : forall v1 v2 n1 n2 b1 b2 r1 r2,
    wf fc reg v1 -> wf fc reg v2 -> norm fc v1 = SOk n1 -> norm fc v2 = SOk n2 ->
    encv v1 = SOk b1 -> encv v2 = SOk b2 ->
    b1 ++ r1 = b2 ++ r2 -> n1 = n2 /\ r1 = r2.
  Proof.
    intros v1 v2 n1 n2 b1 b2 r1 r2 W1 W2 N1 N2 E1 E2 Heq.
    pose proof (roundtrip_value fc pk reg fc_range) as R.
    pose proof (Runs_decode fc pk reg _ _ _ _ (R v1 n1 b1 W1 N1 E1 _ r1 (Nat.le_max_l _ (need v2)))) as D1.
    pose proof (Runs_decode fc pk reg _ _ _ _ (R v2 n2 b2 W2 N2 E2 _ r2 (Nat.le_max_r (need v1) _))) as D2.
    rewrite Heq in D1. rewrite D1 in D2. split; congruence.
  Qed.
  End RoundTrip.

  (* D18: a dict key / set element containing a tuple is accepted and does not decode *)
  Definition d18 : value := VDict [(VTuple [VInt 1; VInt 2], VInt 3)].

  Theorem C13_refuted_proof :
    exists v, wf fc reg v /\
      exists bs, encv v = SOk bs /\
        decode fc pk reg 10 bs = SErr (SE EType) /\ norm fc v = SErr (SE EType).
  Proof.
    exists d18. split.
    - cbn. unfold MAXA. repeat split; lia.
    - eexists. split; [reflexivity|]. split; reflexivity.
  Qed.

End C13.
