(* AuthCfgP.v — hash_password under every configuration of Auth.SALT_LENGTH / Auth.DIGEST_LENGTH
   (Model/AuthCfg.v; hash_password of Model/Auth.v is the configuration default_cfg), composed with
   verify_password, and every history of calls: verify_password reads the parameters from the string, so a
   hash made under ANY setting verifies (and refuses other passwords) under any later setting. *)
From Coq Require Import Lia ZifyBool.
From Model Require Import Base Base64 Auth AuthCfg.
From Proofs Require Import BytesP Base64P AuthP C19P.
Open Scope Z_scope.

Section AuthCfgP.
  Variable sha : list byte -> list byte.
  Variable b64d : list byte -> res (list byte).
  Variable kdf : list byte -> Z -> Z -> Z -> Z -> list byte -> res (list byte).

  Notation hashc := (hash_password_cfg sha kdf).
  Notation verify := (verify_password sha b64d kdf).
  (* the scrypt call of hash_password under the settings c *)
  Definition cfg_digest (c : cfg) (salt p : list byte) : res (list byte) :=
    kdf salt (c_dl c) (k_N std_params) (k_r std_params) (k_p std_params) (sha p).

  Lemma header_cfg_app : forall c d, header_cfg c ++ d = hash_string (b64e (pack_params (cfg_params c))) d.
  Proof. intros c d. unfold header_cfg, hash_string. repeat rewrite <- app_assoc. reflexivity. Qed.

  Lemma default_is_hash_password : forall pw salt,
    hashc default_cfg pw salt = hash_password sha kdf pw salt.
  Proof. intros [p|e|] salt; reflexivity. Qed.

  Lemma hashc_ok_inv : forall c pw salt h, hashc c pw salt = Ok h ->
    exists p out, pw = PBytes p /\ params_in_range (cfg_params c) /\ cfg_digest c salt p = Ok out /\
                  h = hash_string (b64e (pack_params (cfg_params c))) (b64e (salt ++ out)).
  Proof.
    intros c pw salt h H. destruct pw as [p|e|]; try discriminate H. unfold hash_password_cfg in H.
    destruct (byte_rng (c_sl c) && byte_rng (c_dl c)) eqn:R; [|discriminate].
    destruct (kdf salt (c_dl c) (k_N std_params) (k_r std_params) (k_p std_params) (sha p)) as [out|] eqn:E;
      cbn [bind] in H; [|discriminate].
    exists p, out. split; [reflexivity|]. split; [|split; [exact E|]].
    - unfold byte_rng in R. unfold params_in_range. cbn. lia.
    - rewrite header_cfg_app in H. congruence.
  Qed.

  Lemma verify_hashc : b64_roundtrip b64d -> kdf_length kdf ->
    forall c p q salt h, len salt = c_sl c -> 1 <= c_dl c -> hashc c (PBytes p) salt = Ok h ->
    exists out, cfg_digest c salt p = Ok out /\
      verify (PBytes q) (PStr (Ok h)) = (do d <- cfg_digest c salt q; Ok (bytes_eqb d out)).
  Proof.
    intros HB HK c p q salt h Hs Hd H. destruct (hashc_ok_inv _ _ _ _ H) as [p' [out [E [R [Ho ->]]]]].
    inversion E; subst p'. exists out. split; [exact Ho|].
    assert (Lo : len out = c_dl c) by (eapply HK; exact Ho).
    rewrite (verify_wellformed sha b64d kdf HB q (cfg_params c) salt out R);
      cbn [cfg_params k_sl k_len k_N k_r k_p]; try reflexivity; lia.
  Qed.

  Theorem hashc_verify_own : b64_roundtrip b64d -> kdf_length kdf ->
    forall c pw salt h, len salt = c_sl c -> 1 <= c_dl c -> hashc c (PBytes pw) salt = Ok h ->
    verify (PBytes pw) (PStr (Ok h)) = Ok true.
  Proof.
    intros HB HK c pw salt h Hs Hd H. destruct (verify_hashc HB HK c pw pw salt h Hs Hd H) as [out [Ho ->]].
    rewrite Ho. cbn [bind]. rewrite bytes_eqb_refl. reflexivity.
  Qed.

  Theorem hashc_verify_other_iff : b64_roundtrip b64d -> kdf_length kdf ->
    forall c p q salt h, len salt = c_sl c -> 1 <= c_dl c -> hashc c (PBytes p) salt = Ok h ->
    (verify (PBytes q) (PStr (Ok h)) = Ok true <-> cfg_digest c salt q = cfg_digest c salt p).
  Proof.
    intros HB HK c p q salt h Hs Hd H. destruct (verify_hashc HB HK c p q salt h Hs Hd H) as [out [Ho ->]].
    rewrite Ho. destruct (cfg_digest c salt q) as [d|e]; cbn [bind]; split; intro G; try discriminate G.
    - inversion G as [G']. apply bytes_eqb_eq in G'. congruence.
    - inversion G; subst. rewrite bytes_eqb_refl. reflexivity.
  Qed.

  Theorem hashc_verify_other_false : b64_roundtrip b64d -> kdf_length kdf -> kdf_err_params kdf ->
    forall c p q salt h, len salt = c_sl c -> 1 <= c_dl c -> hashc c (PBytes p) salt = Ok h ->
    cfg_digest c salt q <> cfg_digest c salt p ->
    verify (PBytes q) (PStr (Ok h)) = Ok false.
  Proof.
    intros HB HK HE c p q salt h Hs Hd H Hc. destruct (verify_hashc HB HK c p q salt h Hs Hd H) as [out [Ho ->]].
    destruct (cfg_digest c salt q) as [d|e] eqn:Eq; cbn [bind].
    - rewrite bytes_eqb_neq; [reflexivity|]. intro G. apply Hc. congruence.
    - exfalso. unfold cfg_digest in *. rewrite (HE _ _ _ _ _ _ (sha p) _ Eq) in Ho. discriminate.
  Qed.

  (* the string determines the settings and the salt it was made with: every step from (c, salt) to the
     string is injective (struct.pack on bytes, b64encode, the colon-free fields, a salt of known length) *)
  Theorem hashc_inj : forall c1 c2 p1 p2 s1 s2 h, len s1 = c_sl c1 -> len s2 = c_sl c2 ->
    hashc c1 p1 s1 = Ok h -> hashc c2 p2 s2 = Ok h -> c1 = c2 /\ s1 = s2.
  Proof.
    intros c1 c2 p1 p2 s1 s2 h L1 L2 H1 H2.
    destruct (hashc_ok_inv _ _ _ _ H1) as [q1 [o1 [_ [R1 [_ E1]]]]].
    destruct (hashc_ok_inv _ _ _ _ H2) as [q2 [o2 [_ [R2 [_ E2]]]]]. rewrite E1 in E2.
    apply hash_string_inj in E2; try apply b64e_no_colon. destruct E2 as [P D].
    apply b64e_inj, pack_params_inj in P; try assumption. apply b64e_inj in D.
    assert (C : c1 = c2) by (destruct c1, c2; injection P as -> ->; reflexivity).
    split; [exact C|]. subst c2. apply (app_inv_length _ _ _ _ D). unfold len in *. lia.
  Qed.

  Theorem hashc_truncated :
    b64_roundtrip b64d -> b64_prefix_shorter b64d -> b64_err_value b64d -> kdf_length kdf ->
    forall c p q salt h n, len salt = c_sl c -> hashc c (PBytes p) salt = Ok h ->
    (n < length h)%nat ->
    verify (PBytes q) (PStr (Ok (firstn n h))) = Err EValue.
  Proof.
    intros HB HP HE HK c p q salt h n Hs H Hn. destruct (hashc_ok_inv _ _ _ _ H) as [p' [out [_ [R [Hd ->]]]]].
    apply (verify_truncated sha b64d kdf HB HP HE q _ _ n R); [|exact Hn].
    apply HK in Hd. rewrite len_app. cbn [cfg_params k_sl k_len]. lia.
  Qed.

  Theorem hashc_ascii : forall c pw salt h, hashc c pw salt = Ok h ->
    Forall (fun ch => (Byte.to_N ch < 128)%N) h.
  Proof.
    intros c pw salt h H. destruct (hashc_ok_inv _ _ _ _ H) as [p [out [_ [_ [_ ->]]]]]. unfold hash_string.
    apply Forall_app; split; [repeat constructor|]. apply Forall_cons; [reflexivity|].
    apply Forall_app; split; [repeat constructor|]. apply Forall_cons; [reflexivity|].
    apply Forall_app; split; [apply b64e_ascii|]. apply Forall_cons; [reflexivity|apply b64e_ascii].
  Qed.

  Lemma trace_In : forall ops c0 c pw salt r,
    In (c, pw, salt, r) (trace sha kdf c0 ops) -> r = hashc c pw salt.
  Proof.
    induction ops as [|[c'|pw' salt'] ops IH]; intros c0 c pw salt r H; cbn in H.
    - destruct H.
    - eapply IH; exact H.
    - destruct H as [H|H]; [inversion H; reflexivity|eapply IH; exact H].
  Qed.

  Theorem history_verify_own : b64_roundtrip b64d -> kdf_length kdf ->
    forall c0 ops c pw salt h, In (c, PBytes pw, salt, Ok h) (trace sha kdf c0 ops) ->
    len salt = c_sl c -> 1 <= c_dl c ->
    verify (PBytes pw) (PStr (Ok h)) = Ok true.
  Proof.
    intros HB HK c0 ops c pw salt h H Hs Hd. apply trace_In in H.
    eapply hashc_verify_own; eauto.
  Qed.

  Theorem history_distinct :
    forall c0 ops c1 c2 p1 p2 s1 s2 h1 h2,
    In (c1, p1, s1, Ok h1) (trace sha kdf c0 ops) -> In (c2, p2, s2, Ok h2) (trace sha kdf c0 ops) ->
    len s1 = c_sl c1 -> len s2 = c_sl c2 -> (c1 <> c2 \/ s1 <> s2) -> h1 <> h2.
  Proof.
    intros c0 ops c1 c2 p1 p2 s1 s2 h1 h2 H1 H2 L1 L2 Hne E. subst h2.
    apply trace_In in H1. apply trace_In in H2. symmetry in H1, H2.
    destruct (hashc_inj c1 c2 p1 p2 s1 s2 h1 L1 L2 H1 H2) as [C S].
    destruct Hne as [N|N]; [exact (N C)|exact (N S)].
  Qed.
End AuthCfgP.
