(* C07, "a send callback reports success only after the peer endpoint has accepted
   the datagram", over joint histories of two endpoints (Model/Net2.v): one joint invariant J, and read off
   it acked_means_accepted (every datagram resolved as acknowledged), success_registered_accepted (the
   datagram a success callback is registered for) and ack_counted_means_accepted (the acked counter).  Composes
   CallbackP.step_true_P (the sender reports success only for a callback registered for a pending datagram
   that an authentic header names), AckP.AInv (pending sequence numbers are recent indices), AckNamesP / C08's
   window refinement R (the ack fields an endpoint emits name indices it has accepted) and
   NonceP.step_built (every packet assembly consumes exactly one sequence number). *)
From Coq Require Import Lia.
From RecordUpdate Require Import RecordUpdate.
From Model Require Import Base SeqNum Wire Conn Net Net2.
From Proofs Require Import ListP DictP Tac SeqNumP ConnFrameP NonceP AckP CallbackP AckNamesP.
Import RecordSetNotations.
Open Scope Z_scope.

(* Net2's window ghost is AckNamesP's *)
Lemma idx_add_eq : idx_add = ghost_add. Proof. reflexivity. Qed.
Lemma idx_acc_eq : idx_acc = accepted_idx. Proof. reflexivity. Qed.
Lemma idx_near_eq : idx_near = near. Proof. reflexivity. Qed.

Lemma seq_diff_exact_idx m i dd :
  seq_diff (wire m) (wire i) = dd -> 0 <= dd <= 32 -> - (RING - 32) < m - i < RING -> m - i = dd.
Proof. unfold seq_diff, wire, RING, HALF. cbv zeta. intros H Hd Hr. revert H. dif; [|dif]; Z.div_mod_to_equations; lia. Qed.

Lemma hdr_acks_idx m bits i :
  hdr_acks (wire m) bits (wire i) = true -> - (RING - 32) < m - i < RING -> 0 <= m - i <= 32.
Proof.
  unfold hdr_acks. cbv zeta. intros H Hr.
  remember (seq_diff (wire m) (wire i)) as dd eqn:Ed. symmetry in Ed.
  assert (Hd : 0 <= dd <= 32) by lia.
  rewrite (seq_diff_exact_idx m i dd Ed Hd Hr). exact Hd.
Qed.

(* a header built before anything was accepted: ack = 0, ack_bits = 0 *)
Lemma hdr_acks_zero s : 1 <= s < RING -> hdr_acks 0 0 s = false.
Proof.
  intros Hs. unfold hdr_acks. cbv zeta. rewrite Z.land_0_l. cbn [Z.eqb negb]. rewrite andb_false_r, orb_false_r.
  unfold seq_diff, RING, HALF in *. cbv zeta. dif; [|dif]; Z.div_mod_to_equations; lia.
Qed.

Lemma seq_of_index_step n : 0 <= n -> seq_of_index (n + 1) = wire (n + 1) /\ seq_of_index (n + 1) <> seq_of_index n.
Proof.
  intros Hn. unfold seq_of_index. assert (n + 1 =? 0 = false) as -> by lia. split; [reflexivity|].
  destruct (n =? 0) eqn:E0.
  - pose proof (wire_range (n + 1)). lia.
  - intros H. apply (wire_neq_near n (n + 1)); [unfold RING; lia|]. symmetry. exact H.
Qed.

Lemma hdr_dg_of o : map d_hdr (flat_map dg_of o) = emits o.
Proof.
  induction o as [|x o IH]; [reflexivity|]. unfold emits in *. cbn [flat_map]. rewrite map_app, IH.
  destruct x; try reflexivity. destruct sealed; reflexivity.
Qed.

Lemma dg_of_length o : length (flat_map dg_of o) = length (emits o).
Proof. rewrite <- hdr_dg_of, map_length. reflexivity. Qed.

Lemma ev_open_ok S x : ev_open x -> ev_ok S x.
Proof. destruct x; cbn; auto. intros [->| ->]; auto. Qed.

(* Net2.ev_open2 restates AckP.ev_open, which a model file cannot import *)
Lemma ev_open2_eq x : ev_open2 x <-> ev_open x.
Proof. destruct x; cbn; tauto. Qed.

Lemma tick_tail_AInv_idx strict e S K c now c1 pk c2 o2 n :
  AInv S K c n -> build_packet e c now = (c1, pk) -> check_timeout strict c1 now = (c2, o2) ->
  c_last_send c < now ->
  AInv S K c2 (match pk with Some _ => n + 1 | None => n end) /\
  c_seq_send c2 = match pk with Some _ => seq_succ (c_seq_send c) | None => c_seq_send c end.
Proof.
  intros HI E1 E2 Hlt. destruct (build_packet_AInv0 _ _ _ _ _ _ _ _ HI Hlt E1) as (H1 & L1 & _ & Q1).
  destruct (check_timeout_AInv _ _ _ _ _ _ _ _ H1 L1 E2) as (H2 & Q2 & _). split; [exact H2|congruence].
Qed.

Definition next_idx (c c' : conn) (n : Z) : Z := if c_seq_send c' =? c_seq_send c then n else n + 1.

Lemma next_idx_same c c' n : c_seq_send c' = c_seq_send c -> next_idx c c' n = n.
Proof. intros E. unfold next_idx. rewrite E, Z.eqb_refl. reflexivity. Qed.

Lemma next_idx_succ S K c n c' : AInv S K c n -> c_seq_send c' = seq_succ (c_seq_send c) -> next_idx c c' n = n + 1.
Proof.
  intros [[Hn Hseq _ _ _ _ _ _] _] E. unfold next_idx. rewrite E, Hseq, seq_succ_index by exact Hn.
  destruct (seq_of_index_step n Hn) as [_ Hne]. destruct (_ =? _) eqn:Eq; [lia|reflexivity].
Qed.

Lemma next_idx_pk S K c n c' (pk : option (header * list pmsg)) :
  AInv S K c n -> c_seq_send c' = match pk with Some _ => seq_succ (c_seq_send c) | None => c_seq_send c end ->
  next_idx c c' n = match pk with Some _ => n + 1 | None => n end.
Proof. intros HI E. destruct pk; [exact (next_idx_succ _ _ _ _ _ HI E)|exact (next_idx_same _ _ _ E)]. Qed.

(* the joint ghost counts with next_idx: the index goes up exactly when the step consumes a sequence number *)
Theorem step_AInv_idx e S K c n x c' o :
  ev_open x -> AInv S K c n -> step e c x = (c', o) -> AInv S K c' (next_idx c c' n).
Proof.
  intros Hop HI E. destruct (step_AInv_seq _ _ _ _ _ _ _ _ Hop HI E) as [[Q H]|[Q H]].
  - rewrite next_idx_same by exact Q. exact H.
  - rewrite (next_idx_succ _ _ _ _ _ HI Q). exact H.
Qed.

Lemma step_emit_idx e S K c n x c' o :
  ev_open x -> AInv S K c n -> step e c x = (c', o) ->
  n <= next_idx c c' n /\
  (flat_map dg_of o = [] \/
   exists d, flat_map dg_of o = [d] /\ next_idx c c' n = n + 1 /\ h_seq (d_hdr d) = wire (n + 1)).
Proof.
  intros Hop HI E. pose proof HI as [[Hn Hseq HS _ _ _ _ _] _].
  destruct (step_built e S c x c' o E HS (ev_open_ok S x Hop)) as (B & _ & _).
  split; [unfold next_idx; destruct (_ =? _); lia|].
  assert (Hnil : emits o = [] -> flat_map dg_of o = []).
  { intros He. apply length_zero_iff_nil. rewrite dg_of_length, He. reflexivity. }
  destruct B as [_ _ B3|B1 _ _ [B4|(h & B4 & F1 & _)]]; [left; auto|left; auto|right].
  pose proof (hdr_dg_of o) as Hm. rewrite B4 in Hm.
  destruct (flat_map dg_of o) as [|d [|d2 r]]; try discriminate. cbn in Hm. injection Hm as Hm.
  exists d. split; [reflexivity|].
  destruct (seq_of_index_step n Hn) as [Hw Hne].
  split.
  - exact (next_idx_succ _ _ _ _ _ HI B1).
  - rewrite Hm, F1, Hseq, seq_succ_index by exact Hn. exact Hw.
Qed.

Definition ack_of_window (f : bitfield) (h : header) : Prop := h_ack h = bf_cur f /\ h_ackbits h = bf_bits f.

Lemma tick_tail_window strict e c now c1 pk c2 o2 :
  build_packet e c now = (c1, pk) -> check_timeout strict c1 now = (c2, o2) ->
  c_bf_pkt c2 = c_bf_pkt c /\
  forall cx, Forall (ack_of_window (c_bf_pkt c)) (emits (match pk with Some p => emit cx p | None => [] end)).
Proof. exact (tick_tail_fields strict e c now c1 pk c2 o2). Qed.

Theorem step_window e c x c' o : step e c x = (c', o) ->
  match accepts c x with
  | Some d => dgram_in x = Some d /\ opens c d = true /\
              exists bf, bf_insert (c_bf_pkt c) (h_seq (d_hdr d)) = Ok bf /\ c_bf_pkt c' = bf
  | None => c_bf_pkt c' = c_bf_pkt c
  end /\ Forall (ack_of_window (c_bf_pkt c')) (emits o).
Proof. intros E. split; [eapply step_window_bf; exact E|exact (step_emits_fields _ _ _ _ _ E)]. Qed.

(* the datagram d of B was built when B's window ghost stood at g: its ack field is the newest index of g, its ack
   fields name only indices of g (AckNamesP.names_accepted), and g is part of what B has accepted by now *)
Definition BAok (G : gnet) (g : idxset) (d : dgram) : Prop :=
  match g with
  | None => h_ack (d_hdr d) = 0 /\ h_ackbits (d_hdr d) = 0
  | Some (m, acc) => h_ack (d_hdr d) = wire m /\ names_accepted g (d_hdr d) /\ In m acc /\
                     forall i, In i acc -> In i (idx_acc (g_B G))
  end.

(* the joint invariant (S, K as in AckP.AInv).  A: its own invariant at the ghost count g_nA; every datagram it put on
   the wire has an index of its own in 1..g_nA and carries that index's wire number; the ghost list is the wire.
   B: its datagram window refines the ghost window (GI); every index of the ghost window is a datagram of A that B
   has accepted; every datagram B put on the wire is tagged with the ghost window it was built from (BAok) *)
Record J (S K : Z) (G : gnet) : Prop := {
  j_A : AInv S K (nA (g_net G)) (g_nA G);
  j_AB : forall i d, In (i, d) (g_AB G) -> 1 <= i <= g_nA G /\ h_seq (d_hdr d) = wire i;
  j_ABnd : NoDup (map fst (g_AB G));
  j_ABw : map snd (g_AB G) = wAB (g_net G);
  j_B : GI (nB (g_net G)) (g_B G);
  j_acc : forall i, In i (idx_acc (g_B G)) -> exists d, In (i, d) (g_AB G) /\ In d (g_accB G);
  j_BA : forall g d, In (g, d) (g_BA G) -> BAok G g d;
  j_BAw : map snd (g_BA G) = wBA (g_net G) }.

Lemma J_gnet0 S : 0 < S -> S <= 256 -> TICKS < (RING - 1) * S -> J S 0 gnet0.
Proof.
  intros H1 H2 H3. constructor; cbn; try reflexivity; try (intros; contradiction).
  - apply AInv_conn0; assumption.
  - constructor.
Qed.

Lemma map_snd_tag {A B} (t : A) (l : list B) : map snd (map (fun d => (t, d)) l) = l.
Proof. induction l as [|x l IH]; cbn; [reflexivity|]. rewrite IH. reflexivity. Qed.

Lemma idx_acc_add g l : idx_acc (idx_add g l) = l :: idx_acc g.
Proof. destruct g as [[m acc]|]; reflexivity. Qed.

Lemma GI_BAok c g h : GI c g -> ack_of_window (c_bf_pkt c) h ->
  match g with
  | None => h_ack h = 0 /\ h_ackbits h = 0
  | Some (m, acc) => h_ack h = wire m /\ names_accepted g h /\ In m acc
  end.
Proof.
  intros HG [Ha Hb]. pose proof (GI_names c g h HG Ha Hb) as Hn. destruct g as [[m acc]|]; cbn in HG.
  - destruct HG as [HR _]. split; [rewrite Ha; apply (R_cur _ _ _ HR)|]. split; [exact Hn|]. apply InB_In. apply (R_in _ _ _ HR).
  - rewrite HG in Ha, Hb. auto.
Qed.

(* BAok speaks of G only through what B has accepted, and that only grows *)
Lemma BAok_mono G G' g d :
  (forall i, In i (idx_acc (g_B G)) -> In i (idx_acc (g_B G'))) -> BAok G g d -> BAok G' g d.
Proof. intros Hm. unfold BAok. destruct g as [[m ac]|]; [|auto]. intros (B1 & B2 & B3 & B4). auto 6. Qed.

Lemma BAok_own G c g d : g_B G = g -> GI c g -> ack_of_window (c_bf_pkt c) (d_hdr d) -> BAok G g d.
Proof.
  intros <- HG Hw. pose proof (GI_BAok _ _ _ HG Hw) as H. unfold BAok. destruct (g_B G) as [[m ac]|]; [|exact H].
  destruct H as (B1 & B2 & B3). split; [exact B1|]. split; [exact B2|]. split; [exact B3|]. intros j Hj. exact Hj.
Qed.

Theorem J_step e S K G vl : J S K G -> wf2_ev G vl -> J S K (gstep e G vl).
Proof.
  intros [HA HAB HND HABw HB Hacc HBA HBAw] Hwf. destruct vl as [[x|x] l]; cbn [gstep wf2_ev nstep] in *.
  - (* A moves *)
    destruct Hwf as [Hop _]. apply ev_open2_eq in Hop.
    destruct (step e (nA (g_net G)) x) as [a' o] eqn:E.
    fold (next_idx (nA (g_net G)) a' (g_nA G)).
    pose proof (step_AInv_idx _ _ _ _ _ _ _ _ Hop HA E) as HA'.
    destruct (step_emit_idx _ _ _ _ _ _ _ _ Hop HA E) as [Hmono Hem].
    set (n' := next_idx (nA (g_net G)) a' (g_nA G)) in *.
    constructor; cbn.
    + exact HA'.
    + intros i d Hin. apply in_app_or in Hin as [Hin|Hin].
      * destruct (HAB i d Hin). split; [lia|assumption].
      * destruct Hem as [Hem|(d0 & Hem & Hn & Hs)]; rewrite Hem in Hin; cbn in Hin; [destruct Hin|].
        destruct Hin as [Hin|[]]. injection Hin as <- <-. destruct HA as [[Hn0 _ _ _ _ _ _ _] _].
        split; [lia|]. rewrite Hn. exact Hs.
    + rewrite map_app. destruct Hem as [Hem|(d0 & Hem & Hn & Hs)]; rewrite Hem; cbn; [rewrite app_nil_r; exact HND|].
      apply NoDup_snoc; [exact HND|]. intros Hin. apply in_map_iff in Hin as ([i d] & Hi & Hin). cbn in Hi. subst i.
      destruct (HAB _ _ Hin). lia.
    + rewrite map_app, map_snd_tag, HABw. reflexivity.
    + exact HB.
    + intros i Hi. destruct (Hacc i Hi) as (d & H1 & H2). exists d. split; [apply in_or_app; left; exact H1|exact H2].
    + exact HBA.
    + exact HBAw.
  - (* B moves *)
    destruct (step e (nB (g_net G)) x) as [b' o] eqn:E.
    destruct (step_window _ _ _ _ _ E) as [Hw Hem].
    set (acc := accepts (nB (g_net G)) x) in *.
    set (gB' := match acc with Some _ => idx_add (g_B G) l | None => g_B G end).
    assert (HB' : GI b' gB' /\ (forall i, In i (idx_acc (g_B G)) -> In i (idx_acc gB')) /\
                  forall i, In i (idx_acc gB') -> exists d, In (i, d) (g_AB G) /\
                     In d (match acc with Some d => d :: g_accB G | None => g_accB G end)).
    { subst gB'. destruct acc as [d|].
      - destruct Hw as (Hd & Ho & bf & Hins & Hbf). destruct (Hwf d Hd Ho) as [Hin Hnear].
        destruct (HAB _ _ Hin) as [Hl Hs].
        split; [eapply GI_accept; try eassumption; lia|]. rewrite idx_acc_add.
        split; [intros i Hi; right; exact Hi|].
        intros i [<-|Hi]; [exists d; split; [exact Hin|left; reflexivity]|].
        destruct (Hacc i Hi) as (d' & H1 & H2). exists d'. split; [exact H1|right; exact H2].
      - split; [eapply GI_same; eassumption|]. split; [auto|exact Hacc]. }
    destruct HB' as (HB' & Hmono & Hacc').
    constructor; cbn -[BAok]; try assumption.
    + intros g d Hin. apply in_app_or in Hin as [Hin|Hin]; [eapply BAok_mono; [exact Hmono|exact (HBA g d Hin)]|].
      apply in_map_iff in Hin as (d0 & Hd0 & Hin). injection Hd0 as <- <-. apply (BAok_own _ b'); [reflexivity|exact HB'|].
      rewrite Forall_forall in Hem. apply Hem. rewrite <- hdr_dg_of. apply in_map. exact Hin.
    + rewrite map_app, map_snd_tag, HBAw. reflexivity.
Qed.

Theorem J_run e S K vs : forall G, J S K G -> wf2_run e G vs -> J S K (grun e G vs).
Proof.
  induction vs as [|v r IH]; intros G HJ Hwf; cbn [grun fold_left]; [exact HJ|].
  destruct Hwf as [W1 W2]. apply IH; [apply J_step; assumption|exact W2].
Qed.

Lemma pre_recv_facts c x c0 d : pre_recv c x = Some (c0, d) ->
  dgram_in x = Some d /\ c_packs c0 = c_packs c /\ opens c0 d = opens c d /\
  (exists now orcs, x = ERecv now d orcs /\ c0 = c \/ x = EClientTick now (RxDgram d orcs) /\ c0 = fst (client_update c now)).
Proof.
  destruct x; cbn [pre_recv dgram_in]; try discriminate.
  - destruct r as [| |d0 orcs]; try discriminate.
    destruct (status_eqb _ DROPPED); [discriminate|]. intros H. injection H as <- <-.
    destruct (client_update c now) as [c0 o0] eqn:E0. cbn [fst] in *.
    pose proof (wr_keeps W_update (fun a => (c_packs a, c_key a)) (fun _ _ => eq_refl) (client_update_wr E0)) as K. injection K as P K0.
    split; [reflexivity|]. split; [exact P|]. split; [apply opens_same; exact K0|].
    exists now, orcs. right. split; [reflexivity|]. rewrite E0. reflexivity.
  - intros H. injection H as <- <-. repeat split. exists now, orcs. left. split; reflexivity.
Qed.

(* a pending datagram that an opened header names: a recent index of A that B has accepted, and the datagram A
   put on the wire at that index is in B's accepted set *)
Lemma acked_step S K G x l a0 d :
  J S K G -> wf2_ev G (NA x, l) -> pre_recv (nA (g_net G)) x = Some (a0, d) -> opens a0 d = true ->
  forall s t, In (s, t) (c_packs a0) -> hdr_acks (h_ack (d_hdr d)) (h_ackbits (d_hdr d)) s = true ->
  exists i dA, s = wire i /\ 1 <= i <= g_nA G /\ g_nA G - i < RING - 1 /\ In i (idx_acc (g_B G)) /\
               In (i, dA) (g_AB G) /\ h_seq (d_hdr dA) = s /\ In dA (wAB (g_net G)) /\ In dA (g_accB G).
Proof.
  intros [HA HAB HND HABw HB Hacc HBA HBAw] [_ Hwf] Hpre Hop.
  destruct (pre_recv_facts _ _ _ _ Hpre) as (Hd & Hp & Ho & _). rewrite Ho in Hop.
  destruct (Hwf d Hd Hop) as (g & Hin & Hfresh). specialize (HBA g d Hin).
  intros s t Hpend Hack. rewrite Hp in Hpend.
  (* AInv: ai_n, ai_Spos, ai_ot (the time-out is below (RING - 1) * S), ai_pend (a pending datagram is an index i sent
     at least (n - i) * S before the last send), and purged (it is at most the time-out older than the last send):
     so a pending index is less than RING - 1 behind n *)
  destruct HA as [[Hn _ _ HSpos Hot Hpe _ _] Hpu].
  rewrite Forall_forall in Hpe. destruct (Hpe _ Hpend) as (i & Hi & Hs & Ht). cbn [fst snd] in Hs, Ht.
  unfold purged in Hpu. rewrite Forall_forall in Hpu. pose proof (Hpu _ Hpend) as Hy. cbn [snd] in Hy.
  pose proof (young_index _ _ _ _ _ _ HSpos (proj2 Hot) Ht Hy) as Hrec.
  subst s. unfold BAok in HBA. destruct g as [[m acc]|].
  - destruct HBA as (B1 & B2 & B3 & B4).
    destruct (Hacc m (B4 m B3)) as (dm & Hdm & _). destruct (HAB _ _ Hdm) as [Hm _].
    cbn [idx_fresh] in Hfresh. rewrite B1 in Hack.
    assert (Hr : - (RING - 32) < m - i < RING) by (unfold FRESH, RING in *; lia).
    pose proof (hdr_acks_idx m _ i Hack Hr) as Hmi.
    rewrite <- B1 in Hack.
    destruct (B2 m acc eq_refl i ltac:(lia) ltac:(unfold HALF; lia) Hack) as [Hia _].
    destruct (Hacc i (B4 i Hia)) as (dA & H1 & H2). destruct (HAB _ _ H1) as [_ Hs].
    exists i, dA. split; [reflexivity|]. split; [exact Hi|]. split; [exact Hrec|]. split; [exact (B4 i Hia)|]. split; [exact H1|].
    split; [exact Hs|]. split; [rewrite <- HABw; exact (in_map snd _ _ H1)|exact H2].
  - exfalso. destruct HBA as [B1 B2]. cbn [idx_fresh] in Hfresh. rewrite B1, B2 in Hack.
    rewrite wire_small in Hack by lia. rewrite hdr_acks_zero in Hack by lia. discriminate.
Qed.

Theorem acked_accepted_step S K G x l a0 d :
  J S K G -> wf2_ev G (NA x, l) -> pre_recv (nA (g_net G)) x = Some (a0, d) -> opens a0 d = true ->
  acked_accepted G a0 d.
Proof.
  intros HJ Hwf Hpre Hop s t Hp Ha. destruct (acked_step _ _ _ _ _ _ _ HJ Hwf Hpre Hop s t Hp Ha) as (i & dA & H).
  exists i, dA. tauto.
Qed.

(* Inc (CallbackP) through every event: needed to read "success" off the outputs *)
Lemma send_frags_pfrags frags : forall c fid n r i, c_pfrags (send_frags c fid n r i frags) = c_pfrags c.
Proof. intros. exact (wr_keeps W_queue c_pfrags (fun _ _ => eq_refl) (send_frags_wr frags c fid n r i)). Qed.

Lemma split_frags_nonempty e p : (length p <> 0)%nat -> split_frags (S (length p)) e p <> [].
Proof. intros H. cbn [split_frags]. destruct (length p =? 0)%nat eqn:E; [apply Nat.eqb_eq in E; contradiction|]. destruct (_ <? _); discriminate. Qed.

Lemma send_Inc e c p r k c' o : 0 <= e_max_payload e -> Inc c -> send e c p r k = (c', o) -> Inc c'.
Proof.
  intros He I E. destruct (send_inv E) as [_|_ _|_ _ _|_ [Hl _]]; try exact I.
  assert (Hne : split_frags (S (length p)) e p <> []) by (apply split_frags_nonempty; unfold len in Hl; lia).
  unfold Inc, send_fragmented. remember (split_frags (S (length p)) e p) as frags eqn:Ef. clear Ef.
  cbn. rewrite send_frags_pfrags. cbn. apply Forall_dset; [exact I|].
  unfold incomplete. cbn. destruct frags; [contradiction|reflexivity].
Qed.

Theorem step_Inc e c x c' o : 0 <= e_max_payload e -> Inc c -> step e c x = (c', o) -> Inc c'.
Proof.
  intros He I E. apply step_acts in E as (c1 & o1 & ot & H1 & Ht & _).
  assert (I1 : Inc c1).
  { apply (star_pres (atom e x) Inc) with (c := c) (o := o1); [|exact H1|exact I]. intros a a' oa Ha Ia.
    destruct (atom_pfrags _ _ _ _ _ Ha) as [P|[(p & r & k & _ & Es)|(h & Eh)]]; [unfold Inc; rewrite P; exact Ia|eapply send_Inc; eassumption|].
    exact (star_pres _ Inc (ratom_Inc _) _ _ _ (handle_ack_bits_racts Eh) Ia). }
  destruct Ht as [|strict c2 o2 o3 _ T]; [exact I1|]. apply tick_tail_cases in T as (cb & pk & E1 & E2 & _).
  apply (star_pres _ Inc (ratom_Inc _) _ _ _ (check_timeout_racts E2)).
  unfold Inc. rewrite (wr_keeps W_build c_pfrags (fun _ _ => eq_refl) (build_packet_wr E1)). exact I1.
Qed.

Lemma gstep_Inc e G vl : 0 <= e_max_payload e -> Inc (nA (g_net G)) -> Inc (nA (g_net (gstep e G vl))).
Proof.
  intros He I. destruct vl as [[x|x] l]; cbn [gstep nstep].
  - destruct (step e (nA (g_net G)) x) as [a' o] eqn:E. cbn. eapply step_Inc; eassumption.
  - destruct (step e (nB (g_net G)) x) as [b' o] eqn:E. cbn. exact I.
Qed.

Lemma grun_Inc e vs : forall G, 0 <= e_max_payload e -> Inc (nA (g_net G)) -> Inc (nA (g_net (grun e G vs))).
Proof.
  induction vs as [|v r IH]; intros G He I; cbn [grun fold_left]; [exact I|]. apply IH; [exact He|]. apply gstep_Inc; assumption.
Qed.

Lemma wf2_run_app e vs : forall G ws, wf2_run e G (vs ++ ws) <-> wf2_run e G vs /\ wf2_run e (grun e G vs) ws.
Proof.
  induction vs as [|v r IH]; intros G ws; cbn [app wf2_run grun fold_left]; [tauto|].
  rewrite IH. unfold grun. tauto.
Qed.

(* every datagram a step of A resolves as acknowledged had been accepted by B *)
Theorem acked_means_accepted e S K G vs x l a0 d :
  J S K G -> wf2_run e G (vs ++ [(NA x, l)]) ->
  let G' := grun e G vs in
  pre_recv (nA (g_net G')) x = Some (a0, d) -> opens a0 d = true -> acked_accepted G' a0 d.
Proof.
  intros HJ Hwf G' Hpre Hop. apply wf2_run_app in Hwf as [W1 [W2 _]].
  eapply acked_accepted_step; [eapply J_run; eassumption|exact W2|exact Hpre|exact Hop].
Qed.

(* short sessions: (near) and (fresh acks) hold by themselves *)
Lemma J_newest_le S K G m acc : J S K G -> g_B G = Some (m, acc) -> 1 <= m <= g_nA G.
Proof.
  intros [_ HAB _ _ HB Hacc _ _] Eg. rewrite Eg in HB. cbn in HB. destruct HB as [HR _].
  assert (Hin : In m (idx_acc (g_B G))) by (rewrite Eg; cbn; apply InB_In; apply (R_in _ _ _ HR)).
  destruct (Hacc m Hin) as (d & Hd & _). apply (HAB _ _ Hd).
Qed.

Lemma auth_wf2_ev S K G vl : J S K G -> g_nA G <= HALF + 1 -> auth_ev G vl -> wf2_ev G vl.
Proof.
  intros HJ Hn Ha. destruct vl as [[x|x] l]; cbn [auth_ev wf2_ev] in *.
  - destruct Ha as [Hop Ha]. split; [exact Hop|]. intros d Hd Ho. destruct (Ha d Hd Ho) as (g & Hin). exists g. split; [exact Hin|].
    pose proof HJ as [_ HAB _ _ _ Hacc HBA _]. specialize (HBA g d Hin). unfold BAok in HBA.
    destruct g as [[m acc]|]; cbn [idx_fresh]; [|unfold RING, HALF in *; lia].
    destruct HBA as (_ & _ & B3 & B4). destruct (Hacc m (B4 m B3)) as (dm & Hdm & _). destruct (HAB _ _ Hdm) as [Hm _].
    unfold FRESH, RING, HALF in *. lia.
  - intros d Hd Ho. pose proof (Ha d Hd Ho) as Hin. split; [exact Hin|].
    pose proof HJ as [_ HAB _ _ _ _ _ _]. destruct (HAB _ _ Hin) as [Hl _].
    intros m acc Eg. pose proof (J_newest_le _ _ _ _ _ HJ Eg). unfold HALF in *. lia.
Qed.

Theorem auth_run_wf2 e S K vs : forall G, J S K G -> auth_run e G vs -> wf2_run e G vs.
Proof.
  induction vs as [|v r IH]; intros G HJ Ha; cbn [auth_run wf2_run] in *; [exact I|].
  destruct Ha as (A1 & A2 & A3). pose proof (auth_wf2_ev _ _ _ _ HJ A2 A1) as W. split; [exact W|].
  apply IH; [apply J_step; assumption|exact A3].
Qed.

Lemma auth_run_app e vs : forall G ws, auth_run e G (vs ++ ws) <-> auth_run e G vs /\ auth_run e (grun e G vs) ws.
Proof.
  induction vs as [|v r IH]; intros G ws; cbn [app auth_run grun fold_left]; [tauto|].
  rewrite IH. unfold grun. tauto.
Qed.

(* the user-visible callback a registered callback object reports to: a plain or RetrySender-wrapped
   user callback id, or the collector of a fragmented message *)
Definition cb_inner (k : cb) : icb := match k with Plain i => i | Retry _ _ _ _ i => i end.
Definition cb_for (k : cb) (id : Z) : Prop := cb_inner k = IUser id \/ exists fid idx, cb_inner k = IFrag fid idx.

Lemma fire_icb_for c i ok c' o id b : fire_icb c i ok = (c', o) -> In (OCallback id b) o ->
  i = IUser id \/ exists fid idx, i = IFrag fid idx.
Proof.
  intros E Hin. destruct (fire_icb_cases _ _ _ _ _ E) as [o' Ho|fid idx fs o' -> _ _ _|fid idx fs -> _ _]; [|eauto..].
  left. apply (Ho _ _ Hin).
Qed.

Lemma fire_cb_for c k ok c' o id b : fire_cb c k ok = (c', o) -> In (OCallback id b) o -> cb_for k id.
Proof.
  intros E Hin. apply fire_cb_cases in E as [(q & _ & ->)|(d & i & Hk & E)]; [destruct Hin|].
  pose proof (fire_icb_for _ _ _ _ _ _ _ E Hin) as H.
  destruct Hk as [->|(rid & mseq & ty & p & ->)]; exact H.
Qed.

Lemma fire_all_for ks : forall c ok c' o id b, fire_all c ks ok = (c', o) -> In (OCallback id b) o ->
  exists k, In k ks /\ cb_for k id.
Proof. intros c ok c' o id b E. exact (proj2 (fire_all_P (fun _ => cb_for) (blind_fire _ fire_cb_for) _ _ _ _ _ E) id b). Qed.

Lemma resolve_for ok c s c' o id b : resolve ok c s = (c', o) ->
  (In (OCallback id b) o -> exists ks k, dget s (c_pcbs c) = Some ks /\ In k ks /\ cb_for k id) /\
  (forall s' ks, dget s' (c_pcbs c') = Some ks -> dget s' (c_pcbs c) = Some ks).
Proof.
  intros E. split; [exact (proj2 (resolve_P (fun _ => cb_for) (blind_fire _ fire_cb_for) (fun _ _ _ _ _ H => H) _ _ _ _ _ E) id b)|exact (resolve_pcbs_sub _ _ _ _ _ E)].
Qed.

Lemma ack_loop_for h snap : forall c c' o id, Inc c -> ack_loop c h snap = (c', o) -> In (OCallback id true) o ->
  exists s t ks k, In (s, t) snap /\ hdr_acks (h_ack h) (h_ackbits h) s = true /\
    dget s (c_pcbs c) = Some ks /\ In k ks /\ cb_for k id.
Proof. intros c c' o id. apply (ack_loop_P (fun _ => cb_for) (blind_fire _ fire_cb_for) (fun _ _ _ _ _ H => H)). Qed.

Lemma recv_for c now d orcs c' o id : Inc c -> recv c now d orcs = (c', o) -> In (OCallback id true) o ->
  opens c d = true /\
  exists s t ks k, In (s, t) (c_packs c) /\ hdr_acks (h_ack (d_hdr d)) (h_ackbits (d_hdr d)) s = true /\
    dget s (c_pcbs c) = Some ks /\ In k ks /\ cb_for k id.
Proof.
  intros I E Hin. destruct (recv_P (fun _ => cb_for) (blind_fire _ fire_cb_for) (fun _ _ _ _ _ H => H) _ _ _ _ _ _ _ I E Hin) as [G A].
  split; [exact (passes_gate_opens _ _ G)|exact A].
Qed.

(* every event: a success callback is reported for a callback object registered (pending_callbacks)
   for a pending datagram that the header being processed names *)
Theorem step_true_for e c x c' o id : Inc c -> step e c x = (c', o) -> In (OCallback id true) o ->
  exists a0 d, pre_recv c x = Some (a0, d) /\ opens a0 d = true /\
    exists s t ks k, In (s, t) (c_packs a0) /\ hdr_acks (h_ack (d_hdr d)) (h_ackbits (d_hdr d)) s = true /\
      dget s (c_pcbs a0) = Some ks /\ In k ks /\ cb_for k id.
Proof.
  intros I E Hin.
  destruct (step_true_P (fun _ => cb_for) (blind_fire _ fire_cb_for) (fun _ _ _ _ _ H => H) _ _ _ _ _ _ I E Hin) as (now & d & orcs & a0 & Hp & _ & G & A).
  exists a0, d. split; [exact Hp|]. split; [exact (passes_gate_opens _ _ G)|exact A].
Qed.

(* the success callback id: the callback object that reports it is registered for a pending datagram
   that the header names, and B has accepted that datagram *)
Theorem success_registered_accepted e S K G vs x l a' o id :
  0 <= e_max_payload e -> J S K G -> Inc (nA (g_net G)) -> wf2_run e G (vs ++ [(NA x, l)]) ->
  let G' := grun e G vs in
  step e (nA (g_net G')) x = (a', o) -> In (OCallback id true) o ->
  exists a0 d s t ks k i dA,
    pre_recv (nA (g_net G')) x = Some (a0, d) /\ opens a0 d = true /\
    In (s, t) (c_packs a0) /\ hdr_acks (h_ack (d_hdr d)) (h_ackbits (d_hdr d)) s = true /\
    dget s (c_pcbs a0) = Some ks /\ In k ks /\ cb_for k id /\
    s = wire i /\ 1 <= i <= g_nA G' /\ In i (idx_acc (g_B G')) /\
    In (i, dA) (g_AB G') /\ In dA (wAB (g_net G')) /\ h_seq (d_hdr dA) = s /\ In dA (g_accB G').
Proof.
  intros He HJ HI Hwf G' E Hin.
  pose proof (grun_Inc e vs G He HI) as HI'. fold G' in HI'.
  destruct (step_true_for _ _ _ _ _ _ HI' E Hin) as (a0 & d & Hpre & Hop & s & t & ks & k & Hpend & Hack & Hg & Hk & Hf).
  apply wf2_run_app in Hwf as [W1 [W2 _]]. pose proof (J_run e S K vs G HJ W1) as HJ'. fold G' in HJ', W2.
  destruct (acked_step _ _ _ _ _ _ _ HJ' W2 Hpre Hop s t Hpend Hack) as (i & dA & H).
  exists a0, d, s, t, ks, k, i, dA. tauto.
Qed.

(* a success callback: some pending datagram named by the header being processed, and so accepted by B *)
Theorem success_means_accepted e S K G vs x l a' o :
  0 <= e_max_payload e -> J S K G -> Inc (nA (g_net G)) -> wf2_run e G (vs ++ [(NA x, l)]) ->
  let G' := grun e G vs in
  step e (nA (g_net G')) x = (a', o) -> cb_true o ->
  exists a0 d, pre_recv (nA (g_net G')) x = Some (a0, d) /\ opens a0 d = true /\ acked_accepted G' a0 d /\
    exists s t i dA, In (s, t) (c_packs a0) /\ hdr_acks (h_ack (d_hdr d)) (h_ackbits (d_hdr d)) s = true /\
      s = wire i /\ 1 <= i <= g_nA G' /\ In i (idx_acc (g_B G')) /\
      In (i, dA) (g_AB G') /\ In dA (wAB (g_net G')) /\ h_seq (d_hdr dA) = s /\ In dA (g_accB G').
Proof.
  intros He HJ HI Hwf G' E [id Hin].
  destruct (success_registered_accepted e S K G vs x l a' o id He HJ HI Hwf E Hin)
    as (a0 & d & s & t & ks & k & i & dA & Hpre & Hop & H1 & H2 & _ & _ & _ & H3).
  exists a0, d. split; [exact Hpre|]. split; [exact Hop|].
  split; [exact (acked_means_accepted e S K G vs x l a0 d HJ Hwf Hpre Hop)|]. exists s, t, i, dA. auto.
Qed.

Lemma timeout_loop_acked strict now snap c c' o : timeout_loop strict c now snap = (c', o) -> c_acked c' = c_acked c.
Proof.
  rewrite timeout_loop_sweep. intros E. apply (sweep_logged since since_refl since_trans resolve_since) in E as [l L].
  rewrite (lg_ak _ _ _ _ _ _ L). destruct (Z_lt_le_dec 0 (nres true l)) as [H|H]; [|pose proof (nres_nonneg true l); lia].
  (* a time-out sweep asks for no acknowledgement *)
  apply nres_pos in H as (r & Hr & Hb). destruct (log_entry _ _ _ _ _ _ _ L Hr) as (_ & [_ W] & _). unfold timeout_verdict in W. destruct (overdue _ _ _ _); congruence.
Qed.

Lemma ack_loop_acked h snap c c' o : ack_loop c h snap = (c', o) -> c_acked c < c_acked c' ->
  exists s t, In (s, t) snap /\ hdr_acks (h_ack h) (h_ackbits h) s = true.
Proof.
  rewrite ack_loop_sweep. intros E Hlt. apply (sweep_logged since since_refl since_trans resolve_since) in E as [l L].
  destruct (proj1 (nres_pos true l)) as (r & Hr & Hb); [rewrite (lg_ak _ _ _ _ _ _ L) in Hlt; lia|].
  destruct (log_entry _ _ _ _ _ _ _ L Hr) as (_ & [Hin W] & _). rewrite Hb in W. unfold ack_verdict in W.
  exists (r_s r), (r_t r). destruct (hdr_acks _ _ (r_s r)); [auto|destruct (_ >? _); discriminate].
Qed.

Lemma recv_acked c now d orcs c' o : recv c now d orcs = (c', o) -> c_acked c < c_acked c' ->
  opens c d = true /\ exists s t, In (s, t) (c_packs c) /\ hdr_acks (h_ack (d_hdr d)) (h_ackbits (d_hdr d)) s = true.
Proof.
  intros E Hlt. apply (recv_logged since since_refl since_trans since_quiet resolve_since) in E as [[l L] _].
  destruct (proj1 (nres_pos true l)) as (r & Hr & Hb); [rewrite (lg_ak _ _ _ _ _ _ L) in Hlt; lia|].
  destruct (log_entry _ _ _ _ _ _ _ L Hr) as (_ & W & _). unfold recv_why in W. rewrite Hb in W.
  destruct W as (G & Hin & Ha & _). split; [exact (passes_gate_opens _ _ G)|eauto].
Qed.

Theorem step_acked e c x c' o : step e c x = (c', o) -> c_acked c < c_acked c' ->
  exists a0 d, pre_recv c x = Some (a0, d) /\ opens a0 d = true /\
    exists s t, In (s, t) (c_packs a0) /\ hdr_acks (h_ack (d_hdr d)) (h_ackbits (d_hdr d)) s = true.
Proof.
  intros E Hlt. apply step_log_since in E. destruct (sweeps x); [destruct E as [l L]|lia].
  destruct (proj1 (nres_pos true l)) as (r & Hr & Hb); [rewrite (lg_ak _ _ _ _ _ _ L) in Hlt; lia|].
  destruct (log_entry _ _ _ _ _ _ _ L Hr) as (_ & W & _). unfold why in W. rewrite Hb in W.
  destruct W as (a0 & d & (Hp & _) & G & Hin & Ha & _). exists a0, d.
  split; [exact Hp|]. split; [exact (passes_gate_opens _ _ G)|eauto].
Qed.

(* whenever A's acked counter goes up, a datagram B has accepted is being resolved *)
Theorem ack_counted_means_accepted e S K G vs x l a' o :
  J S K G -> wf2_run e G (vs ++ [(NA x, l)]) ->
  let G' := grun e G vs in
  step e (nA (g_net G')) x = (a', o) -> c_acked (nA (g_net G')) < c_acked a' ->
  exists a0 d s t i dA,
    pre_recv (nA (g_net G')) x = Some (a0, d) /\ opens a0 d = true /\ acked_accepted G' a0 d /\
    In (s, t) (c_packs a0) /\ hdr_acks (h_ack (d_hdr d)) (h_ackbits (d_hdr d)) s = true /\
    s = wire i /\ In i (idx_acc (g_B G')) /\ In (i, dA) (g_AB G') /\ h_seq (d_hdr dA) = s /\ In dA (g_accB G').
Proof.
  intros HJ Hwf G' E Hlt.
  destruct (step_acked _ _ _ _ _ E Hlt) as (a0 & d & Hpre & Hop & s & t & Hpend & Hack).
  pose proof (acked_means_accepted e S K G vs x l a0 d HJ Hwf Hpre Hop) as Hacc. fold G' in Hacc.
  destruct (Hacc s t Hpend Hack) as (i & dA & H1 & H2 & H3 & H4 & H5 & H6).
  exists a0, d, s, t, i, dA. repeat split; assumption.
Qed.

(* (fresh acks) cannot be dropped: any J-state stays a J-state when A is replaced by a connection later
   in its session (its own invariant AInv at a larger index): what B has accepted and what is on the
   wire is unchanged *)
Lemma J_with_A S K K' G a n : J S K G -> AInv S K' a n -> g_nA G <= n -> J S K' (with_A G a n).
Proof.
  intros [HA HAB HND HABw HB Hacc HBA HBAw] Ha Hn. constructor; cbn; try assumption.
  intros i d Hin. destruct (HAB i d Hin). split; [lia|assumption].
Qed.
