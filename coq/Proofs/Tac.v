Ltac dif := match goal with |- context [if ?c then _ else _] => destruct c eqn:? end.
