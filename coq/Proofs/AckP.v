(* C07 (and C05): bookkeeping of sent datagrams.  Every datagram a connection builds is
   registered once in pending_acks and leaves it exactly once, as acked or as timed out. *)
From Coq Require Import Lia.
From Model Require Import Base SeqNum Conn.
From Proofs Require Import ListP DictP ConnFrameP NonceP.
Open Scope Z_scope.

Lemma resolve_packs ok c s c' o : resolve ok c s = (c', o) ->
  c_packs c' = ddel s (c_packs c) /\ c_assembled c' = c_assembled c /\
  c_acked c' = c_acked c + (if ok then 1 else 0) /\ c_timeouts c' = c_timeouts c + (if ok then 0 else 1).
Proof.
  rewrite resolve_eq.
  pose (g := fun a : conn => (c_packs a, c_acked a, c_timeouts a, c_assembled a)).
  assert (Hf : forall c1, g c1 = g (count_outcome ok c) -> let c2 := forget s c1 in
            c_packs c2 = ddel s (c_packs c) /\ c_assembled c2 = c_assembled c /\
            c_acked c2 = c_acked c + (if ok then 1 else 0) /\ c_timeouts c2 = c_timeouts c + (if ok then 0 else 1)).
  { intros c1 K. injection K as P A T M. unfold forget, forget_retry. destruct (dget s (c_pretry c1)); cbn; rewrite P, A, T, M;
      destruct ok; cbn; repeat split; lia. }
  destruct (dget s (c_pcbs c)) as [ks|].
  - destruct (fire_all _ ks ok) as [c1 o1] eqn:E1. destruct (fire_all_wr E1) as [d ->]. intros E. injection E as <- <-.
    apply Hf. reflexivity.
  - intros E. injection E as <- <-. apply Hf. reflexivity.
Qed.

Definition ack_total (c : conn) : Z := c_acked c + c_timeouts c + len (c_packs c).

Lemma resolve_total ok c s c' o :
  NoDup (map fst (c_packs c)) -> In s (map fst (c_packs c)) -> resolve ok c s = (c', o) ->
  ack_total c' = ack_total c.
Proof.
  intros ND Hin E. apply resolve_packs in E as (P & _ & K & T).
  unfold ack_total. rewrite P, K, T, (ddel_len s _ ND Hin). destruct ok; lia.
Qed.

(* A sweep resolves each entry of its snapshot at most once, and only while it is still pending; the
   verdict may look at the parameters that resolving leaves alone.  What is left was judged None. *)
Lemma sweep_total verdict snap : forall c c' o,
  (forall a b s t, wr W_resolve a b -> verdict b s t = verdict a s t) ->
  NoDup (map fst (c_packs c)) -> NoDup (map fst snap) -> incl snap (c_packs c) ->
  sweep verdict c snap = (c', o) ->
  ack_total c' = ack_total c /\ NoDup (map fst (c_packs c')) /\ incl (c_packs c') (c_packs c)
  /\ c_assembled c' = c_assembled c
  /\ (forall s t, In (s, t) snap -> In (s, t) (c_packs c') -> verdict c s t = None).
Proof.
  induction snap as [|[s t] r IH]; intros c c' o Hv ND NS Hsub E; cbn [sweep] in E.
  - injection E as <- <-. repeat split; auto using incl_refl. intros s t [].
  - dpair E c1 o1 E1. destruct (sweep verdict c1 r) as [c2 o2] eqn:E2. injection E as <- <-.
    inversion NS as [|? ? Hni NS']; subst.
    assert (Hs : In s (map fst (c_packs c))) by (apply (in_map fst _ (s, t)), Hsub; left; reflexivity).
    assert (H1 : ack_total c1 = ack_total c /\ c_assembled c1 = c_assembled c /\ wr W_resolve c c1 /\
                 ((verdict c s t = None /\ c_packs c1 = c_packs c) \/ c_packs c1 = ddel s (c_packs c))).
    { destruct (verdict c s t).
      - pose proof (resolve_packs _ _ _ _ _ E1) as (P & A & _). pose proof (resolve_total _ _ _ _ _ ND Hs E1).
        apply resolve_wr in E1. auto 7.
      - injection E1 as <- <-. auto 7 using wr_refl. }
    destruct H1 as (T1 & A1 & F1 & P1).
    assert (ND1 : NoDup (map fst (c_packs c1))) by (destruct P1 as [[_ ->]| ->]; [exact ND|apply ddel_NoDup; exact ND]).
    assert (Hsub1 : incl r (c_packs c1)).
    { intros x Hx. destruct P1 as [[_ ->]| ->]; [apply Hsub; right; exact Hx|].
      apply In_ddel; [apply Hsub; right; exact Hx|]. intros Hk. apply Hni. rewrite <- Hk. apply in_map, Hx. }
    destruct (IH _ _ _ Hv ND1 NS' Hsub1 E2) as (T2 & ND2 & I2 & A2 & D2).
    assert (I1 : incl (c_packs c1) (c_packs c)) by (destruct P1 as [[_ ->]| ->]; [apply incl_refl|intros x Hx; apply ddel_In in Hx as [Hx _]; exact Hx]).
    split; [congruence|]. split; [exact ND2|]. split; [eapply incl_tran; eassumption|]. split; [congruence|].
    intros s' t' [Hx|Hx] Hin.
    + injection Hx as <- <-. destruct P1 as [[Hd _]|P1]; [exact Hd|].
      exfalso. apply I2 in Hin. rewrite P1 in Hin. apply ddel_In in Hin as [_ Hk]. apply Hk. reflexivity.
    + rewrite <- (Hv _ _ s' t' F1). apply D2; assumption.
Qed.

(* an entry (seq, send time) of pending_acks, read as NonceP.entry_ok reads a built header: it is the datagram
   of some build i, and each of the n - i builds since came at least S after the one before it *)
Definition pend_ok (S n last : Z) (p : Z * Z) : Prop :=
  exists i, 1 <= i <= n /\ fst p = wire i /\ snd p + (n - i) * S <= last.

(* S: a floor of the send interval (ev_open leaves the interval and the time-out as they are); n: the number
   of packets built so far, so that the send counter is seq_of_index n; K: the constant by which resolved +
   pending datagrams differ from built ones (0 from conn0).  ai_ot bounds the time-out so that a pending entry
   is less than a lap of the ring old (next_seq_fresh).  This is everything except "old entries have been
   purged", which is broken between packet assembly and the time-out sweep of the same tick. *)
Record AInv0 (S K : Z) (c : conn) (n : Z) : Prop := {
  ai_n : 0 <= n; ai_seq : c_seq_send c = seq_of_index n; ai_S : S <= c_send_interval c; ai_Spos : 0 < S;
  ai_ot : 0 <= c_out_timeout c < (RING - 1) * S;
  ai_pend : Forall (pend_ok S n (c_last_send c)) (c_packs c);
  ai_nodup : NoDup (map fst (c_packs c));
  ai_count : ack_total c - c_assembled c = K }.

Definition purged (c : conn) : Prop := Forall (fun p => c_last_send c - snd p <= c_out_timeout c) (c_packs c).
Definition AInv (S K : Z) (c : conn) (n : Z) : Prop := AInv0 S K c n /\ purged c.

Definition ainv_fields (c : conn) :=
  (c_seq_send c, c_send_interval c, c_out_timeout c, c_last_send c, c_packs c, c_acked c, c_timeouts c, c_assembled c).

Lemma AInv0_ext S K c c' n : ainv_fields c' = ainv_fields c -> AInv0 S K c n -> AInv0 S K c' n.
Proof.
  intros E [H1 H2 H3 H4 H5 H6 H7 H8]. injection E as Q I O L P A T M.
  constructor; [exact H1|congruence|rewrite I; exact H3|exact H4|rewrite O; exact H5|rewrite P, L; exact H6
               |rewrite P; exact H7|unfold ack_total in *; rewrite P, A, T, M; exact H8].
Qed.

(* a part whose mask spares the fields the invariant reads; the premise holds by computation *)
Lemma wr_AInv S K m : (forall c d, ainv_fields (over m c d) = ainv_fields c) ->
  forall c c' n, wr m c c' -> AInv S K c n -> AInv S K c' n.
Proof.
  intros Hm c c' n [d ->]. specialize (Hm c d). revert Hm. generalize (over m c d). intros c' Ef [H0 Hp].
  split; [exact (AInv0_ext _ _ _ _ _ Ef H0)|]. injection Ef as _ _ O L P _ _ _. unfold purged. rewrite P, L, O. exact Hp.
Qed.

Lemma AInv0_shrink S K c c' n :
  same_core c c' -> ack_total c' = ack_total c -> c_assembled c' = c_assembled c ->
  NoDup (map fst (c_packs c')) -> incl (c_packs c') (c_packs c) ->
  AInv0 S K c n -> AInv0 S K c' n.
Proof.
  intros [_ Q L _ I _ O _] T M ND Sub [H1 H2 H3 H4 H5 H6 H7 H8].
  constructor; [exact H1|congruence|rewrite I; exact H3|exact H4|rewrite O; exact H5
               |rewrite L; eapply incl_Forall; eassumption|exact ND|rewrite T, M; exact H8].
Qed.

Lemma purged_shrink c c' : same_core c c' -> incl (c_packs c') (c_packs c) -> purged c -> purged c'.
Proof. intros [_ _ L _ _ _ O _] Sub H. unfold purged in *. rewrite L, O. eapply incl_Forall; eassumption. Qed.

Lemma ack_verdict_wr h a b s t : wr W_resolve a b -> ack_verdict h b s t = ack_verdict h a s t.
Proof. intros [d ->]. reflexivity. Qed.
Lemma timeout_verdict_wr strict now a b s t : wr W_resolve a b -> timeout_verdict strict now b s t = timeout_verdict strict now a s t.
Proof. intros [d ->]. reflexivity. Qed.

Lemma handle_ack_bits_AInv S K c h c' o n :
  handle_ack_bits c h = (c', o) -> AInv S K c n -> AInv S K c' n.
Proof.
  intros E [H0 Hp]. pose proof E as E'. apply handle_ack_bits_frame in E' as [[Hc] _].
  unfold handle_ack_bits in E. rewrite ack_loop_sweep in E.
  destruct (sweep_total _ _ _ _ _ (ack_verdict_wr h) (ai_nodup _ _ _ _ H0) (ai_nodup _ _ _ _ H0) (incl_refl _) E)
    as (T & ND & Sub & M & _).
  split; [eapply AInv0_shrink; eassumption|eapply purged_shrink; eassumption].
Qed.

Definition keeps_AInv (S K : Z) (c c' : conn) (_ : list out) : Prop :=
  forall n, AInv S K c n -> AInv S K c' n /\ c_seq_send c' = c_seq_send c.
Lemma keeps_AInv_refl S K c : keeps_AInv S K c c []. Proof. intros n H. auto. Qed.
Lemma keeps_AInv_trans S K a b c o1 o2 : keeps_AInv S K a b o1 -> keeps_AInv S K b c o2 -> keeps_AInv S K a c (o1 ++ o2).
Proof. intros H1 H2 n H. destruct (H1 n H) as [Hb Qb]. destruct (H2 n Hb) as [Hc Qc]. split; [exact Hc|congruence]. Qed.

Lemma wire_neq_near i j : 0 < j - i < RING -> wire i <> wire j.
Proof. intros H E. symmetry in E. apply wire_eq_far in E; lia. Qed.

(* the sequence number the next assembly takes is not pending: a pending index i is at most
   out_timeout / S < RING - 1 assemblies old *)
Lemma young_index S n i t last ot : 0 < S -> ot < (RING - 1) * S -> t + (n - i) * S <= last -> last - t <= ot -> n - i < RING - 1.
Proof. unfold RING. nia. Qed.

Lemma next_seq_fresh S K c n : AInv S K c n -> ~ In (seq_succ (c_seq_send c)) (map fst (c_packs c)).
Proof.
  intros [[H1 H2 _ HS [_ Hot] H5 _ _] Hp] Hin. rewrite H2, seq_succ_index, seq_of_index_pos in Hin by exact H1.
  apply in_map_iff in Hin as ([s t] & Hs & Hin). cbn in Hs.
  rewrite Forall_forall in H5. destruct (H5 _ Hin) as (i & I1 & I2 & I3). cbn in I2, I3.
  unfold purged in Hp. rewrite Forall_forall in Hp. pose proof (Hp _ Hin) as Hpu. cbn in Hpu.
  pose proof (young_index _ _ _ _ _ _ HS Hot I3 Hpu).
  apply (wire_neq_near i (n + 1)); [unfold RING in *; lia|congruence].
Qed.

(* packet assembly: the index goes up exactly when a sequence number is consumed; the new entry is
   stamped now, so "purged" waits for the sweep *)
Lemma build_packet_AInv0 e S K c now c1 pk n :
  AInv S K c n -> c_last_send c < now -> build_packet e c now = (c1, pk) ->
  AInv0 S K c1 (match pk with Some _ => n + 1 | None => n end) /\ c_last_send c1 <= now /\
  c_out_timeout c1 = c_out_timeout c /\
  c_seq_send c1 = match pk with Some _ => seq_succ (c_seq_send c) | None => c_seq_send c end.
Proof.
  intros HI Hlt E1. pose proof (next_seq_fresh _ _ _ _ HI) as Hnew. destruct HI as [H0 _].
  pose proof (wr_keeps W_build (fun c => (c_send_interval c, c_out_timeout c, c_acked c, c_timeouts c)) (fun _ _ => eq_refl)
                (build_packet_wr E1)) as Bk.
  injection Bk as Bi Bo Ba Bt. apply build_packet_hdr in E1. destruct pk as [[h ms]|].
  - destruct E1 as (Q1 & P1 & L1 & M1 & Gate & _). destruct H0 as [H1 H2 H3 H3' H4 H5 H6 H7].
    destruct (dset_new_len (seq_succ (c_seq_send c)) now (c_packs c) Hnew) as [Ln Kn].
    split; [|repeat split; [lia|exact Bo|exact Q1]].
    constructor; [lia|rewrite Q1, H2; apply seq_succ_index, H1|congruence|exact H3'|congruence| |
                 |unfold ack_total in *; rewrite P1, Ln, Ba, Bt, M1; lia].
    + rewrite P1, L1. apply Forall_forall. intros x Hx. apply dset_In in Hx as [->|Hx].
      * exists (n + 1). cbn. rewrite H2, seq_succ_index, seq_of_index_pos by exact H1. repeat split; lia.
      * rewrite Forall_forall in H5. destruct (H5 _ Hx) as (i & I1 & I2 & I3). exists i. repeat split; try assumption; lia.
    + rewrite P1, Kn. apply NoDup_snoc; assumption.
  - destruct E1 as (Q1 & P1 & L1 & M1). split; [|repeat split; [lia|exact Bo|exact Q1]].
    revert H0. apply AInv0_ext. unfold ainv_fields. congruence.
Qed.

Lemma check_timeout_AInv strict S K c now c' o n :
  AInv0 S K c n -> c_last_send c <= now -> check_timeout strict c now = (c', o) ->
  AInv S K c' n /\ c_seq_send c' = c_seq_send c /\
  forall s t, In (s, t) (c_packs c') -> overdue strict now t (c_out_timeout c) = false.
Proof.
  intros Hm Hl E2. pose proof E2 as F2. apply check_timeout_frame in F2 as [[Hc2] _].
  unfold check_timeout in E2. rewrite timeout_loop_sweep in E2.
  destruct (sweep_total _ _ _ _ _ (timeout_verdict_wr strict now) (ai_nodup _ _ _ _ Hm) (ai_nodup _ _ _ _ Hm) (incl_refl _) E2)
    as (T & ND & Sub & M & D).
  assert (Hd : forall s t, In (s, t) (c_packs c') -> overdue strict now t (c_out_timeout c) = false).
  { intros s t Hx. specialize (D s t (Sub _ Hx) Hx). unfold timeout_verdict in D.
    destruct (overdue _ _ _ _); [discriminate|reflexivity]. }
  split; [|split; [apply Hc2|exact Hd]]. split; [eapply AInv0_shrink; eassumption|].
  apply Forall_forall. intros [s t] Hx. specialize (Hd s t Hx). cbn [snd].
  destruct Hc2 as [_ _ L2 _ _ _ O2 _]. rewrite L2, O2. unfold overdue in Hd. destruct strict; lia.
Qed.

Lemma tick_tail_AInv strict e S K c now c' o2 o3 n :
  AInv S K c n -> c_last_send c < now -> tick_tail strict e c now = (c', o2, o3) ->
  ((c_seq_send c' = c_seq_send c /\ AInv S K c' n) \/ (c_seq_send c' = seq_succ (c_seq_send c) /\ AInv S K c' (n + 1)))
  /\ forall s t, In (s, t) (c_packs c') -> overdue strict now t (c_out_timeout c) = false.
Proof.
  intros HI Hlt E. apply tick_tail_cases in E as (c1 & pk & E1 & E2 & _).
  destruct (build_packet_AInv0 _ _ _ _ _ _ _ _ HI Hlt E1) as (H1 & L1 & O1 & Q1).
  destruct (check_timeout_AInv _ _ _ _ _ _ _ _ H1 L1 E2) as (H2 & Q2 & D). rewrite O1 in D. split; [|exact D].
  rewrite Q2, Q1. destruct pk; auto.
Qed.

(* events that keep the connection open and leave the two timing parameters alone *)
Definition ev_open (x : ev) : Prop :=
  match x with EDisconnect _ => False | ESetCfg w _ => w = 0 \/ w = 2 | _ => True end.

(* the acknowledgement sweep is one atom: between counting an outcome and forgetting its datagram the count is off by one *)
Lemma atom_AInv e S K x c c' o : ev_open x -> atom e x c c' o -> keeps_AInv S K c c' o.
Proof.
  intros Hop H n HI.
  destruct (atom_cases H) as [W|[(h & E)|[(k & -> & _)|(w & v & -> & ->)]]]; [| |destruct Hop|].
  - split; [revert HI; apply (wr_AInv S K W_misc); [reflexivity|exact W]|]. exact (wr_keeps W_misc c_seq_send (fun _ _ => eq_refl) W).
  - split; [exact (handle_ack_bits_AInv _ _ _ _ _ _ _ E HI)|]. exact (wr_keeps W_resolve c_seq_send (fun _ _ => eq_refl) (handle_ack_bits_wr E)).
  - destruct HI as [[H1 H2 H3 H4 H5 H6 H7 H8] Hp]. cbn [ev_open] in Hop.
    destruct Hop as [->| ->]; (split; [split; [constructor; cbn; assumption|exact Hp]|reflexivity]).
Qed.

Theorem step_AInv_seq e S K c n x c' o :
  ev_open x -> AInv S K c n -> step e c x = (c', o) ->
  (c_seq_send c' = c_seq_send c /\ AInv S K c' n) \/ (c_seq_send c' = seq_succ (c_seq_send c) /\ AInv S K c' (n + 1)).
Proof.
  intros Hop HI E. apply step_acts in E as (c1 & o1 & ot & H & Ht & _).
  apply (star_rel _ _ (keeps_AInv_refl S K) (keeps_AInv_trans S K) (fun a b oo => atom_AInv e S K x a b oo Hop)) in H.
  destruct (H n HI) as [H1 Q1]. destruct Ht as [_|c2 o2 o3 _ G E]; [auto|]. change (ev_clock x) with (ev_now x) in *.
  assert (Hlt : c_last_send c1 < ev_now x) by (destruct H1 as [[_ _ A B _ _ _ _] _]; lia).
  destruct (tick_tail_AInv _ _ _ _ _ _ _ _ _ _ H1 Hlt E) as [D _]. rewrite <- Q1. exact D.
Qed.

Theorem step_AInv e S K c n x c' o :
  ev_open x -> AInv S K c n -> step e c x = (c', o) -> exists n', AInv S K c' n'.
Proof. intros Hop HI E. destruct (step_AInv_seq _ _ _ _ _ _ _ _ Hop HI E) as [[_ H]|[_ H]]; eauto. Qed.

Fixpoint all_open (xs : list ev) : Prop := match xs with [] => True | x :: r => ev_open x /\ all_open r end.

Theorem run_AInv e S K xs : forall c n c' oss,
  all_open xs -> AInv S K c n -> run e c xs = (c', oss) -> exists n', AInv S K c' n'.
Proof.
  induction xs as [|x r IH]; intros c n c' oss Hop HI E; cbn [run] in E.
  - injection E as <- <-. exists n. exact HI.
  - destruct Hop as [Hx Hr]. destruct (step e c x) as [c1 o] eqn:E1. destruct (run e c1 r) as [c2 os] eqn:E2.
    injection E as <- <-. destruct (step_AInv _ _ _ _ _ _ _ _ Hx HI E1) as (n1 & H1). eapply IH; eassumption.
Qed.

(* 256 and TICKS: the send interval and the time-out of conn0 *)
Lemma AInv_conn0 S b : 0 < S -> S <= 256 -> TICKS < (RING - 1) * S -> AInv S 0 (conn0 b) 0.
Proof.
  intros H1 H2 H3. split; [|constructor].
  constructor; try reflexivity; try constructor; try assumption; try lia.
  change (c_out_timeout (conn0 b)) with TICKS. unfold TICKS. lia.
Qed.

(* the sweep's deadline: after a tick that passes the send-rate gate nothing older than the
   message time-out is left pending *)
Theorem server_tick_deadline e S K c n now c' o :
  AInv S K c n -> c_send_interval c < now - c_last_send c -> server_tick e c now = (c', o) ->
  forall s t, In (s, t) (c_packs c') -> now - t <= c_out_timeout c.
Proof.
  intros HI Hg. rewrite server_tick_eq.
  assert (now - c_last_send c >? c_send_interval c = true) as -> by lia.
  destruct (tick_tail true e c now) as [[c2 o2] o3] eqn:E2. intros E. injection E as <- <-.
  assert (Hlt : c_last_send c < now) by (destruct HI as [[_ _ A B _ _ _ _] _]; lia).
  destruct (tick_tail_AInv _ _ _ _ _ _ _ _ _ _ HI Hlt E2) as [_ D].
  intros s t Hin. specialize (D _ _ Hin). unfold overdue in D. lia.
Qed.
