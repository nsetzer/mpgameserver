(* Two properties of whole runs of the server loop (Model/Server.v).
   Raise-irrelevance: the loop driven by a handler oracle h and by a handler that does the same
   things and never raises reach the same state and produce the same outputs except for the logged
   SExc lines.  The token invariant TInv holds at every reachable state. *)
From Model Require Import Base SeqNum Wire Conn Server.
From Proofs Require Import ListP ConnSpecP HandshakeP ServerP C10P.
Open Scope Z_scope.

Definition is_exc (x : sout) : bool := match x with SExc _ => true | _ => false end.
Definition noexc (o : list sout) : list sout := filter (fun x => negb (is_exc x)) o.

Definition clean2 (r : srv * list sout) : srv * list sout := (fst r, noexc (snd r)).
Definition clean3 {A} (r : srv * list sout * A) : srv * list sout * A :=
  let '(s, o, a) := r in (s, noexc o, a).

Lemma noexc_app a b : noexc (a ++ b) = noexc a ++ noexc b.
Proof. apply filter_app. Qed.

Lemma clean2_pair s o : clean2 (s, o) = (s, noexc o).
Proof. reflexivity. Qed.
Lemma clean3_triple {A} s o (a : A) : clean3 (s, o, a) = (s, noexc o, a).
Proof. reflexivity. Qed.
Lemma clean2_then r (k k' : srv -> srv * list sout) : (forall s, k' s = clean2 (k s)) ->
  (let '(s1, o1) := clean2 r in let '(s2, o2) := k' s1 in (s2, o1 ++ o2)) =
  clean2 (let '(s1, o1) := r in let '(s2, o2) := k s1 in (s2, o1 ++ o2)).
Proof.
  intros Hk. destruct r as [s1 o1]. rewrite clean2_pair, Hk. destruct (k s1) as [s2 o2].
  rewrite !clean2_pair, noexc_app. reflexivity.
Qed.
Lemma noexc_id o : Forall (fun x => is_exc x = false) o -> noexc o = o.
Proof.
  induction 1 as [|x r Hx _ IH]; simpl; auto. unfold noexc in *. simpl. rewrite Hx. simpl. congruence.
Qed.
Lemma noexc_idem o : noexc (noexc o) = noexc o.
Proof.
  apply noexc_id. apply Forall_forall. intros x I. apply filter_In in I. destruct I as [_ I].
  destruct (is_exc x); [discriminate|auto].
Qed.
Lemma noexc_cb_outs cid o : noexc (cb_outs cid o) = cb_outs cid o.
Proof.
  apply noexc_id. apply Forall_forall. intros x I. unfold cb_outs in I. apply in_flat_map in I.
  destruct I as (y & _ & I). destruct y; simpl in I; try tauto. destruct I as [<-|[]]. reflexivity.
Qed.
Lemma noexc_send_all l : noexc (send_all l) = send_all l.
Proof.
  apply noexc_id. induction l as [|[[[a hd] k] p] r IH]; cbn [send_all]; constructor; auto.
  destruct (_ && _); reflexivity.
Qed.
Lemma noexc_hlog o : hlog (noexc o) = hlog o.
Proof.
  induction o as [|x r IH]; simpl; auto. destruct x; simpl; rewrite ?IH; auto.
Qed.
Lemma noexc_dgramerr (b : bool) a : noexc (if b then [SDgramErr a] else []) = if b then [SDgramErr a] else [].
Proof. destruct b; reflexivity. Qed.
Lemma noexc_upderr (b : bool) cid : noexc (if b then [SUpdErr cid] else []) = if b then [SUpdErr cid] else [].
Proof. destruct b; reflexivity. Qed.

(* The state never depends on what was written, and noexc goes through ++: each function
   is its callees' equations, a case split, and noexc_app. *)
Section Strip.
Variables h h' : horacle.
Hypothesis Hacts : forall n ev, r_acts (h' n ev) = r_acts (h n ev).
Hypothesis Hquiet : forall n ev, r_raises (h' n ev) = false.

Lemma call_handler_strip e s ev : call_handler h' e s ev = clean2 (call_handler h e s ev).
Proof.
  unfold call_handler, clean2. cbv zeta. rewrite Hacts, Hquiet. f_equal.
  destruct (r_raises _); reflexivity.
Qed.

Lemma on_connect_strip e s cid : on_connect h' e s cid = clean2 (on_connect h e s cid).
Proof.
  unfold on_connect. destruct (sfind cid s) as [cl|]; [|reflexivity].
  destruct (pget _ _); [|reflexivity]. apply call_handler_strip.
Qed.

Lemma srv_msg_strip e s cid now m x :
  srv_msg h' e s cid now m x = clean3 (srv_msg h e s cid now m x).
Proof.
  unfold srv_msg. destruct (sfind cid s) as [cl|]; [|reflexivity].
  match goal with |- context [match (if ?b then ?u else ?v) with _ => _ end] =>
    destruct (if b then u else v) as [[t rand']|] end; [|reflexivity].
  destruct (recv_msgs _ _ _ _) as [c' outs].
  match goal with |- context [if ?b then [SHello _ _ _ _] else []] => destruct b end;
    (destruct (has_connect outs); [|reflexivity]);
    rewrite on_connect_strip; destruct (on_connect h e _ cid) as [s2 o2]; reflexivity.
Qed.

Lemma srv_msgs_strip e cid now ms : forall s xs,
  srv_msgs h' e s cid now ms xs = clean3 (srv_msgs h e s cid now ms xs).
Proof.
  induction ms as [|m r IH]; intros s xs; cbn [srv_msgs]; [reflexivity|].
  rewrite srv_msg_strip. destruct (srv_msg h e s cid now m (hd no_hsx xs)) as [[s1 o1] [|]]; rewrite clean3_triple; [reflexivity|].
  rewrite IH. destruct (srv_msgs h e s1 cid now r _) as [[s2 o2] r2]. rewrite !clean3_triple, noexc_app. reflexivity.
Qed.

Lemma srv_recv_strip e s cid now d xs :
  srv_recv h' e s cid now d xs = clean3 (srv_recv h e s cid now d xs).
Proof.
  unfold srv_recv. destruct (sfind cid s) as [cl|]; [|reflexivity].
  destruct (keyless_refuses _ _); [reflexivity|].
  destruct (open_dgram _ _) as [ms|er]; [|reflexivity].
  destruct (bf_insert _ _) as [bf|er2]; [|reflexivity].
  destruct (handle_ack_bits _ _) as [c1 o1]. rewrite srv_msgs_strip.
  destruct (srv_msgs h e _ cid now ms xs) as [[s2 o2] r2]. rewrite !clean3_triple, noexc_app, noexc_cb_outs. reflexivity.
Qed.

Lemma deliver_msgs_strip e cid q : forall s,
  deliver_msgs h' e s cid q = clean2 (deliver_msgs h e s cid q).
Proof.
  induction q as [|[ms p] r IH]; intros s; cbn [deliver_msgs]; [reflexivity|].
  rewrite call_handler_strip. apply clean2_then. intros s1. apply IH.
Qed.

Lemma deliver_strip e s cid : deliver h' e s cid = clean2 (deliver h e s cid).
Proof.
  unfold deliver. destruct (sfind cid s) as [cl|]; [|reflexivity].
  rewrite deliver_msgs_strip. destruct (deliver_msgs h e s cid _) as [s1 o1]. reflexivity.
Qed.

Lemma disp_item_strip e s now a d xs :
  disp_item h' e s now a d xs = clean2 (disp_item h e s now a d xs).
Proof.
  unfold disp_item. destruct (pget a (s_conns s)) as [cl|].
  - rewrite srv_recv_strip. destruct (srv_recv h e s _ now d xs) as [[s1 o1] r1]. rewrite clean3_triple.
    destruct (s_dead s1); [reflexivity|]. destruct r1.
    + rewrite clean2_pair, noexc_app. reflexivity.
    + rewrite deliver_strip. destruct (deliver h e s1 _) as [s2 o2]. rewrite !clean2_pair, noexc_app. reflexivity.
  - destruct (pget a (s_temp s)) as [cl|]; (destruct (negb _); [reflexivity|]);
      rewrite srv_recv_strip; destruct (srv_recv h e _ _ now d xs) as [[s1 o1] r1]; rewrite clean3_triple;
      (destruct (s_dead s1); [reflexivity|]); rewrite clean2_pair, noexc_app; destruct r1; reflexivity.
Qed.

Lemma disp_all_strip e now q : forall s,
  disp_all h' e s now q = clean2 (disp_all h e s now q).
Proof.
  induction q as [|it r IH]; intros s; cbn [disp_all]; [reflexivity|].
  destruct (s_dead s); [reflexivity|].
  destruct (gate (s_block s) it) as [[[a d] xs]|].
  - rewrite disp_item_strip. apply clean2_then. intros s1. apply IH.
  - rewrite IH. destruct (disp_all h e s now r) as [s2 o2]. reflexivity.
Qed.

Lemma srv_du_strip e s i : srv_du h' e s i = clean2 (srv_du h e s i).
Proof.
  unfold srv_du. rewrite disp_all_strip. destruct (disp_all h e _ _ _) as [s1 o1]. rewrite clean2_pair.
  destruct (s_dead s1); [reflexivity|].
  rewrite call_handler_strip. destruct (call_handler h e s1 HUpdate) as [s2 o2]. rewrite !clean2_pair, noexc_app. reflexivity.
Qed.

(* update() writes callbacks and an error line, never an SExc *)
Lemma tick_client_noexc e s cl now s' o p r cid :
  tick_client e s cl now = (s', o, p, r) -> noexc (o ++ if r then [SUpdErr cid] else []) = o ++ if r then [SUpdErr cid] else [].
Proof.
  unfold tick_client. destruct (server_tick _ _ _) as [c' o']. intros [= <- <- <- <-].
  rewrite noexc_app, noexc_cb_outs. destruct (raised o'); reflexivity.
Qed.

Lemma sweep_conn_strip e s now cid :
  sweep_conn h' e s now cid = clean3 (sweep_conn h e s now cid).
Proof.
  unfold sweep_conn. destruct (pfind cid (s_conns s)) as [cl0|]; [|reflexivity].
  match goal with |- context [pfind cid (s_conns ?x)] =>
    match x with s => fail 1 | _ => generalize x end end. intros sa.
  destruct (pfind cid (s_conns sa)) as [cl|]; [|reflexivity].
  destruct (_ || _).
  - rewrite call_handler_strip. destruct (call_handler h e sa _) as [s1 o1]. rewrite clean2_pair.
    destruct (pfind cid (s_conns s1)) as [cl1|]; [|reflexivity].
    destruct (tick_client e s1 cl1 now) as [[[s2 o2] snd_] r2] eqn:Tk. apply (tick_client_noexc _ _ _ _ _ _ _ _ cid) in Tk.
    rewrite clean3_triple, noexc_app, Tk. reflexivity.
  - destruct (tick_client e sa cl now) as [[[s2 o2] snd_] r2] eqn:Tk. apply (tick_client_noexc _ _ _ _ _ _ _ _ cid) in Tk.
    rewrite clean3_triple, Tk. reflexivity.
Qed.

Lemma sweep_temp_noexc e s now cid : sweep_temp e s now cid = clean3 (sweep_temp e s now cid).
Proof.
  unfold sweep_temp. destruct (pfind cid (s_temp s)) as [cl|]; [|reflexivity].
  destruct (_ || _); [reflexivity|].
  destruct (tick_client e s cl now) as [[[s2 o2] snd_] r2] eqn:Tk. apply (tick_client_noexc _ _ _ _ _ _ _ _ cid) in Tk.
  rewrite clean3_triple, Tk. reflexivity.
Qed.

Lemma sweep_list_strip (f f' : srv -> Z -> srv * list sout * list pending) :
  (forall s cid, f' s cid = clean3 (f s cid)) ->
  forall ids s, sweep_list f' s ids = clean3 (sweep_list f s ids).
Proof.
  intros Hf. induction ids as [|cid r IH]; intros s; cbn [sweep_list]; [reflexivity|].
  rewrite Hf. destruct (f s cid) as [[s1 o1] p1]. rewrite clean3_triple, IH.
  destruct (sweep_list f s1 r) as [[s2 o2] p2]. rewrite !clean3_triple, noexc_app. reflexivity.
Qed.

Lemma shutdown_list_strip e ids : forall s,
  shutdown_list h' e s ids = clean2 (shutdown_list h e s ids).
Proof.
  induction ids as [|cid r IH]; intros s; cbn [shutdown_list]; [reflexivity|].
  destruct (pfind cid (s_conns s)) as [cl|]; [|apply IH].
  rewrite call_handler_strip. apply clean2_then. intros s1. apply IH.
Qed.

Lemma srv_shutdown_strip e s : srv_shutdown h' e s = clean2 (srv_shutdown h e s).
Proof.
  unfold srv_shutdown. rewrite shutdown_list_strip. destruct (shutdown_list h e s _) as [s1 o1]. rewrite clean2_pair.
  rewrite call_handler_strip. destruct (call_handler h e s1 HShutdown) as [s2 o2]. rewrite !clean2_pair, noexc_app. reflexivity.
Qed.

Lemma srv_sx_strip e s i : srv_sx h' e s i = clean2 (srv_sx h e s i).
Proof.
  unfold srv_sx.
  rewrite (sweep_list_strip (fun s cid => sweep_conn h e s (i_ts i) cid)
                            (fun s cid => sweep_conn h' e s (i_ts i) cid))
    by (intros; apply sweep_conn_strip).
  destruct (sweep_list _ s _) as [[s3 o3] p3]. rewrite clean3_triple.
  pose proof (sweep_list_strip _ _ (fun s cid => sweep_temp_noexc e s (i_ts i) cid) (map cl_id (s_temp s3)) s3) as N4.
  destruct (sweep_list _ s3 _) as [[s4 o4] p4]. injection N4 as N4.
  destruct (i_stop i).
  - rewrite srv_shutdown_strip. destruct (srv_shutdown h e s4) as [s6 o6].
    rewrite !clean2_pair, !noexc_app, noexc_send_all, <- N4. reflexivity.
  - rewrite clean2_pair, !noexc_app, noexc_send_all, <- N4. reflexivity.
Qed.

Lemma srv_step_strip e s i : srv_step h' e s i = clean2 (srv_step h e s i).
Proof.
  unfold srv_step. destruct (negb (s_active s) || s_dead s); [reflexivity|].
  rewrite srv_du_strip. destruct (srv_du h e s i) as [s2 o2]. rewrite clean2_pair.
  destruct (s_dead s2); [reflexivity|].
  rewrite srv_sx_strip. destruct (srv_sx h e s2 i) as [s6 o6]. rewrite !clean2_pair, noexc_app. reflexivity.
Qed.

Lemma srv_run_strip e is : forall s, srv_run h' e s is = clean2 (srv_run h e s is).
Proof.
  induction is as [|i r IH]; intros s; cbn [srv_run]; [reflexivity|].
  rewrite srv_step_strip. apply clean2_then. intros s1. apply IH.
Qed.

Lemma srv_life_strip e g bl is : srv_life h' e g bl is = clean2 (srv_life h e g bl is).
Proof.
  unfold srv_life, srv_start. rewrite call_handler_strip. apply clean2_then. intros s0. apply srv_run_strip.
Qed.

End Strip.

Lemma strip_acts h : forall n ev, r_acts (strip h n ev) = r_acts (h n ev).
Proof. reflexivity. Qed.
Lemma strip_quiet h : forall n ev, r_raises (strip h n ev) = false.
Proof. reflexivity. Qed.

(* two handlers that do the same things and differ only in WHICH calls raise: both runs are, up to
   the SExc lines, the run of the handler that does what they do and never raises *)
Lemma srv_life_same_acts h1 h2 e g bl is : (forall n ev, r_acts (h1 n ev) = r_acts (h2 n ev)) ->
  clean2 (srv_life h1 e g bl is) = clean2 (srv_life h2 e g bl is).
Proof.
  intros A. transitivity (srv_life (fun n ev => {| r_acts := r_acts (h1 n ev); r_raises := false |}) e g bl is).
  - symmetry. apply srv_life_strip; reflexivity.
  - apply srv_life_strip; [exact A|reflexivity].
Qed.

Definition ctok (cl : client) : Z := c_token (cl_conn cl).
Definition ckey (cl : client) : option Z := c_key (cl_conn cl).
Definition pooled (s : srv) : pool := s_conns s ++ s_temp s.

(* T1: every pooled object is a server-side connection, and one that holds a session key holds a
       non-zero token;  T2: every object of `connections` holds a session key;
   T3: two different pooled objects never share a non-zero token *)
Definition TInv (s : srv) : Prop :=
  (forall cl, In cl (pooled s) -> c_server (cl_conn cl) = true /\ (ckey cl <> None -> ctok cl <> 0)) /\
  (forall cl, In cl (s_conns s) -> ckey cl <> None) /\
  (forall cl1 cl2, In cl1 (pooled s) -> In cl2 (pooled s) -> cl_id cl1 <> cl_id cl2 ->
                   ctok cl1 <> 0 -> ctok cl1 <> ctok cl2).

Lemma TInv_srv0 g bl : TInv (srv0 g bl).
Proof. split; [|split]; cbn; intros; tauto. Qed.

Lemma tokens_in_use_pooled s : tokens_in_use s = map ctok (pooled s).
Proof. reflexivity. Qed.
Lemma in_pooled_conns s y : In y (s_conns s) -> In y (pooled s).
Proof. intros. apply in_or_app. auto. Qed.
Lemma in_pooled_temp s y : In y (s_temp s) -> In y (pooled s).
Proof. intros. apply in_or_app. auto. Qed.
Lemma pooled_supd cid f s : pooled (supd cid f s) = pmap_id cid f (pooled s).
Proof. apply pool_supd. Qed.
Lemma conns_supd cid f s : s_conns (supd cid f s) = pmap_id cid f (s_conns s).
Proof. reflexivity. Qed.

Lemma Inv_nodup_ids s phi : Inv s phi -> NoDup (map cl_id (s_temp s ++ s_conns s)).
Proof. intros (A & _). rewrite <- shape_app, shape_ids in A. exact A. Qed.
Lemma pooled_nodup_ids s phi : Inv s phi -> NoDup (map cl_id (pooled s)).
Proof. apply Inv_ids. Qed.
Lemma pooled_unique s phi cl cl' :
  Inv s phi -> In cl (pooled s) -> In cl' (pooled s) -> cl_id cl = cl_id cl' -> cl = cl'.
Proof. apply Inv_unique. Qed.

Lemma same_disconnect c k : same c (disconnect c k).
Proof. apply disconnect_same. Qed.
Lemma same_send e c p r k : same c (fst (send e c p r k)).
Proof. apply send_same. Qed.
Lemma same_server_tick e c now : same c (fst (server_tick e c now)).
Proof. apply server_tick_same. Qed.

(* s' holds no object, up to what the invariant reads, that s did not hold: everything but the
   assignment of a token and the creation of an object is of this kind *)
Lemma TInv_sub s s' : TInv s ->
  (forall y, In y (pooled s') -> exists z, In z (pooled s) /\ cl_id z = cl_id y /\ same (cl_conn z) (cl_conn y)) ->
  (forall y, In y (s_conns s') -> ckey y <> None) -> TInv s'.
Proof.
  intros (T1 & T2 & T3) L K. split; [|split]; auto.
  - intros y I. destruct (L y I) as (z & Iz & _ & Ek & Es & Et). unfold ckey, ctok. rewrite Ek, Es, Et. apply T1, Iz.
  - intros y1 y2 I1 I2 N Z1. destruct (L y1 I1) as (z1 & J1 & E1 & _ & _ & Et1), (L y2 I2) as (z2 & J2 & E2 & _ & _ & Et2).
    unfold ctok in *. rewrite Et1, Et2 in *. apply T3; auto; congruence.
Qed.

Lemma supd_T s phi cid f : Inv s phi -> TInv s ->
  (forall z, In z (pooled s) -> cl_id z = cid -> same (cl_conn z) (f (cl_conn z))) -> TInv (supd cid f s).
Proof.
  intros I T H. apply (TInv_sub s); auto.
  - intros y Iy. unfold pooled in Iy. rewrite pool_supd in Iy. apply in_pmap_id in Iy.
    destruct Iy as (z & Iz & Ei & [[_ ->]|[E C]]); exists z; [auto using same_refl|]. rewrite C. auto.
  - intros y Iy. apply in_pmap_id in Iy. destruct Iy as (z & Iz & _ & [[_ ->]|[E C]]); [apply T, Iz|].
    unfold ckey. rewrite C. destruct (H z (in_or_app _ _ _ (or_introl Iz)) E) as (-> & _). apply T, Iz.
Qed.

Lemma upd_T s s' phi : upd s s' -> Inv s phi -> TInv s -> TInv s'.
Proof.
  induction 1 as [| s1 s2 s3 U1 IH1 U2 IH2 | | | s cid f Hf | s cid cl c' Icl Ec Hc]; intros I T; auto.
  - apply IH2; auto. apply (Inv_frame _ _ _ (upd_frame _ _ U1) I).
  - apply (supd_T s phi); auto.
  - apply (supd_T s phi); auto. intros z Iz Ez. rewrite (Inv_unique s phi z cl I Iz Icl); congruence.
Qed.

Lemma recv_msgs_nil c now orcs : recv_msgs c now [] orcs = (c, []).
Proof. reflexivity. Qed.

#[local] Arguments recv_msgs : simpl never.
Lemma recv_one_tks c now m o c' outs :
  c_server c = true -> recv_msgs c now [m] [o] = (c', outs) ->
  same c c' \/
  (w_type m = CLIENT_HELLO /\ (exists bf, bf_insert (c_bf_msg c) (w_seq m) = Ok bf) /\ o_parse o = 0 /\
   o_version_ok o = true /\ c_server c' = true /\ c_token c' = o_token o /\ c_key c' <> None).
Proof.
  intros Sv R. destruct (recv_one _ _ _ _ _ _ R) as (Sv' & _ & Tok & _).
  destruct (Tok Sv) as [S|(Ty & Du & Pz & Vo & Tk)]; [left; exact S|right].
  (* the accepted hello stores the key: recv_one does not say so *)
  rewrite recv_msgs_cons in R. destruct (bf_insert _ _) as [bf|]; [|discriminate Du].
  unfold dispatch, recv_handshake in R. rewrite Ty in R. cbn in R. rewrite Sv, Pz, Vo in R. cbn in R.
  rewrite recv_msgs_nil in R. injection R as <- <-.
  repeat split; eauto. discriminate.
Qed.

(* the one place where a token is assigned *)
Lemma recv_T s phi cid cl c' : Inv s phi -> TInv s -> sfind cid s = Some cl ->
  msg_effect (tokens_in_use s) (cl_conn cl) c' -> TInv (supd cid (fun _ => c') s).
Proof.
  intros I T F (Sv' & Km & Eff). apply sfind_in in F. destruct F as [Ec Pcl].
  assert (U : forall z, In z (pooled s) -> cl_id z = cid -> z = cl).
  { intros z Iz Ez. apply (Inv_unique s phi z cl I Iz Pcl). congruence. }
  pose proof T as (T1 & T2 & T3). destruct (T1 cl Pcl) as [Sv _]. destruct (Eff Sv) as [K|[Nz Fr]].
  { apply (supd_T s phi); auto. intros z Iz Ez. rewrite (U z Iz Ez). exact K. }
  assert (M : forall y, In y (pooled (supd cid (fun _ => c') s)) ->
              In y (pooled s) /\ cl_id y <> cid \/ cl_id y = cid /\ cl_conn y = c').
  { intros y Iy. unfold pooled in Iy. rewrite pool_supd in Iy. apply in_pmap_id in Iy.
    destruct Iy as (z & Iz & Ei & [[N ->]|[E C]]); [left|right]; auto. split; congruence. }
  assert (Used : forall z, In z (pooled s) -> ctok z <> c_token c').
  { intros z Iz E. apply Fr. rewrite <- E. apply (in_map ctok), Iz. }
  split; [|split].
  - intros y Iy. destruct (M y Iy) as [[Jy _]|[_ C]]; auto. unfold ctok, ckey. rewrite C. split; [congruence|auto].
  - intros y Iy. apply in_pmap_id in Iy. destruct Iy as (z & Iz & _ & [[_ ->]|[E C]]); auto.
    unfold ckey. rewrite C. apply Km. rewrite <- (U z (in_or_app _ _ _ (or_introl Iz)) E). apply T2, Iz.
  - intros y1 y2 I1 I2 N Z1. unfold ctok.
    destruct (M y1 I1) as [[J1 N1]|[E1 C1]], (M y2 I2) as [[J2 N2]|[E2 C2]]; rewrite ?C1, ?C2.
    + apply T3; auto.
    + apply Used, J1.
    + intros E. apply (Used y2 J2). auto.
    + congruence.
Qed.

(* ServerP.in_pmap_id strengthened by the address, which pmap_id keeps as well (the uses above and ServerP's own need
   only identity and connection, and mean ServerP's) *)
Lemma in_pmap_id cid f p y : In y (pmap_id cid f p) ->
  exists z, In z p /\ cl_id y = cl_id z /\ cl_addr y = cl_addr z /\
            ((cl_id z <> cid /\ y = z) \/ (cl_id z = cid /\ cl_conn y = f (cl_conn z))).
Proof.
  intros I. apply in_map_iff in I. destruct I as (z & <- & I). exists z.
  destruct (Z.eqb_spec (cl_id z) cid); auto 6.
Qed.

Lemma TInv_add s s' cl : TInv s -> ctok cl = 0 -> ckey cl = None -> c_server (cl_conn cl) = true ->
  (forall y, In y (pooled s') -> y = cl \/ In y (pooled s)) -> (forall y, In y (s_conns s') -> In y (s_conns s)) ->
  TInv s'.
Proof.
  intros (T1 & T2 & T3) Z K Sv M C. split; [|split]; auto.
  - intros y I. destruct (M y I) as [->|J]; [split; [auto|congruence]|auto].
  - intros y1 y2 I1 I2 N Z1. destruct (M y1 I1) as [->|J1]; [congruence|].
    destruct (M y2 I2) as [->|J2]; [congruence|]. apply T3; auto.
Qed.

Lemma TInv_incl s s' : TInv s -> (forall y, In y (pooled s') -> In y (pooled s)) ->
  (forall y, In y (s_conns s') -> ckey y <> None) -> TInv s'.
Proof. intros T L. apply (TInv_sub s s' T). intros y Iy. exists y. auto using same_refl. Qed.

Lemma tr_T k s o s' : tr k s o s' -> forall phi, Inv s phi -> scoped k s -> TInv s -> TInv s'.
Proof.
  (* tr_upd, tr_ev, tr_msg are upd_T; tr_say and tr_die change no object; the other seven follow *)
  induction 1 as [k s o1 s1 o2 s2 T1 IH1 T2 IH2| | | | | | | | | | | ]; intros phi I Sc T0; auto; try (eapply upd_T; eassumption).
  - (* tr_app *) destruct (tr_Inv _ _ _ _ T1 phi [] I Sc) as [I1 Sc1]. eapply IH2; eauto.
  - (* tr_within *) eapply IHtr; eauto. intros ? [= <-]. exact M.
  - (* tr_promote: the object is moved, and it holds a key *)
    destruct (tr_Inv _ _ _ _ (tr_promote k s cid cl x _ o F G Kc (upd_refl _) L) phi [] I Sc) as [Ip _].
    apply (upd_T _ _ _ U Ip). apply sfind_in in F. destruct F as [_ Pcl].
    apply (TInv_incl s _ T0).
    + intros y Iy. apply in_app_iff in Iy. destruct Iy as [Iy|Iy].
      * destruct (in_pset _ _ _ Iy) as [->|J]; auto. apply in_or_app. auto.
      * apply in_or_app. right. eapply in_pdel, Iy.
    + intros y Iy. destruct (in_pset _ _ _ Iy) as [->|J]; auto. apply T0, J.
  - (* tr_new: a keyless object with token 0 *)
    eapply (TInv_add s) with (cl := {| cl_id := s_next_id s; cl_addr := a; cl_conn := new_conn (s_cfg s) |});
      [exact T0|reflexivity|reflexivity|reflexivity| |auto].
    intros y Iy. apply in_app_iff in Iy. destruct Iy as [Iy|Iy]; [right; apply in_or_app; auto|].
    apply in_pset in Iy. destruct Iy; auto. right. apply in_or_app. auto.
  - (* tr_recv *) eapply recv_T; eauto.
  - (* tr_drop *) apply (TInv_incl s _ T0); [|apply T0]. intros y Iy.
    apply in_app_iff in Iy. apply in_or_app. destruct Iy as [|Iy]; auto. right. apply (in_pdel _ _ _ Iy).
  - (* tr_disc *) pose proof (upd_T _ _ _ U I T0) as T2. apply (TInv_incl s2 _ T2).
    + intros y Iy. apply in_app_iff in Iy. apply in_or_app. destruct Iy as [Iy|]; auto. left. apply (in_pdel _ _ _ Iy).
    + intros y Iy. apply T2, (in_pdel _ _ _ Iy).
Qed.

Lemma TInv_stops s0 s1 s : stops s0 s1 s -> TInv s1 -> TInv s.
Proof. intros [->|[-> _]] T; exact T. Qed.

Lemma srv_recv_T h e s cid now d xs s' o r phi :
  srv_recv h e s cid now d xs = (s', o, r) -> Inv s phi -> TInv s -> TInv s'.
Proof. intros H I T. apply (tr_T None s o s' (srv_recv_tr None _ _ _ _ _ _ _ _ _ _ H) phi I); [discriminate|exact T]. Qed.

Lemma disp_item_T h e s now a d xs s' o phi :
  disp_item h e s now a d xs = (s', o) -> Inv s phi -> TInv s -> TInv s'.
Proof. intros H I T. apply (tr_T None s o s' (disp_item_tr _ _ _ _ _ _ _ _ _ H) phi I); [discriminate|exact T]. Qed.

Lemma disp_all_T h e now q : forall s s' o phi,
  disp_all h e s now q = (s', o) -> Inv s phi -> TInv s -> TInv s'.
Proof. intros s s' o phi H I T. apply (tr_T None s o s' (disp_all_tr _ _ _ _ _ _ _ H) phi I); [discriminate|exact T]. Qed.

Lemma srv_du_T h e s i s' o phi : srv_du h e s i = (s', o) -> Inv s phi -> TInv s -> TInv s'.
Proof. intros H I T. apply (tr_T None s o s' (srv_du_tr _ _ _ _ _ _ H) phi I); [discriminate|exact T]. Qed.

Lemma srv_step_T h e s i s' o phi : srv_step h e s i = (s', o) -> Inv s phi -> TInv s -> TInv s'.
Proof.
  intros S I T. apply srv_step_tr in S. destruct S as (s1 & Tr & St).
  apply (TInv_stops _ _ _ St). eapply tr_T; eauto. discriminate.
Qed.

Lemma srv_run_T h e is : forall s s' o phi,
  srv_run h e s is = (s', o) -> Inv s phi -> TInv s -> TInv s'.
Proof.
  intros s s' o phi R I T. apply srv_run_tr in R. destruct R as (s1 & Tr & St).
  apply (TInv_stops _ _ _ St). eapply tr_T; eauto. discriminate.
Qed.

Lemma srv_life_T h e g bl is s o : srv_life h e g bl is = (s, o) -> TInv s.
Proof.
  intros L. apply srv_life_tr in L. destruct L as (s1 & Tr & St). apply (TInv_stops _ _ _ St).
  eapply tr_T; [exact Tr|apply Inv_srv0|discriminate|apply TInv_srv0].
Qed.

Definition nonzero (t : Z) : bool := negb (t =? 0).

Lemma nodup_tokens l :
  NoDup (map cl_id l) ->
  (forall a b, In a l -> In b l -> cl_id a <> cl_id b -> ctok a <> 0 -> ctok a <> ctok b) ->
  NoDup (filter nonzero (map ctok l)).
Proof.
  induction l as [|a r IH]; cbn [map filter]; intros N H; [constructor|].
  inversion N as [|? ? N1 N2]; subst.
  assert (IHr : NoDup (filter nonzero (map ctok r))).
  { apply IH; auto. intros x y Ix Iy. apply H; simpl; auto. }
  destruct (nonzero (ctok a)) eqn:Z; auto. constructor; auto.
  intros I. apply filter_In in I. destruct I as [I _]. apply in_map_iff in I. destruct I as (b & E & Ib).
  apply (H a b); simpl; auto.
  - intros X. apply N1. rewrite X. apply in_map; auto.
  - intros X. unfold nonzero in Z. rewrite X in Z. discriminate.
Qed.

Lemma TInv_distinct s phi : Inv s phi -> TInv s ->
  NoDup (map cl_id (s_conns s ++ s_temp s)) /\
  NoDup (filter nonzero (tokens_in_use s)) /\
  (forall cl1 cl2, In cl1 (s_conns s ++ s_temp s) -> In cl2 (s_conns s ++ s_temp s) ->
     cl_id cl1 <> cl_id cl2 -> c_token (cl_conn cl1) <> 0 -> c_token (cl_conn cl1) <> c_token (cl_conn cl2)).
Proof.
  intros I (_ & _ & T3). pose proof (Inv_ids _ _ I) as N. split; [exact N|]. split; [|exact T3].
  apply nodup_tokens; auto.
Qed.

Lemma TInv_connected s cl : TInv s -> In cl (s_conns s) ->
  c_token (cl_conn cl) <> 0 /\ c_key (cl_conn cl) <> None /\ c_server (cl_conn cl) = true.
Proof.
  intros (T1 & T2 & _) I. destruct (T1 cl (in_or_app _ _ _ (or_introl I))) as [Sv K].
  pose proof (T2 cl I) as Ky. auto.
Qed.

Lemma nodup_filter_all {A} (p : A -> bool) l : (forall x, In x l -> p x = true) -> filter p l = l.
Proof.
  induction l as [|a r IH]; simpl; intros H; auto. rewrite (H a) by auto. rewrite IH; auto.
Qed.

Lemma TInv_connected_distinct s phi : Inv s phi -> TInv s ->
  NoDup (map (fun cl => c_token (cl_conn cl)) (s_conns s)) /\
  Forall (fun cl => c_token (cl_conn cl) <> 0) (s_conns s).
Proof.
  intros I T. destruct (TInv_distinct s phi I T) as (_ & N & _).
  assert (F : Forall (fun cl => c_token (cl_conn cl) <> 0) (s_conns s)).
  { apply Forall_forall. intros cl Icl. apply (TInv_connected s cl T Icl). }
  split; [|exact F].
  unfold tokens_in_use in N. rewrite map_app, filter_app in N. apply NoDup_app_inv in N. destruct N as [N _].
  replace (filter nonzero (map _ (s_conns s))) with (map (fun cl => c_token (cl_conn cl)) (s_conns s)) in N; [exact N|].
  clear - F. induction F as [|cl r Hc _ IH]; simpl; [reflexivity|].
  unfold nonzero at 1. destruct (Z.eqb_spec (c_token (cl_conn cl)) 0); [contradiction|]. simpl. congruence.
Qed.
