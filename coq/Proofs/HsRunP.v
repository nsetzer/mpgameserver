(* C02 at run level: invariants of the joint handshake history of Model/HsNet.v, and what is read off them.
   One proof rule for Handshake.hstep (hstep_R): a predicate over (endpoint state, ghost log gA / gB) that
   survives (a) every qrel change of the connection and (b) one handshake message (Handshake.hs_step +
   Handshake.note), handed over with the datagram that carried it and the key held when that arrived and
   appended to the log, survives every event, with HsNet.tag_log of that event appended.  Its instances:
   RA (client: authentication), RB (server-side connection: key / token / connect, and what held when
   each entry was logged) and, trivially, tag_log_carried.  JB_inv is RB at the joint state, JA_inv adds
   what is on A's wire, SB_inv what the AES-GCM hypothesis gives for B.  The facts read off them (JB_signed_was_built …
   inv_foreign_hello_never_completes) are general in the section variables; Properties/C02.v instantiates them at
   the reachable states (JA_reach, JB_reach, SB_reach). *)
From RecordUpdate Require Import RecordUpdate.
From Model Require Import Base SeqNum Wire Conn Handshake Net HsNet.
From Proofs Require Import ConnFrameP HandshakeP.
Import RecordSetNotations.
Open Scope Z_scope.

(* the changes that are not the handshake's: HandshakeP.quiet written as one conjunction *)
Definition qrel (c c' : conn) : Prop :=
  c_key c' = c_key c /\ c_server c' = c_server c /\ c_token c' = c_token c /\
  (c_status c' = CONNECTED -> c_status c = CONNECTED).

Lemma qrel_refl c : qrel c c. Proof. repeat split; auto. Qed.
Lemma qrel_trans a b c : qrel a b -> qrel b c -> qrel a c.
Proof. unfold qrel. intros (A1 & A2 & A3 & A4) (B1 & B2 & B3 & B4). repeat split; try congruence. auto. Qed.
Lemma same_qrel c c' : same c c' -> (c_status c' = CONNECTED -> c_status c = CONNECTED) -> qrel c c'.
Proof. intros (A & B & C) D. repeat split; auto. Qed.
Lemma same_st_qrel c c' : same_st c c' -> qrel c c'.
Proof. intros [S D]. apply same_qrel; [exact S|congruence]. Qed.

Lemma olast_app_one {A} (l : list A) x : last (map Some (l ++ [x])) None = Some x.
Proof. rewrite map_app. cbn. apply last_last. Qed.

Section Run.
  Variable SIG : Type.
  Variable pub : Z -> Z.
  Variable sign : Z -> sh_payload -> SIG.
  Variable verify : Z -> SIG -> sh_payload -> bool.
  Variable dh : Z -> Z -> Z.
  Variable kdf : Z -> Z -> Z.
  Variable parse : list byte -> hmsg SIG.
  Variable ser_shello : Z -> sh_payload -> SIG -> list byte.
  Variable ser_chal : Z -> list byte.

  Notation hstate := (hstate SIG).
  Notation hmsg := (hmsg SIG).
  Notation hentry := (hentry SIG).
  Notation jentry := (jentry SIG).
  Notation hnet := (hnet SIG).
  Notation oracle_of := (oracle_of SIG pub sign verify dh kdf ser_shello ser_chal).
  Notation hs_step := (hs_step SIG pub sign verify dh kdf ser_shello ser_chal).
  Notation hwalk := (hwalk SIG pub sign verify dh kdf parse ser_shello ser_chal).
  Notation hrecv := (hrecv SIG pub sign verify dh kdf parse ser_shello ser_chal).
  Notation hstep := (hstep SIG pub sign verify dh kdf parse ser_shello ser_chal).
  Notation hrx_recv := (hrx_recv SIG pub sign verify dh kdf parse ser_shello ser_chal).
  Notation hmsg1 := (hmsg1 SIG pub sign verify dh kdf parse ser_shello ser_chal).
  Notation lwalk := (lwalk SIG pub sign verify dh kdf parse ser_shello ser_chal).
  Notation recv_log := (recv_log SIG pub sign verify dh kdf parse ser_shello ser_chal).
  Notation ev_log := (ev_log SIG pub sign verify dh kdf parse ser_shello ser_chal).
  Notation tag_log := (tag_log SIG pub sign verify dh kdf parse ser_shello ser_chal).
  Notation jstep := (jstep SIG pub sign verify dh kdf parse ser_shello ser_chal).
  Notation jrun := (jrun SIG pub sign verify dh kdf parse ser_shello ser_chal).
  Notation note := (note SIG).
  Notation with_bf := (with_bf SIG).

  Lemma oracle_of_with_bf (s : hstate) bf ty m : oracle_of (with_bf s bf) ty m = oracle_of s ty m.
  Proof. reflexivity. Qed.

  Lemma note_with_bf (s : hstate) bf ty m o c1 o1 : note (with_bf s bf) ty m o c1 o1 = note s ty m o c1 o1.
  Proof. reflexivity. Qed.

  Lemma hmsg1_hs (s : hstate) now m bf : is_hs (w_type m) = true ->
    hmsg1 s now m bf =
    let sb := with_bf s bf in
    let hm := parse (w_payload m) in
    let '(c1, o1) := hs_step sb (w_type m) hm in
    (note sb (w_type m) hm (oracle_of sb (w_type m) hm) c1 o1, o1).
  Proof.
    intros Hs. unfold HsNet.hmsg1, Handshake.hs_step. cbv zeta.
    rewrite oracle_of_with_bf.
    change (h_conn (with_bf s bf)) with ((h_conn s) <| c_bf_msg := bf |>).
    destruct (w_type m); try discriminate Hs; cbn [is_hs];
      destruct (recv_handshake _ _ _) as [c1 o1]; rewrite note_with_bf; reflexivity.
  Qed.

  Lemma hmsg1_other (s : hstate) now m bf : is_hs (w_type m) = false ->
    exists c1, fst (hmsg1 s now m bf) = s <| h_conn := c1 |> /\ qrel (h_conn s) c1.
  Proof.
    intros Hs. unfold HsNet.hmsg1. cbv zeta.
    assert (Q0 : qrel (h_conn s) ((h_conn s) <| c_bf_msg := bf |>)) by (repeat split; auto).
    destruct (w_type m); try discriminate Hs; cbn [is_hs fst].
    - eexists; split; [reflexivity|exact Q0].
    - eexists; split; [reflexivity|exact Q0].
    - eexists; split; [reflexivity|]. repeat split; auto. discriminate.
    - eexists; split; [reflexivity|]. repeat split; auto.
    - destruct (recv_fragment _ now (w_seq m) (w_payload m)) as [c1 o1] eqn:F. cbn [fst].
      eexists; split; [reflexivity|]. eapply qrel_trans; [exact Q0|].
      refine (wr_rel qrel W_frag _ _ _ (recv_fragment_wr F)). intros ? ?. repeat split; auto.
  Qed.

  Lemma client_update_qrel c now : qrel c (fst (client_update c now)).
  Proof. destruct (client_update_quiet c now). now apply same_qrel. Qed.

  Lemma tick_tail_qrel strict e c now : qrel c (fst (fst (tick_tail strict e c now))).
  Proof. apply same_st_qrel, tick_tail_same. Qed.

  (* an event that brings no datagram: the event's own atoms, then at most the tail of update() *)
  Lemma step_free_qrel e c x : oracle_free x = true -> qrel c (fst (step e c x)).
  Proof.
    intros OF. destruct (step e c x) as [c' o] eqn:E. cbn [fst].
    apply step_shape in E as (c0 & c1 & o0 & o1 & ot & H0 & H1 & Ht & _).
    assert (Q0 : qrel c c0).
    { revert H0. apply (star_rel _ (fun a b _ => qrel a b)); [intros; apply qrel_refl|intros; eapply qrel_trans; eauto|].
      intros a b oo H. destruct (catom_quiet _ _ _ _ _ H). now apply same_qrel. }
    destruct H1 as [_|now d orcs c2 o2 o2' _ [(-> & _)|(-> & _)] _]; try discriminate OF.
    destruct Ht as [_|c2 o2 o3 _ _ T]; [exact Q0|]. eapply qrel_trans; [exact Q0|].
    pose proof (tick_tail_qrel (ev_strict x) e c0 (ev_clock x)) as Q. rewrite T in Q. exact Q.
  Qed.

  Lemma ev_log_nil (s : hstate) x : hev_dgram x = None -> ev_log s x = [].
  Proof. destruct x as [? ?|? [| |?]| |]; cbn; try discriminate; reflexivity. Qed.

  Section RSame.
    Variable R : hstate -> list hentry -> Prop.     (* state and log so far *)
    Hypothesis R_q : forall (s : hstate) g c', qrel (h_conn s) c' -> R s g -> R (s <| h_conn := c' |>) g.

    Lemma R_same (s : hstate) g : R s g -> R (s <| h_conn := h_conn s |>) g.
    Proof. apply R_q. apply qrel_refl. Qed.
  End RSame.

  Notation hs_step_view := (hs_step_view SIG pub sign verify dh kdf ser_shello ser_chal).
  Notation adopts := (adopts SIG verify).
  Notation connects := (connects SIG pub sign verify dh kdf ser_shello ser_chal).
  Notation signed_of := (signed_of SIG pub).

  Lemma signed_of_refused (s : hstate) ty m :
    hs_accepted (h_conn s) ty (oracle_of s ty m) = false -> signed_of (s, ty, m) = [].
  Proof.
    unfold HsNet.signed_of. destruct ty; try reflexivity. destruct m as [cpub ver [|]| | |]; try reflexivity.
    destruct (c_server (h_conn s)) eqn:Sv; [|reflexivity]. destruct (ver =? h_version s) eqn:V; [|reflexivity].
    unfold hs_accepted, Handshake.oracle_of. rewrite Sv. destruct (hd (0, 0) (h_rand s)). cbn. rewrite V. discriminate.
  Qed.

  Lemma signed_of_in (s : hstate) ty m cpub p : In (cpub, p) (signed_of (s, ty, m)) ->
    c_server (h_conn s) = true /\ ty = CLIENT_HELLO /\ m = MClientHello cpub (h_version s) true /\
    p = next_payload SIG pub s.
  Proof.
    unfold HsNet.signed_of. destruct ty; try (intros []). destruct m as [cp ver [|]| | |]; try (intros []).
    destruct (c_server (h_conn s)); [|intros []]. destruct (ver =? h_version s) eqn:V; [|intros []].
    apply Z.eqb_eq in V. subst ver. intros [[= <- <-]|[]]. auto.
  Qed.

  (* HandshakeP.hs_step_view read by role: the client's half with what it means for `adopts` ... *)
  Lemma client_hs_cases (s : hstate) ty m c1 o1 :
    c_server (h_conn s) = false -> hs_step s ty m = (c1, o1) ->
    (exists rp p sg, ty = SERVER_HELLO /\ m = MServerHello rp p sg /\ verify (check_key s rp) sg p = true /\
       note s ty m (oracle_of s ty m) c1 o1 = s <| h_conn := c1 |> <| h_adopted := Some (rp, p, sg) |> /\
       c_key c1 = Some (kdf (dh (h_priv s) (sp_pub p)) (sp_salt p)) /\ c_token c1 = sp_token p /\
       c_server c1 = false) \/
    (qrel (h_conn s) c1 /\ note s ty m (oracle_of s ty m) c1 o1 = s <| h_conn := c1 |> /\
     forall rp p sg, ~ adopts (s, ty, m) rp p sg).
  Proof.
    intros Sv H.
    destruct (hs_step_view _ _ _ _ _ H) as [rp p sg -> -> _ V E1 _ Nt|? _ _ Sv'|? _ _ Sv'|_ C B _ Nt]; try congruence.
    - left. exists rp, p, sg. split; [reflexivity|]. split; [reflexivity|]. split; [exact V|]. split; [exact Nt|].
      subst c1. repeat split. exact Sv.
    - right. split; [|split; [exact Nt|]].
      + destruct C as [->|[_ ->]]; [apply qrel_refl|repeat split; auto; discriminate].
      + intros rp p sg (-> & -> & _ & V). destruct (B _ _ _ Sv eq_refl eq_refl). congruence.
  Qed.

  (* ... the server side's with what it means for `signed_of` and `connects` *)
  Lemma server_hs_cases (s : hstate) ty m c1 o1 :
    c_server (h_conn s) = true -> h_temp s = TSelf \/ h_temp s = TNone -> hs_step s ty m = (c1, o1) ->
    (* (A) a client hello is answered: key, token, CONNECTING (the whole new connection, with the signed
       hello queued, is HandshakeP.step_client_hello_ok) *)
    (exists cpub ver, ty = CLIENT_HELLO /\ m = MClientHello cpub ver true /\
       let p := {| sp_pub := pub (h_priv s); sp_salt := fst (hd (0, 0) (h_rand s));
                   sp_token := snd (hd (0, 0) (h_rand s)) |} in
       signed_of (s, ty, m) = [(cpub, p)] /\ connects (s, ty, m) = false /\
       c_server c1 = true /\ c_key c1 = Some (kdf (dh (h_priv s) cpub) (sp_salt p)) /\
       c_token c1 = sp_token p /\ c_status c1 = CONNECTING /\
       note s ty m (oracle_of s ty m) c1 o1 = s <| h_conn := c1 |> <| h_rand := tl (h_rand s) |>) \/
    (* (B) the challenge response carries the token of this connection: connect *)
    (ty = CHALLENGE_RESP /\ m = MChallenge (c_token (h_conn s)) /\ h_temp s = TSelf /\
       signed_of (s, ty, m) = [] /\ connects (s, ty, m) = true /\ o1 = [OHandlerConnect] /\
       c1 = (h_conn s) <| c_status := CONNECTED |> /\
       note s ty m (oracle_of s ty m) c1 o1 = s <| h_conn := c1 |> <| h_temp := TNone |>) \/
    (* (C) anything else *)
    (qrel (h_conn s) c1 /\ signed_of (s, ty, m) = [] /\ connects (s, ty, m) = false /\
       note s ty m (oracle_of s ty m) c1 o1 = s <| h_conn := c1 |>).
  Proof.
    intros Sv Tmp H.
    assert (CC : connects (s, ty, m) = has_connect o1) by (unfold HsNet.connects; rewrite H; reflexivity).
    destruct (hs_step_view _ _ _ _ _ H) as [? ? ? _ _ Sv'|cpub -> -> _ E1 Eo Nt|tok -> -> _ T E1 Eo Nt|A Q _ O Nt]; try congruence.
    - left. exists cpub, (h_version s). cbv zeta. split; [reflexivity|]. split; [reflexivity|].
      split; [unfold HsNet.signed_of; rewrite Sv, Z.eqb_refl; reflexivity|]. split; [rewrite CC, Eo; reflexivity|].
      split; [|split; [|split; [|split; [|exact Nt]]]]; rewrite E1; try reflexivity. exact Sv.
    - right; left. unfold temp_token in T. destruct Tmp as [Tm|Tm]; rewrite Tm in T; [|discriminate T]. injection T as <-.
      repeat split; auto. rewrite CC, Eo. reflexivity.
    - right; right. split; [destruct Q as [->|[? _]]; [apply qrel_refl|congruence]|].
      split; [apply signed_of_refused, A|]. split; [|exact Nt]. rewrite CC. destruct O as [->|[er ->]]; reflexivity.
  Qed.

  Notation client_key := (client_key dh kdf).
  Notation server_key := (server_key dh kdf).
  Notation carried := (carried SIG parse).
  Notation signed_log := (signed_log SIG pub).
  Notation genuine_payloads := (genuine_payloads SIG pub).
  Notation dy_ev := (dy_ev SIG pub sign parse).
  Notation dy_run := (dy_run SIG pub sign verify dh kdf parse ser_shello ser_chal).
  Notation sealed_ev := (sealed_ev SIG).
  Notation sealed_run := (sealed_run SIG pub sign verify dh kdf parse ser_shello ser_chal).
  Notation hnet0 := (hnet0 SIG).

  Lemma app_snoc_split {A} (g g1 g2 : list A) x y : g ++ [x] = g1 ++ y :: g2 ->
    (g2 = [] /\ g1 = g /\ y = x) \/ exists g2', g2 = g2' ++ [x] /\ g = g1 ++ y :: g2'.
  Proof.
    destruct g2 as [|z g2' _] using rev_ind; intros H.
    - left. apply app_inj_tail in H as [-> ->]. auto.
    - right. exists g2'. change (g1 ++ y :: g2' ++ [z]) with (g1 ++ (y :: g2') ++ [z]) in H.
      rewrite app_assoc in H. apply app_inj_tail in H as [-> ->]. auto.
  Qed.

  Lemma hist_snoc {A} (Q : list A -> A -> Prop) g x :
    (forall g1 y g2, g = g1 ++ y :: g2 -> Q g1 y) -> Q g x -> forall g1 y g2, g ++ [x] = g1 ++ y :: g2 -> Q g1 y.
  Proof.
    intros H Hx g1 y g2 E. apply app_snoc_split in E as [(-> & -> & ->)|(g2' & -> & ->)]; [exact Hx|exact (H _ _ _ eq_refl)].
  Qed.

  Lemma map_snd_tag (s : hstate) x : map snd (tag_log s x) = ev_log s x.
  Proof.
    unfold HsNet.tag_log. destruct (hev_dgram x) eqn:E.
    - rewrite map_map. cbn. apply map_id.
    - rewrite ev_log_nil; auto.
  Qed.

  Lemma in_tag_log (s : hstate) x d k0 en : In (d, k0, en) (tag_log s x) ->
    hev_dgram x = Some d /\ k0 = c_key (h_conn s) /\ In en (ev_log s x).
  Proof.
    unfold HsNet.tag_log. destruct (hev_dgram x) as [d'|]; [|intros []].
    intros Hin. apply in_map_iff in Hin as (en' & E & I'). inversion E; subst. auto.
  Qed.

  Lemma sealed_dg_of o d k sh p : In d (flat_map dg_of o) -> d_body d = Sealed k sh p ->
    In (OEmit (d_hdr d) (Some k) p) o.
  Proof.
    intros Hin Hb. apply in_flat_map in Hin as (x & Hx & Hd).
    destruct x as [h [k'|] p'| | | | | |]; cbn in Hd; try destruct Hd as [<-|[]]; try destruct Hd.
    - cbn in Hb. inversion Hb; subst. exact Hx.
    - cbn in Hb. discriminate.
  Qed.

  Lemma jrun_snoc e (n : hnet) vs v : jrun e n (vs ++ [v]) = jstep e (jrun e n vs) v.
  Proof. unfold HsNet.jrun. rewrite fold_left_app. reflexivity. Qed.

  (* Hy: what is assumed of the events still to come (dy_run, sealed_run, or nothing) *)
  Lemma jrun_ind e (I : hnet -> Prop) (Hy : hnet -> list jev -> Prop) :
    (forall n v r, I n -> Hy n (v :: r) -> I (jstep e n v) /\ Hy (jstep e n v) r) ->
    forall vs n, I n -> Hy n vs -> I (jrun e n vs).
  Proof.
    intros St vs. induction vs as [|v r IH]; intros n Hi Hh; [exact Hi|].
    destruct (St n v r Hi Hh) as [Hi' Hh']. exact (IH _ Hi' Hh').
  Qed.

  Lemma last_some_in {A} (l : list A) x : last (map Some l) None = Some x -> In x l.
  Proof.
    destruct l as [|y l' _] using rev_ind; [discriminate|].
    rewrite olast_app_one. intros E. inversion E; subst. apply in_or_app. right. left. reflexivity.
  Qed.

  Lemma map_snd_split (g l1 l2 : list jentry) j : g = l1 ++ j :: l2 -> map snd g = map snd l1 ++ snd j :: map snd l2.
  Proof. intros ->. rewrite map_app. reflexivity. Qed.

  Lemma in_genuine_payloads other (n : hnet) p : In p (genuine_payloads other n) ->
    In p other \/ exists cpub, In (cpub, p) (signed_log (gB n)).
  Proof.
    unfold HsNet.genuine_payloads. intros X. apply in_app_or in X as [X|X]; [left; exact X|right].
    apply in_map_iff in X as ([cpub p'] & E & X). cbn in E. subst p'. exists cpub. exact X.
  Qed.

  Lemma signed_log_snoc (g : list jentry) j : signed_log (g ++ [j]) = signed_log g ++ signed_of (snd j).
  Proof. unfold HsNet.signed_log. rewrite flat_map_app. cbn. rewrite app_nil_r. reflexivity. Qed.

  Definition tag (d : dgram) (k0 : option Z) (en : hentry) : jentry := (d, k0, en).

  Section Rule.
  Variable R : hstate -> list jentry -> Prop.     (* state and log so far *)
  Variable Pm : hmsg -> Prop.                     (* what is known of the messages presented *)
  Hypothesis R_q : forall (s : hstate) g c', qrel (h_conn s) c' -> R s g -> R (s <| h_conn := c' |>) g.
  (* one handshake message, with the datagram that carried it and the key held when that arrived; a
     datagram accepted without a key is a single hello, and a key once held stays *)
  Hypothesis R_hs : forall (s : hstate) g d k0 ty hm c1 o1, is_hs ty = true -> Pm hm ->
    carried (d, k0, (s, ty, hm)) -> (k0 = None \/ c_key (h_conn s) = None -> ty <> CHALLENGE_RESP) -> R s g ->
    hs_step s ty hm = (c1, o1) -> R (note s ty hm (oracle_of s ty hm) c1 o1) (g ++ [(d, k0, (s, ty, hm))]).

  Lemma hwalk_R now d k0 ms0 : open_dgram k0 d = Ok ms0 -> (k0 = None -> no_chal ms0) ->
    forall ms (s : hstate) g s' o orcs, incl ms ms0 -> (c_key (h_conn s) = None -> no_chal ms) ->
    Forall (fun w => Pm (parse (w_payload w))) ms -> R s g ->
    hwalk s now ms = (s', o, orcs) -> R s' (g ++ map (tag d k0) (lwalk s now ms)).
  Proof.
    intros OD NC0. induction ms as [|m r IH]; intros s g s' o orcs Sub NC HP HR H.
    - injection H as <- _ _. cbn. rewrite app_nil_r. exact HR.
    - inversion HP as [|? ? Pm1 HP']; subst. rewrite hwalk_cons in H. cbn [HsNet.lwalk].
      assert (Sub' : incl r ms0) by (intros w Hw; apply Sub; right; exact Hw).
      assert (NC' : c_key (h_conn s) = None -> no_chal r) by (intros K; specialize (NC K); inversion NC; assumption).
      destruct (bf_insert (c_bf_msg (h_conn s)) (w_seq m)) as [bf|].
      2:{ destruct (hwalk s now r) as [[s1 o1] orcs1] eqn:W. injection H as <- _ _. eapply IH; eauto. }
      destruct (hmsg1 s now m bf) as [s1 o1] eqn:M1.
      assert (R1 : R s1 (g ++ map (tag d k0) (if is_hs (w_type m) then [(with_bf s bf, w_type m, parse (w_payload m))] else []))
                   /\ (c_key (h_conn s) <> None -> c_key (h_conn s1) <> None)).
      { destruct (is_hs (w_type m)) eqn:Hs.
        - rewrite (hmsg1_hs _ _ _ _ Hs) in M1. cbv zeta in M1.
          destruct (hs_step (with_bf s bf) (w_type m) (parse (w_payload m))) as [c1 o1'] eqn:St.
          injection M1 as <- <-. split.
          + apply R_hs; auto.
            * exists ms0, m. split; [exact OD|]. split; [apply Sub; left; reflexivity|auto].
            * intros K Ty. assert (N : no_chal [m]).
              { destruct K as [K|K]; [specialize (NC0 K); constructor; [|constructor]|specialize (NC K); inversion NC; subst; constructor; auto].
                unfold no_chal in NC0. rewrite Forall_forall in NC0. apply NC0, Sub. left; reflexivity. }
              inversion N; contradiction.
            * unfold HsNet.with_bf. apply R_q; [repeat split; auto|exact HR].
          + rewrite (note_conn SIG). apply recv_handshake_fx in St. apply St.
        - destruct (hmsg1_other s now m bf Hs) as (c1 & E1 & Q1). rewrite M1 in E1. cbn in E1. subst s1.
          split; [cbn; rewrite app_nil_r; apply R_q; auto|]. destruct Q1 as (Qk & _). cbn. rewrite Qk. auto. }
      destruct R1 as [R1 Km].
      destruct (raised o1).
      + injection H as <- _ _. exact R1.
      + destruct (hwalk s1 now r) as [[s2 o2] orcs2] eqn:W. injection H as <- _ _.
        rewrite map_app, app_assoc. eapply IH; eauto.
        intros K. apply NC'. destruct (c_key (h_conn s)); [destruct Km; [discriminate|exact K]|reflexivity].
  Qed.

  Lemma hrecv_R (s : hstate) g now d s' o :
    (forall m, msg_in SIG parse d m -> Pm m) -> R s g -> hrecv s now d = (s', o) ->
    R s' (g ++ map (tag d (c_key (h_conn s))) (recv_log s now d)).
  Proof.
    intros HP HR H. unfold Handshake.hrecv in H. unfold HsNet.recv_log.
    assert (Drop : R (s <| h_conn := (h_conn s) <| c_dropped := c_dropped (h_conn s) + 1 |> |>) (g ++ map (tag d (c_key (h_conn s))) [])).
    { cbn. rewrite app_nil_r. apply R_q; [repeat split; auto|exact HR]. }
    destruct (keyless_refuses (h_conn s) (d_hdr d)) eqn:KR; [injection H as <- _; exact Drop|].
    destruct (open_dgram (c_key (h_conn s)) d) as [ms|] eqn:OD; [|injection H as <- _; exact Drop].
    destruct (bf_insert (c_bf_pkt (h_conn s)) (h_seq (d_hdr d))) as [bf|]; [|injection H as <- _; exact Drop].
    match type of H with context [handle_ack_bits ?c0 _] => set (cc := c0) in * end.
    destruct (handle_ack_bits cc (d_hdr d)) as [c1 o1] eqn:HA.
    assert (Q1 : qrel cc c1) by (refine (wr_rel qrel W_resolve _ _ _ (handle_ack_bits_wr HA)); intros ? ?; repeat split; auto).
    destruct (hwalk (s <| h_conn := c1 |>) now ms) as [[s2 o2] orcs] eqn:W. injection H as <- _.
    assert (NC : c_key (h_conn s) = None -> no_chal ms).
    { intros K0. rewrite keyless_refuses_eq, K0 in KR. rewrite K0 in OD. eapply keyless_single_hello; eauto. }
    eapply (hwalk_R now d _ ms OD NC); [| | | |exact W].
    - apply incl_refl.
    - destruct Q1 as (K1 & _). change (c_key c1 = None -> no_chal ms). rewrite K1. exact NC.
    - apply Forall_forall. intros w Hw. apply HP. exists (c_key (h_conn s)), ms, w. auto.
    - apply R_q; [|exact HR]. eapply qrel_trans; [|exact Q1].
      subst cc. repeat split; auto.
  Qed.

  Theorem hstep_R e (s : hstate) g x s' o :
    (forall d m, hev_dgram x = Some d -> msg_in SIG parse d m -> Pm m) ->
    R s g -> hstep e s x = (s', o) -> R s' (g ++ tag_log s x).
  Proof.
    intros HP HR H. unfold HsNet.tag_log.
    destruct x as [now d|now r|now hello|x]; cbn [Handshake.hstep HsNet.ev_log HsNet.hev_dgram] in *.
    - eapply hrecv_R; [|exact HR|exact H]. intros m Hm. eapply HP; [reflexivity|exact Hm].
    - rewrite hclient_tick_eq in H.
      pose proof (client_update_qrel (h_conn s) now) as Q0.
      destruct (client_update (h_conn s) now) as [c0 o0]. cbn [fst] in *.
      assert (R0 : R (s <| h_conn := c0 |>) g) by (apply R_q; auto).
      destruct (status_eqb (c_status c0) DROPPED).
      { injection H as <- _. destruct r; cbn; rewrite app_nil_r; exact R0. }
      assert (Tail : forall s1 o1 g', R s1 g' ->
                (if raised o1 then (s1, o0 ++ o1)
                 else if now - c_last_send (h_conn s1) >? c_send_interval (h_conn s1) then
                        let '(c2, o2, o3) := tick_tail false e (h_conn s1) now in (s1 <| h_conn := c2 |>, o0 ++ o1 ++ o2 ++ o3)
                      else (s1, o0 ++ o1)) = (s', o) -> R s' g').
      { intros s1 o1 g' R1 H1. destruct (raised o1); [injection H1 as <- _; exact R1|].
        destruct (_ >? _); [|injection H1 as <- _; exact R1].
        pose proof (tick_tail_qrel false e (h_conn s1) now) as Q.
        destruct (tick_tail false e (h_conn s1) now) as [[c2 o2] o3]. injection H1 as <- _. apply R_q; [exact Q|exact R1]. }
      destruct r as [|er|d]; cbn [HandshakeP.hrx_recv] in H.
      + apply (Tail _ _ _ R0) in H. rewrite app_nil_r. exact H.
      + apply (Tail _ _ _ R0) in H. rewrite app_nil_r. exact H.
      + destruct (hrecv (s <| h_conn := c0 |>) now d) as [s2 o2] eqn:Rv. refine (Tail _ _ _ _ H).
        destruct Q0 as (<- & _). refine (hrecv_R (s <| h_conn := c0 |>) g now d _ _ _ R0 Rv). intros m. apply HP. reflexivity.
    - injection H as <- _. rewrite app_nil_r. apply R_q; [|exact HR].
      unfold client_hello, send_type. repeat split; auto. discriminate.
    - rewrite app_nil_r. destruct (oracle_free x) eqn:OF; [|injection H as <- _; exact HR].
      pose proof (step_free_qrel e (h_conn s) x OF) as Q.
      destruct (step e (h_conn s) x) as [c1 o1]. injection H as <- _. apply R_q; auto.
  Qed.
  End Rule.

  (* the rule at its weakest: every logged message travelled in the datagram it is logged with *)
  Lemma tag_log_carried e (s : hstate) x s' o : hstep e s x = (s', o) -> Forall carried (tag_log s x).
  Proof.
    intros H. change (Forall carried ([] ++ tag_log s x)).
    eapply (hstep_R (fun _ g => Forall carried g) (fun _ => True)); [auto| |auto|constructor|exact H].
    intros s0 g d k0 ty hm c1 o1 _ _ Car _ F _. apply Forall_app. split; [exact F|]. constructor; [exact Car|constructor].
  Qed.

  Section Invariants.
    Hypothesis verify_sign : forall sk s m, verify (pub sk) s m = true <-> s = sign sk m.
    Variables (a b root : Z) (akeys : list Z).
    Hypothesis root_secret : ~ In root akeys.

    Definition client_consts (s : hstate) : Prop :=
      c_server (h_conn s) = false /\ h_priv s = a /\ h_pinned s = Some (pub root).
    Definition hello_of (p : sh_payload) : hmsg := MServerHello (pub root) p (sign root p).
    Definition PmA (G : list sh_payload) (m : hmsg) : Prop := attacker_hello SIG sign akeys (map hello_of G) m.

    (* G: the payloads the genuine server has signed so far *)
    Definition RA (G : list sh_payload) (s : hstate) (g : list jentry) : Prop :=
      client_consts s /\
      (forall j, In j g -> client_consts (fst (fst (snd j))) /\ carried j) /\
      (forall j rp p sg, In j g -> adopts (snd j) rp p sg -> sg = sign root p /\ In p G) /\
      match h_adopted s with
      | None => c_key (h_conn s) = None /\ c_status (h_conn s) <> CONNECTED /\
                (forall j rp p sg, In j g -> ~ adopts (snd j) rp p sg)
      | Some (rp, p, sg) => (exists j, In j g /\ adopts (snd j) rp p sg) /\
                            c_key (h_conn s) = Some (client_key a p) /\ c_token (h_conn s) = sp_token p
      end.

    Lemma RA_mono G G' s g : incl G G' -> RA G s g -> RA G' s g.
    Proof.
      intros HI (C & CE & AD & AK). split; [exact C|]. split; [exact CE|]. split; [|exact AK].
      intros j rp p sg Hin Ha. destruct (AD _ _ _ _ Hin Ha). split; auto.
    Qed.

    Lemma RA_q G (s : hstate) g c' : qrel (h_conn s) c' -> RA G s g -> RA G (s <| h_conn := c' |>) g.
    Proof.
      intros (Qk & Qs & Qt & Qc) ((Sv & Pr & Pin) & CE & AD & AK).
      split; [unfold client_consts; cbn; repeat split; congruence|]. split; [exact CE|]. split; [exact AD|].
      cbn. destruct (h_adopted s) as [[[rp p] sg]|].
      - destruct AK as (X & K & T). split; [exact X|]. split; congruence.
      - destruct AK as (K & St & X). split; [congruence|]. split; [|exact X]. intros Y. apply St. auto.
    Qed.

    Lemma RA_ext G (s s0 : hstate) g d k0 ty m : client_consts s0 -> carried (d, k0, (s0, ty, m)) ->
      (forall rp p sg, ~ adopts (s0, ty, m) rp p sg) -> RA G s g -> RA G s (g ++ [(d, k0, (s0, ty, m))]).
    Proof.
      intros C0 Car NA (C & CE & AD & AK). split; [exact C|]. split; [|split].
      - intros j Hin. apply in_app_or in Hin as [Hin|[<-|[]]]; [auto|split; [exact C0|exact Car]].
      - intros j rp p sg Hin Ha. apply in_app_or in Hin as [Hin|[<-|[]]]; [eapply AD; eauto|destruct (NA _ _ _ Ha)].
      - destruct (h_adopted s) as [[[rp p] sg]|].
        + destruct AK as ((j & Hin & Ha) & K & T). split; auto. exists j. split; auto. apply in_or_app; auto.
        + destruct AK as (K & St & X). repeat split; auto.
          intros j rp p sg Hin Ha. apply in_app_or in Hin as [Hin|[<-|[]]]; [eapply X; eauto|destruct (NA _ _ _ Ha)].
    Qed.

    Lemma RA_hs G (s : hstate) g d k0 ty hm c1 o1 : is_hs ty = true -> PmA G hm ->
      carried (d, k0, (s, ty, hm)) -> (k0 = None \/ c_key (h_conn s) = None -> ty <> CHALLENGE_RESP) -> RA G s g ->
      hs_step s ty hm = (c1, o1) -> RA G (note s ty hm (oracle_of s ty hm) c1 o1) (g ++ [(d, k0, (s, ty, hm))]).
    Proof.
      intros _ HP Car _ HR St. pose proof HR as ((Sv & Pr & Pin) & CE & AD & AK).
      destruct (client_hs_cases _ _ _ _ _ Sv St) as [(rp & p & sg & -> & -> & V & Nt & K & T & Sv1)|(Q & Nt & NA)]; rewrite Nt.
      - assert (Sg : sg = sign root p).
        { unfold check_key in V. rewrite Pin in V. apply verify_sign. exact V. }
        assert (InG : In p G).
        { destruct (HP root Sg) as [X|(rp' & X)]; [contradiction|].
          apply in_map_iff in X as (p1 & E1 & I1). unfold hello_of in E1. congruence. }
        assert (Ad : adopts (s, SERVER_HELLO, MServerHello rp p sg) rp p sg) by (repeat split; auto).
        split; [unfold client_consts; cbn; repeat split; auto|]. split; [|split].
        + intros j Hin. apply in_app_or in Hin as [Hin|[<-|[]]]; [auto|split; [repeat split; auto|exact Car]].
        + intros j rp0 p0 sg0 Hin Ha. apply in_app_or in Hin as [Hin|[<-|[]]]; [eapply AD; eauto|].
          destruct Ha as (_ & E & _). assert (p0 = p /\ sg0 = sg) as [-> ->] by (split; congruence). auto.
        + cbn. split; [|split].
          * eexists; split; [apply in_or_app; right; left; reflexivity|exact Ad].
          * rewrite K, Pr. reflexivity.
          * exact T.
      - apply RA_ext; [repeat split; auto|exact Car|exact NA|]. apply RA_q; auto.
    Qed.

    Theorem RA_step e G (s : hstate) g x s' o :
      (forall d m, hev_dgram x = Some d -> msg_in SIG parse d m -> PmA G m) ->
      RA G s g -> hstep e s x = (s', o) -> RA G s' (g ++ tag_log s x).
    Proof. apply (hstep_R (RA G) (PmA G) (RA_q G) (RA_hs G)). Qed.

    Definition server_consts (s : hstate) : Prop :=
      c_server (h_conn s) = true /\ h_priv s = b /\ h_root s = root /\ (h_temp s = TSelf \/ h_temp s = TNone).
    (* key and token are those of the hello signed last *)
    Definition keyrel (s : hstate) (g : list jentry) : Prop :=
      match last (map Some (signed_log g)) None with
      | None => c_key (h_conn s) = None
      | Some (cpub, p) => c_key (h_conn s) = Some (server_key b cpub p) /\ c_token (h_conn s) = sp_token p /\
                          sp_pub p = pub b
      end.
    (* what held when an entry was logged: g1 is the log before it *)
    Definition entryB (g1 : list jentry) (j : jentry) : Prop :=
      let '(d, k0, (s1, ty, m)) := j in
      server_consts s1 /\ keyrel s1 g1 /\ carried j /\
      (connects (s1, ty, m) = true ->
         ty = CHALLENGE_RESP /\ m = MChallenge (c_token (h_conn s1)) /\ h_temp s1 = TSelf /\
         c_key (h_conn s1) <> None /\ exists k, k0 = Some k /\ authentic k d).
    (* the server-side connection s and its log g: the constants; key and token are those of the hello signed last;
       every entry was logged under entryB; CONNECTED only through a logged challenge response that reported
       connect, with the key and token held since; while the temp pool still holds this connection nothing
       has reported connect *)
    Definition RB (s : hstate) (g : list jentry) : Prop :=
      server_consts s /\ keyrel s g /\
      (forall g1 j g2, g = g1 ++ j :: g2 -> entryB g1 j) /\
      (c_status (h_conn s) = CONNECTED ->
         exists d k0 s1 m, In (d, k0, (s1, CHALLENGE_RESP, m)) g /\ connects (s1, CHALLENGE_RESP, m) = true /\
                      c_key (h_conn s1) = c_key (h_conn s) /\ c_token (h_conn s1) = c_token (h_conn s)) /\
      (h_temp s = TSelf -> forall j, In j g -> connects (snd j) = false).

    Lemma keyrel_q (s : hstate) g c' : qrel (h_conn s) c' -> keyrel s g -> keyrel (s <| h_conn := c' |>) g.
    Proof.
      intros (Qk & Qs & Qt & Qc). unfold keyrel. cbn. destruct (last _ _) as [[cpub p]|]; [|congruence].
      intros (K & T & P). repeat split; congruence.
    Qed.

    Lemma RB_q (s : hstate) g c' : qrel (h_conn s) c' -> RB s g -> RB (s <| h_conn := c' |>) g.
    Proof.
      intros Q ((Sv & Pr & Rt & Tm) & KR & Hist & Cn & NC). pose proof Q as (Qk & Qs & Qt & Qc).
      split; [|split; [|split; [|split]]]; auto.
      - unfold server_consts. cbn. repeat split; auto. congruence.
      - apply keyrel_q; auto.
      - cbn. intros St. destruct (Cn (Qc St)) as (d & k0 & s1 & m & I1 & C1 & K1 & T1). exists d, k0, s1, m. repeat split; auto; congruence.
    Qed.

    Lemma RB_ext (s : hstate) g j : entryB g j -> signed_of (snd j) = [] -> connects (snd j) = false ->
      RB s g -> RB s (g ++ [j]).
    Proof.
      intros En SO CO (C & KR & Hist & Cn & NC). split; [exact C|]. split; [|split; [|split]].
      - unfold keyrel in *. rewrite signed_log_snoc, SO, app_nil_r. exact KR.
      - apply (hist_snoc _ _ _ Hist), En.
      - intros St. destruct (Cn St) as (d1 & k1 & s1 & m1 & I1 & R1). exists d1, k1, s1, m1. split; [apply in_or_app; auto|exact R1].
      - intros Tm j' Hin. apply in_app_or in Hin as [Hin|[<-|[]]]; [apply NC; auto|exact CO].
    Qed.

    (* the premise True is Pm of the rule: nothing is assumed of the messages presented to B *)
    Lemma RB_hs (s : hstate) g d k0 ty hm c1 o1 : is_hs ty = true -> True ->
      carried (d, k0, (s, ty, hm)) -> (k0 = None \/ c_key (h_conn s) = None -> ty <> CHALLENGE_RESP) -> RB s g ->
      hs_step s ty hm = (c1, o1) -> RB (note s ty hm (oracle_of s ty hm) c1 o1) (g ++ [(d, k0, (s, ty, hm))]).
    Proof.
      intros _ _ Car NoCh HR St. pose proof HR as (C & KR & Hist & Cn & NC). pose proof C as (Sv & Pr & Rt & Tm).
      (* the entry itself: a connect is reported only for a challenge response, and that was opened under a key *)
      assert (En : (connects (s, ty, hm) = true -> ty = CHALLENGE_RESP /\ hm = MChallenge (c_token (h_conn s)) /\ h_temp s = TSelf) ->
                   entryB g (d, k0, (s, ty, hm))).
      { intros X. split; [exact C|]. split; [exact KR|]. split; [exact Car|]. intros Y.
        destruct (X Y) as (-> & -> & Ts). repeat split; auto.
        - intros K. exact (NoCh (or_intror K) eq_refl).
        - destruct k0 as [k|]; [|destruct (NoCh (or_introl eq_refl) eq_refl)]. exists k. split; [reflexivity|].
          destruct Car as (ms & w & OD & _). eapply open_keyed_authentic; eauto. }
      destruct (server_hs_cases _ _ _ _ _ Sv Tm St) as
        [(cpub & ver & -> & -> & SO & CO & Sv1 & K1 & T1 & St1 & Nt)|[(-> & -> & Ts & SO & CO & -> & -> & Nt)|(Q & SO & CO & Nt)]];
        rewrite Nt.
      - (* a signed hello *)
        split; [|split; [|split; [|split]]].
        + repeat split; auto.
        + unfold keyrel. rewrite signed_log_snoc. cbn [snd]. rewrite SO, olast_app_one. cbn. rewrite K1, T1, Pr. repeat split.
        + apply (hist_snoc _ _ _ Hist), En. rewrite CO. discriminate.
        + cbn. rewrite St1. discriminate.
        + intros Ts' j Hin. apply in_app_or in Hin as [Hin|[<-|[]]]; [exact (NC Ts' j Hin)|exact CO].
      - (* connect *)
        split; [|split; [|split; [|split]]].
        + repeat split; auto.
        + unfold keyrel in *. rewrite signed_log_snoc. cbn [snd]. rewrite SO, app_nil_r. exact KR.
        + apply (hist_snoc _ _ _ Hist), En. auto.
        + intros _. exists d, k0, s, (MChallenge (c_token (h_conn s))). split; [apply in_or_app; right; left; reflexivity|].
          split; [exact CO|]. auto.
        + discriminate.
      - apply RB_ext; [apply En; congruence|exact SO|exact CO|apply RB_q; auto].
    Qed.

    Theorem RB_step e (s : hstate) g x s' o : RB s g -> hstep e s x = (s', o) -> RB s' (g ++ tag_log s x).
    Proof. intros HR H. eapply (hstep_R RB (fun _ => True) RB_q RB_hs); eauto. Qed.
  End Invariants.

  (* B alone: every history, whatever the client and the attacker do *)
  Section ServerSide.
    Variables (b root : Z).

    Definition JB_inv (n : hnet) : Prop := RB b root (jB n) (gB n).

    Lemma JB_step e (n : hnet) v : JB_inv n -> JB_inv (jstep e n v).
    Proof.
      unfold JB_inv. intros HR. destruct v as [x|x]; cbn [HsNet.jstep].
      - destruct (hstep e (jA n) x) as [a' o]. exact HR.
      - destruct (hstep e (jB n) x) as [b' o] eqn:H. cbn. eapply RB_step; eauto.
    Qed.

    Lemma JB_init a pinned rand : JB_inv (hnet0 a pinned b root rand).
    Proof.
      split; [repeat split; auto|]. split; [reflexivity|]. split; [|split].
      - intros g1 j g2 E. destruct g1; discriminate E.
      - cbn. discriminate.
      - intros _ j [].
    Qed.

    Lemma JB_run e vs : forall (n : hnet), JB_inv n -> JB_inv (jrun e n vs).
    Proof.
      intros n H. apply (jrun_ind e JB_inv (fun _ _ => True)); [|exact H|exact I].
      intros n0 v r H0 _. split; [apply JB_step, H0|exact I].
    Qed.

    Lemma JB_reach e a pinned rand vs : JB_inv (jrun e (hnet0 a pinned b root rand) vs).
    Proof. apply JB_run, JB_init. Qed.

    (* A payload in the signed log belongs to a logged CLIENT_HELLO message in
       whose processing B queued the hello signed with the root key and took key and token from it *)
    Lemma JB_signed_was_built n : JB_inv n -> forall cpub p, In (cpub, p) (signed_log (gB n)) ->
      exists d k0 sB ver, In (d, k0, (sB, CLIENT_HELLO, MClientHello cpub ver true)) (gB n) /\
        sp_pub p = pub b /\
        fst (hs_step sB CLIENT_HELLO (MClientHello cpub ver true)) =
          send_type ((h_conn sB) <| c_token := sp_token p |> <| c_key := Some (server_key b cpub p) |>
                       <| c_status := CONNECTING |>)
            SERVER_HELLO (ser_shello (pub root) p (sign root p)) RNone INone.
    Proof.
      intros (_ & _ & Hist & _) cpub p Hin.
      unfold HsNet.signed_log in Hin. apply in_flat_map in Hin as ([[d k0] [[sB ty] m]] & Hj & Hs). cbn [snd] in Hs.
      apply signed_of_in in Hs as (Sv & -> & -> & ->).
      exists d, k0, sB, (h_version sB). split; [exact Hj|].
      apply in_split in Hj as (l1 & l2 & El). destruct (Hist _ _ _ El) as ((_ & Pr & Rt & _) & _).
      rewrite (step_client_hello_ok SIG pub sign verify dh kdf ser_shello ser_chal _ _ Sv). unfold next_payload. cbn. rewrite Pr, Rt. auto.
    Qed.

    (* each connect report was caused by a challenge response carrying B's token, the token of a hello B
       had signed, processed under the key derived for that hello, in a datagram authentic under the key
       held at arrival; B is CONNECTED only with the key and token of such a report *)
    Lemma JB_connect_after_proof_of_key n : JB_inv n ->
      (forall d k0 sB ty m, In (d, k0, (sB, ty, m)) (gB n) -> connects (sB, ty, m) = true ->
         ty = CHALLENGE_RESP /\ m = MChallenge (c_token (h_conn sB)) /\
         carried (d, k0, (sB, ty, m)) /\
         (exists k, k0 = Some k /\ authentic k d) /\
         exists cpub p, In (cpub, p) (signed_log (gB n)) /\ sp_pub p = pub b /\
            c_key (h_conn sB) = Some (server_key b cpub p) /\ c_token (h_conn sB) = sp_token p) /\
      (c_status (h_conn (jB n)) = CONNECTED ->
         exists d k0 sB m, In (d, k0, (sB, CHALLENGE_RESP, m)) (gB n) /\
            connects (sB, CHALLENGE_RESP, m) = true /\
            c_key (h_conn sB) = c_key (h_conn (jB n)) /\ c_token (h_conn sB) = c_token (h_conn (jB n))).
    Proof.
      intros (_ & _ & Hist & Cn & _). split; [|exact Cn].
      intros d k0 sB ty m Hj Hc. apply in_split in Hj as (l1 & l2 & Em).
      destruct (Hist _ _ _ Em) as (_ & KR & Car & CC). destruct (CC Hc) as (-> & -> & _ & Kn & Au).
      repeat (split; [auto; fail|]). unfold keyrel in KR.
      destruct (last (map Some (signed_log l1)) None) as [[cpub p]|] eqn:L; [|contradiction].
      destruct KR as (K & T & P). exists cpub, p. repeat split; auto.
      rewrite Em. unfold HsNet.signed_log. rewrite flat_map_app. apply in_or_app. left. apply last_some_in. exact L.
    Qed.
  End ServerSide.

  (* both endpoints, Dolev-Yao hypothesis on the hellos presented to the client *)
  Section Both.
    Hypothesis verify_sign : forall sk s m, verify (pub sk) s m = true <-> s = sign sk m.
    Variables (a b root : Z) (akeys : list Z) (other : list sh_payload).
    Hypothesis root_secret : ~ In root akeys.

    Record JA_inv (n : hnet) : Prop := {
      ja_R : RA a root (genuine_payloads other n) (jA n) (gA n);
      ja_W : forall d k sh p, In d (jAB n) -> d_body d = Sealed k sh p ->
               exists j rp pl sg, In j (gA n) /\ adopts (snd j) rp pl sg /\ k = client_key a pl }.

    Lemma JA_step e (n : hnet) v : JA_inv n -> dy_ev root akeys other n v -> JA_inv (jstep e n v).
    Proof.
      intros [HR HW] DY. destruct v as [x|x]; cbn [HsNet.jstep].
      - destruct (hstep e (jA n) x) as [a' o] eqn:H.
        assert (R' : RA a root (genuine_payloads other n) a' (gA n ++ tag_log (jA n) x)).
        { eapply (RA_step verify_sign a root akeys root_secret); [|exact HR|exact H].
          intros d m Hd Hm. exact (DY d m Hd Hm). }
        constructor; cbn; [exact R'|].
        intros d k sh p Hin Hb. apply in_app_or in Hin as [Hin|Hin].
        + destruct (HW _ _ _ _ Hin Hb) as (j & rp & pl & sg & I1 & A1 & K1).
          exists j, rp, pl, sg. split; [apply in_or_app; auto|auto].
        + pose proof (sealed_dg_of _ _ _ _ _ Hin Hb) as Em.
          pose proof (hstep_is_step_proof _ _ _ _ _ _ _ _ _ _ _ _ _ _ H) as St.
          pose proof (step_emit_key _ _ _ _ _ _ _ _ St Em) as Ek.
          destruct (ptype_eqb (h_type (d_hdr d)) SERVER_HELLO); [discriminate Ek|].
          destruct R' as (_ & _ & _ & AK).
          destruct (h_adopted a') as [[[rp pl] sg]|].
          * destruct AK as ((j & I1 & A1) & K1 & _). exists j, rp, pl, sg. split; [exact I1|]. split; [exact A1|]. congruence.
          * destruct AK as (K1 & _). congruence.
      - destruct (hstep e (jB n) x) as [b' o] eqn:H. constructor; cbn; auto.
        eapply RA_mono; [|exact HR].
        unfold HsNet.genuine_payloads. cbn. intros p Hin. apply in_app_or in Hin as [Hin|Hin]; apply in_or_app; [left; exact Hin|right].
        unfold HsNet.signed_log in *. rewrite flat_map_app, map_app. apply in_or_app. left. exact Hin.
    Qed.

    Lemma JA_init rand : JA_inv (hnet0 a (Some (pub root)) b root rand).
    Proof.
      constructor; cbn; [|intros ? ? ? ? []].
      split; [repeat split; auto|]. split; [intros ? []|]. split; [intros ? ? ? ? []|].
      cbn. split; [reflexivity|]. split; [discriminate|intros ? ? ? ? []].
    Qed.

    Lemma JA_run e vs : forall (n : hnet), JA_inv n -> dy_run e root akeys other n vs -> JA_inv (jrun e n vs).
    Proof.
      apply (jrun_ind e JA_inv (dy_run e root akeys other)).
      intros n v r H [D1 D2]. split; [apply JA_step; auto|exact D2].
    Qed.

    Lemma JA_reach e rand vs : dy_run e root akeys other (hnet0 a (Some (pub root)) b root rand) vs ->
      JA_inv (jrun e (hnet0 a (Some (pub root)) b root rand) vs).
    Proof. apply JA_run, JA_init. Qed.

    (* with the AES-GCM hypothesis for B: what B opened under a key is on A's wire *)
    Definition SB_inv (n : hnet) : Prop := forall d k en, In (d, Some k, en) (gB n) -> In d (jAB n).

    Lemma SB_step e (n : hnet) v : SB_inv n -> sealed_ev n v -> SB_inv (jstep e n v).
    Proof.
      intros HS SE. destruct v as [x|x]; cbn [HsNet.jstep].
      - destruct (hstep e (jA n) x) as [a' o]. intros d k en Hin. cbn in *. apply in_or_app. left. eapply HS; eauto.
      - destruct (hstep e (jB n) x) as [b' o] eqn:H. intros d k [[s1 ty] m] Hin. cbn in *.
        apply in_app_or in Hin as [Hin|Hin]; [eapply HS; eauto|].
        pose proof (tag_log_carried _ _ _ _ _ H) as Car. rewrite Forall_forall in Car.
        destruct (Car _ Hin) as (ms & w & OD & _). apply in_tag_log in Hin as (Hd & K0 & _).
        eapply SE; [exact Hd|rewrite <- K0; discriminate|rewrite <- K0; exact OD].
    Qed.

    Lemma SB_run e vs : forall (n : hnet), SB_inv n -> sealed_run e n vs -> SB_inv (jrun e n vs).
    Proof.
      apply (jrun_ind e SB_inv (sealed_run e)).
      intros n v r H [D1 D2]. split; [apply SB_step; auto|exact D2].
    Qed.

    Lemma SB_reach e rand vs : sealed_run e (hnet0 a (Some (pub root)) b root rand) vs ->
      SB_inv (jrun e (hnet0 a (Some (pub root)) b root rand) vs).
    Proof. apply SB_run. intros ? ? ? []. Qed.

    (* An adoption in A's log is of a hello signed by the root key holder, whose
       payload the genuine server built (in this history or in another session), and it is logged with a
       datagram that carried it *)
    Lemma JA_adopted_genuine n j rp p sg : JA_inv n -> In j (gA n) -> adopts (snd j) rp p sg ->
      sg = sign root p /\ verify (pub root) sg p = true /\
      (In p other \/ exists cpub, In (cpub, p) (signed_log (gB n))) /\
      exists d k0 sA, j = (d, k0, (sA, SERVER_HELLO, MServerHello rp p sg)) /\ carried j.
    Proof.
      intros [HR _] Hin Ha. destruct HR as (_ & CE & AD & _). destruct (AD _ _ _ _ Hin Ha) as [Sg InG].
      split; [exact Sg|]. split; [apply verify_sign, Sg|].
      split; [apply in_genuine_payloads, InG|].
      destruct j as [[d k0] [[sA ty] m]]. destruct Ha as (-> & -> & _).
      exists d, k0, sA. split; [reflexivity|]. apply CE, Hin.
    Qed.

    Lemma JA_authentication n : JA_inv n ->
      match h_adopted (jA n) with
      | None => c_key (h_conn (jA n)) = None /\ c_status (h_conn (jA n)) <> CONNECTED
      | Some (rp, p, sg) =>
          sg = sign root p /\ verify (pub root) sg p = true /\
          (In p other \/ exists cpub, In (cpub, p) (signed_log (gB n))) /\
          c_key (h_conn (jA n)) = Some (client_key a p) /\ c_token (h_conn (jA n)) = sp_token p /\
          exists d k0 sA, In (d, k0, (sA, SERVER_HELLO, MServerHello rp p sg)) (gA n) /\
                          carried (d, k0, (sA, SERVER_HELLO, MServerHello rp p sg))
      end.
    Proof.
      intros HJ. pose proof (ja_R _ HJ) as (_ & _ & _ & AK).
      destruct (h_adopted (jA n)) as [[[rp p] sg]|]; [|destruct AK as (K & St & _); auto].
      destruct AK as ((j & Hin & Ha) & K & T).
      destruct (JA_adopted_genuine n j rp p sg HJ Hin Ha) as (Sg & V & G & d & k0 & sA & -> & Car).
      split; [exact Sg|]. split; [exact V|]. split; [exact G|]. split; [exact K|]. split; [exact T|].
      exists d, k0, sA. auto.
    Qed.

    Lemma inv_agreement n : (forall x y, dh x (pub y) = dh y (pub x)) -> JA_inv n -> JB_inv b root n ->
      forall rp p sg, h_adopted (jA n) = Some (rp, p, sg) ->
      last (map Some (signed_log (gB n))) None = Some (pub a, p) ->
      c_key (h_conn (jA n)) = Some (kdf (dh a (pub b)) (sp_salt p)) /\
      c_key (h_conn (jB n)) = c_key (h_conn (jA n)) /\
      c_token (h_conn (jA n)) = sp_token p /\ c_token (h_conn (jB n)) = sp_token p.
    Proof.
      intros DC [HR _] (_ & KR & _) rp p sg Had Hl.
      destruct HR as (_ & _ & _ & AK). rewrite Had in AK. destruct AK as (_ & KA & TA).
      unfold keyrel in KR. rewrite Hl in KR. destruct KR as (KB & TB & P).
      unfold HsNet.client_key in KA. unfold HsNet.server_key in KB. rewrite P in KA.
      split; [exact KA|]. split; [rewrite KA, KB, DC; reflexivity|]. auto.
    Qed.

    Lemma inv_connect_sealed_by_client n : JA_inv n -> JB_inv b root n -> SB_inv n ->
      forall d k0 sB ty m, In (d, k0, (sB, ty, m)) (gB n) -> connects (sB, ty, m) = true ->
      exists k, k0 = Some k /\ authentic k d /\ In d (jAB n) /\
        exists dA kA sA rp pl sg, In (dA, kA, (sA, SERVER_HELLO, MServerHello rp pl sg)) (gA n) /\
          verify (pub root) sg pl = true /\ sg = sign root pl /\
          (In pl other \/ exists cpub, In (cpub, pl) (signed_log (gB n))) /\
          k = client_key a pl.
    Proof.
      intros HA HB HS d k0 sB ty m Hj Hc.
      destruct (JB_connect_after_proof_of_key b root n HB) as [CP _].
      destruct (CP _ _ _ _ _ Hj Hc) as (_ & _ & _ & (k & -> & Au) & _).
      exists k. split; [reflexivity|]. split; [exact Au|].
      pose proof (HS _ _ _ Hj) as Hd. split; [exact Hd|].
      destruct Au as (pl0 & Hb & _).
      destruct (ja_W _ HA _ _ _ _ Hd Hb) as (j & rp & pl & sg & Hin & Ha & K).
      destruct (JA_adopted_genuine n j rp pl sg HA Hin Ha) as (Sg & V & G & dA & kA & sA & -> & _).
      exists dA, kA, sA, rp, pl, sg. auto 6.
    Qed.

    Lemma JA_client_messages n : JA_inv n -> forall d k0 sA ty m, In (d, k0, (sA, ty, m)) (gA n) ->
      let c1 := fst (hs_step sA ty m) in
      (exists rp p sg, ty = SERVER_HELLO /\ m = MServerHello rp p sg /\ sg = sign root p /\
         (In p other \/ exists cpub, In (cpub, p) (signed_log (gB n))) /\
         c_key c1 = Some (client_key a p) /\ c_token c1 = sp_token p /\ c_status c1 = CONNECTED) \/
      (c_key c1 = c_key (h_conn sA) /\ c_token c1 = c_token (h_conn sA) /\
       (c_status c1 = c_status (h_conn sA) \/ c_status c1 = DISCONNECTED)).
    Proof.
      intros HJ d k0 sA ty m Hin c1.
      pose proof (ja_R _ HJ) as (_ & CE & _). destruct (CE _ Hin) as ((Sv & Pr & Pin) & _). cbn [fst snd] in Sv, Pr, Pin.
      subst c1. destruct (hs_step sA ty m) as [c1 o1] eqn:St. cbn [fst].
      destruct (hs_step_view _ _ _ _ _ St) as [rp p sg -> -> _ V -> _ _|? _ _ Sv'|? _ _ Sv'|_ [->|[_ ->]] _ _ _];
        try congruence; [left|right; auto..].
      assert (Ha : adopts (snd (d, k0, (sA, SERVER_HELLO, MServerHello rp p sg))) rp p sg) by (repeat split; auto).
      destruct (JA_adopted_genuine n _ _ _ _ HJ Hin Ha) as (Sg & _ & G & _). exists rp, p, sg.
      split; [reflexivity|]. split; [reflexivity|]. split; [exact Sg|]. split; [exact G|].
      rewrite <- Pr. repeat split.
    Qed.

    Lemma inv_honest_complete_agree n : (forall x y, dh x (pub y) = dh y (pub x)) -> JA_inv n -> JB_inv b root n ->
      forall rp p sg, h_adopted (jA n) = Some (rp, p, sg) ->
      last (map Some (signed_log (gB n))) None = Some (pub a, p) ->
      (c_key (h_conn (jA n)) = Some (kdf (dh a (pub b)) (sp_salt p)) /\
       c_key (h_conn (jB n)) = c_key (h_conn (jA n)) /\
       c_token (h_conn (jA n)) = sp_token p /\ c_token (h_conn (jB n)) = sp_token p) /\
      (c_status (h_conn (jB n)) = CONNECTED ->
       exists d k0 sB, In (d, k0, (sB, CHALLENGE_RESP, MChallenge (sp_token p))) (gB n) /\
         connects (sB, CHALLENGE_RESP, MChallenge (sp_token p)) = true /\
         c_key (h_conn sB) = c_key (h_conn (jB n)) /\ c_token (h_conn sB) = sp_token p /\
         exists k, k0 = Some k /\ authentic k d).
    Proof.
      intros DC HA HB rp p sg Had Hl. pose proof (inv_agreement n DC HA HB rp p sg Had Hl) as Ag.
      split; [exact Ag|]. destruct Ag as (_ & _ & _ & TB). intros St.
      destruct (JB_connect_after_proof_of_key b root n HB) as [C1 C2].
      destruct (C2 St) as (d & k0 & sB & m & Hin & Hc & K & T).
      destruct (C1 _ _ _ _ _ Hin Hc) as (_ & -> & _ & Au & _).
      exists d, k0, sB. rewrite T, TB in *. auto.
    Qed.

    Lemma inv_foreign_hello_never_completes n : JA_inv n -> JB_inv b root n -> SB_inv n ->
      (forall dA kA sA rp pl sg, In (dA, kA, (sA, SERVER_HELLO, MServerHello rp pl sg)) (gA n) ->
         verify (pub root) sg pl = true ->
         forall d k0 en, In (d, k0, en) (gB n) -> k0 <> Some (client_key a pl)) ->
      (forall j, In j (gB n) -> connects (snd j) = false) /\ c_status (h_conn (jB n)) <> CONNECTED.
    Proof.
      intros HA HB HS Hf.
      assert (NC : forall j, In j (gB n) -> connects (snd j) = false).
      { intros [[d k0] [[sB ty] m]] Hj. cbn [snd]. destruct (connects (sB, ty, m)) eqn:Hc; [exfalso|reflexivity].
        destruct (inv_connect_sealed_by_client n HA HB HS _ _ _ _ _ Hj Hc)
          as (k & -> & _ & _ & dA & kA & sA & rp & pl & sg & Hin & V & _ & _ & ->).
        exact (Hf _ _ _ _ _ _ Hin V _ _ _ Hj eq_refl). }
      split; [exact NC|]. intros St.
      destruct (JB_connect_after_proof_of_key b root n HB) as [_ CP].
      destruct (CP St) as (d & k0 & sB & m & Hin & Hc & _). pose proof (NC _ Hin) as X. cbn [snd] in X. congruence.
    Qed.
  End Both.

  Theorem run_agreement_proof :
    (forall sk s m, verify (pub sk) s m = true <-> s = sign sk m) ->
    (forall x y, dh x (pub y) = dh y (pub x)) ->
    forall e a b root rand akeys other vs, ~ In root akeys ->
    dy_run e root akeys other (hnet0 a (Some (pub root)) b root rand) vs ->
    let n := jrun e (hnet0 a (Some (pub root)) b root rand) vs in
    forall rp p sg, h_adopted (jA n) = Some (rp, p, sg) ->
    last (map Some (signed_log (gB n))) None = Some (pub a, p) ->
    c_key (h_conn (jA n)) = Some (kdf (dh a (pub b)) (sp_salt p)) /\
    c_key (h_conn (jB n)) = c_key (h_conn (jA n)) /\
    c_token (h_conn (jA n)) = sp_token p /\ c_token (h_conn (jB n)) = sp_token p.
  Proof.
    intros VS DC e a b root rand akeys other vs NR DY n.
    eapply inv_agreement; [exact DC| |apply JB_reach]. eapply JA_reach; eassumption.
  Qed.

  Theorem run_honest_complete_proof :
    (forall sk s m, verify (pub sk) s m = true <-> s = sign sk m) ->
    (forall x y, dh x (pub y) = dh y (pub x)) ->
    forall e a b root rand akeys other vs, ~ In root akeys ->
    dy_run e root akeys other (hnet0 a (Some (pub root)) b root rand) vs ->
    let n := jrun e (hnet0 a (Some (pub root)) b root rand) vs in
    forall rp p sg, h_adopted (jA n) = Some (rp, p, sg) ->
    last (map Some (signed_log (gB n))) None = Some (pub a, p) ->
    c_status (h_conn (jB n)) = CONNECTED ->
    c_key (h_conn (jA n)) = Some (kdf (dh a (pub b)) (sp_salt p)) /\
    c_key (h_conn (jB n)) = c_key (h_conn (jA n)) /\
    c_token (h_conn (jA n)) = sp_token p /\ c_token (h_conn (jB n)) = sp_token p /\
    exists d k0 sB, In (d, k0, (sB, CHALLENGE_RESP, MChallenge (sp_token p))) (gB n) /\
      connects (sB, CHALLENGE_RESP, MChallenge (sp_token p)) = true /\
      c_key (h_conn sB) = c_key (h_conn (jB n)) /\ c_token (h_conn sB) = sp_token p /\
      exists k, k0 = Some k /\ authentic k d.
  Proof.
    intros VS DC e a b root rand akeys other vs NR DY n rp p sg Had Hl St.
    edestruct inv_honest_complete_agree as [(KA & KB & TA & TB) C];
      [exact DC|eapply JA_reach; eassumption|apply JB_reach|exact Had|exact Hl|].
    repeat (split; [eassumption|]). exact (C St).
  Qed.

End Run.
