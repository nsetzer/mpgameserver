(* The stored-message invariant (StoredP.v) for a predicate P on (type, payload): if P
   holds of every message the connection queues, it holds of every message it keeps anywhere
   (outgoing queue, re-send store, RetrySender callbacks) and of every message it ever puts into a
   datagram.  Used by the two-endpoint theorem of NetP.v ("what is delivered was sent"). *)
From Model Require Import Base Wire Conn.
From Proofs Require Import ConnSpecP StoredP.

Section QP.
  Variable P : ptype -> list byte -> Prop.

  Definition cbP (k : cb) : Prop := match k with Retry _ _ ty p _ => P ty p | Plain _ => True end.
  Definition msgP (m : pmsg) : Prop := P (m_type m) (m_payload m) /\ forall k, m_cb m = Some k -> cbP k.

  Record QI (c : conn) : Prop := {
    qi_out : Forall msgP (c_outgoing c);
    qi_prm : Forall (fun p => msgP (snd p)) (c_pretry_msg c);
    qi_pcbs : Forall (fun p => Forall cbP (snd p)) (c_pcbs c) }.

  Lemma QI_Stored c : QI c <-> Stored msgP cbP c.
  Proof. split; intros [A B D]; constructor; assumption. Qed.

  Lemma msgP_new c ty p r k : P ty p -> msgP (new_msg c ty p r k).
  Proof.
    intros H. split; [exact H|]. cbn. intros k0 Hk.
    destruct r, k; cbn in Hk; try discriminate; injection Hk as <-; cbn; auto.
  Qed.

  (* the handshake messages the connection sends on its own are not application data *)
  Hypothesis P_hs : forall ty p, is_hs ty = true -> P ty p.

  Lemma msgP_closed : closed msgP cbP.
  Proof.
    constructor.
    - intros rid mseq ty p i H. split; [exact H|]. intros k Hk. injection Hk as <-. exact H.
    - intros c ty p k H _. apply msgP_new, P_hs, H.
    - intros now m H. exact H.
    - intros m k H. apply H.
  Qed.
End QP.

Lemma cbP_impl (P P' : ptype -> list byte -> Prop) k : (forall ty p, P ty p -> P' ty p) -> cbP P k -> cbP P' k.
Proof. intros H. destruct k; cbn; auto. Qed.

Lemma msgP_impl (P P' : ptype -> list byte -> Prop) m : (forall ty p, P ty p -> P' ty p) -> msgP P m -> msgP P' m.
Proof. intros H [A B]. split; [apply H, A|]. intros k Hk. eapply cbP_impl; [exact H|apply B, Hk]. Qed.

Lemma QI_impl (P P' : ptype -> list byte -> Prop) c : (forall ty p, P ty p -> P' ty p) -> QI P c -> QI P' c.
Proof. intros H. rewrite !QI_Stored. apply Stored_impl; intros x; [apply msgP_impl|apply cbP_impl]; exact H. Qed.
