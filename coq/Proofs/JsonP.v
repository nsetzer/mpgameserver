From Coq Require Import Lia Decimal DecimalZ DecimalPos.
From Model Require Import Base Json.
From Proofs Require Import ListP.
Open Scope Z_scope.

Lemma bind_ok : forall A B (r : res A) (f : A -> res B) a, r = Ok a -> bind r f = f a.
Proof. intros; subst; reflexivity. Qed.

(* Json.str_eqb is [list_eqb Z.eqb] *)
Lemma str_eqb_refl : forall a, str_eqb a a = true.
Proof. exact (list_eqb_refl _ Z.eqb_spec). Qed.

Lemma str_eqb_eq : forall a b, str_eqb a b = true <-> a = b.
Proof. exact (list_eqb_eq _ Z.eqb_spec). Qed.

Lemma str_eqb_neq : forall a b, a <> b -> str_eqb a b = false.
Proof. exact (list_eqb_neq _ Z.eqb_spec). Qed.

Lemma existsb_str_false : forall x l, existsb (str_eqb x) l = false -> ~ In x l.
Proof.
  induction l; simpl; intros; auto. apply orb_false_iff in H as [H1 H2].
  intros [->|Hin]. rewrite str_eqb_refl in H1; discriminate. apply IHl; auto.
Qed.

Lemma mapM_Forall2 : forall A B (F : A -> res B) l l',
  Forall2 (fun a b => F a = Ok b) l l' -> mapM F l = Ok l'.
Proof. induction 1; simpl; auto. rewrite H, IHForall2. reflexivity. Qed.

Lemma mapM_map : forall A B C (F : B -> res C) (f : A -> B) (g : A -> C) l,
  (forall x, In x l -> F (f x) = Ok (g x)) -> mapM F (map f l) = Ok (map g l).
Proof. intros. apply mapM_Forall2, Forall2_map_same. assumption. Qed.

Lemma mapM_ok : forall A B (f : A -> res B) (g : A -> B) l,
  (forall x, In x l -> f x = Ok (g x)) -> mapM f l = Ok (map g l).
Proof. intros. rewrite <- (map_id l) at 1. apply mapM_map. assumption. Qed.

Lemma mapM_post : forall A B (f : A -> res B) (Q : B -> bool) l,
  (forall x, In x l -> exists y, f x = Ok y /\ Q y = true) ->
  exists ys, mapM f l = Ok ys /\ forallb Q ys = true.
Proof.
  induction l as [|a l IHl]; intros H. exists []; auto.
  destruct (H a (or_introl eq_refl)) as (y & A1 & A2).
  destruct IHl as (ys & B1 & B2). { intros x Hx. apply H. right. exact Hx. }
  exists (y :: ys). simpl. rewrite A1, B1, A2, B2. auto.
Qed.

Lemma mapM_zip : forall A B (F : A -> res B) (a : list A) (b : list B),
  length a = length b -> (forall p, In p (combine a b) -> F (fst p) = Ok (snd p)) -> mapM F a = Ok b.
Proof.
  induction a; destruct b; simpl; intros; try discriminate; auto.
  pose proof (H0 (a, b) (or_introl eq_refl)) as E. simpl in E. rewrite E. rewrite (IHa b0); auto.
Qed.

Lemma forall2b_spec : forall A B (f : A -> B -> bool) a b, forall2b f a b = true ->
  length a = length b /\ forall p, In p (combine a b) -> f (fst p) (snd p) = true.
Proof.
  induction a; destruct b; simpl; intros; try discriminate.
  - split; auto; intros ? [].
  - apply andb_true_iff in H as [H1 H2]. destruct (IHa _ H2) as [L P]. split; auto.
    intros p [<-|Hin]; auto.
Qed.

Fixpoint zipw {A B C} (g : A -> B -> C) (a : list A) (b : list B) : list C :=
  match a, b with x :: a', y :: b' => g x y :: zipw g a' b' | _, _ => [] end.

Lemma zipw_length : forall A B C (g : A -> B -> C) a b, length a = length b -> length (zipw g a b) = length b.
Proof. induction a; destruct b; simpl; intros; try discriminate; auto. Qed.

Lemma zipw_inv : forall A B C (g : A -> B -> C) (h : A -> C -> B) a b,
  length a = length b -> (forall p, In p (combine a b) -> h (fst p) (g (fst p) (snd p)) = snd p) ->
  zipw h a (zipw g a b) = b.
Proof.
  induction a; destruct b; simpl; intros; try discriminate; auto.
  f_equal. apply (H0 (a, b)); auto. apply IHa; auto.
Qed.

Lemma combine_zipw_in : forall A B C (g : A -> B -> C) a b p,
  In p (combine a (zipw g a b)) -> exists y, In (fst p, y) (combine a b) /\ snd p = g (fst p) y.
Proof.
  induction a; destruct b; simpl; intros; try contradiction.
  destruct H as [<-|H]. exists b; auto. destruct (IHa _ _ H) as [y [H1 H2]]. exists y; auto.
Qed.

Lemma digit_first : forall u, u <> Nil ->
  exists c r, uint_chars u = c :: r /\ (c =? 45) = false /\ (c =? 43) = false.
Proof. destruct u; intros; try congruence; simpl; eexists; eexists; repeat split. Qed.

Lemma uint_chars_nospace : forall u, Forall (fun c => is_space c = false) (uint_chars u).
Proof. induction u; simpl; constructor; auto. Qed.

Lemma lstrip_id : forall c s, is_space c = false -> lstrip (c :: s) = c :: s.
Proof. intros; simpl; rewrite H; reflexivity. Qed.

Lemma rstrip_id : forall s, Forall (fun c => is_space c = false) s -> rstrip s = s.
Proof.
  induction 1; simpl; auto. rewrite IHForall. destruct l; auto. rewrite H; auto.
Qed.

Lemma parse_digits_chars : forall u,
  parse_digits true (uint_chars u) = Some u /\ (u <> Nil -> parse_digits false (uint_chars u) = Some u).
Proof.
  induction u; simpl; [split; [reflexivity | congruence] | ..];
    destruct IHu as [I1 I2]; unfold digit_of; simpl; rewrite I1; split; auto.
Qed.

Lemma parse_body : forall u (neg : bool), u <> Nil -> ulen u <=? MAX_STR_DIGITS = true ->
  match parse_digits false (uint_chars u) with
  | None => Err EValue
  | Some u0 => if MAX_STR_DIGITS <? ulen u0 then Err EValue
               else Ok (if neg then - Z.of_uint u0 else Z.of_uint u0)
  end = Ok (if neg then - Z.of_uint u else Z.of_uint u).
Proof.
  intros. destruct (parse_digits_chars u) as [_ P]. rewrite (P H).
  apply Z.leb_le in H0. destruct (MAX_STR_DIGITS <? ulen u) eqn:E; auto. apply Z.ltb_lt in E. lia.
Qed.

Lemma to_int_nonnil : forall z, match Z.to_int z with Pos u | Neg u => u <> Nil end.
Proof. destruct z; simpl; try apply Unsigned.to_uint_nonnil. discriminate. Qed.

Theorem parse_int_dec : forall z, lim_ok z = true -> parse_int (dec z) = Ok z.
Proof.
  intros z L. pose proof (DecimalZ.of_to z) as OT. pose proof (to_int_nonnil z) as NN.
  unfold lim_ok in L. unfold dec, parse_int.
  destruct (Z.to_int z) as [u|u]; simpl in OT; pose proof (uint_chars_nospace u) as NS.
  - destruct (digit_first u NN) as [c [r [Hc [H45 H43]]]]. rewrite Hc in NS.
    rewrite Hc, lstrip_id by (inversion NS; auto). rewrite rstrip_id by auto.
    rewrite H45, H43. rewrite <- Hc. rewrite (parse_body u false NN L). congruence.
  - rewrite lstrip_id by reflexivity. rewrite rstrip_id by (constructor; auto).
    change (45 =? 45) with true. cbv iota. rewrite (parse_body u true NN L). congruence.
Qed.

Lemma dec_inj : forall a b, lim_ok a = true -> lim_ok b = true -> dec a = dec b -> a = b.
Proof.
  intros. pose proof (parse_int_dec a H). rewrite H1, (parse_int_dec b H0) in H2. congruence.
Qed.

(* A numeral of n digits is below 10^n, so lim_ok bounds the magnitude.  This decides lim_ok on a
   power of ten without ever writing the number out in decimal. *)
Lemma ulen_nonneg : forall u, 0 <= ulen u.
Proof. induction u; cbn [ulen]; lia. Qed.

Lemma of_uint_acc_lt : forall d acc,
  Z.pos (Pos.of_uint_acc d acc) < (Z.pos acc + 1) * 10 ^ ulen d.
Proof.
  induction d; intros acc; cbn [Pos.of_uint_acc ulen]; [lia|..];
    rewrite Z.pow_add_r, Z.pow_1_r by (apply ulen_nonneg || lia);
    pose proof (Z.pow_pos_nonneg 10 (ulen d) eq_refl (ulen_nonneg d));
    (eapply Z.lt_le_trans; [apply IHd|]; nia).
Qed.

Lemma of_uint_lt : forall u, Z.of_uint u < 10 ^ ulen u.
Proof.
  unfold Z.of_uint.
  induction u; cbn [Pos.of_uint ulen Z.of_N]; [reflexivity|..];
    rewrite Z.pow_add_r, Z.pow_1_r by (apply ulen_nonneg || lia);
    pose proof (Z.pow_pos_nonneg 10 (ulen u) eq_refl (ulen_nonneg u));
    [lia|..]; (eapply Z.lt_le_trans; [apply of_uint_acc_lt|]; lia).
Qed.

Lemma lim_ok_bound : forall z, lim_ok z = true -> Z.abs z < 10 ^ MAX_STR_DIGITS.
Proof.
  intros z L. unfold lim_ok in L. rewrite <- (DecimalZ.of_to z).
  assert (B : forall u, ulen u <=? MAX_STR_DIGITS = true -> Z.of_uint u < 10 ^ MAX_STR_DIGITS).
  { intros u Hu. apply Z.leb_le in Hu. eapply Z.lt_le_trans; [apply of_uint_lt|].
    apply Z.pow_le_mono_r; [lia | exact Hu]. }
  assert (P : forall u, 0 <= Z.of_uint u) by (intros; apply N2Z.is_nonneg).
  destruct (Z.to_int z) as [u|u]; cbn [Z.of_int]; specialize (B u L); specialize (P u); lia.
Qed.

Lemma lim_ok_pow10 : forall n, MAX_STR_DIGITS <= n -> lim_ok (10 ^ n) = false.
Proof.
  intros n Hn. destruct (lim_ok (10 ^ n)) eqn:E; [|reflexivity].
  apply lim_ok_bound in E. rewrite Z.abs_eq in E by (apply Z.pow_nonneg; lia).
  pose proof (Z.pow_le_mono_r 10 _ _ eq_refl Hn). lia.
Qed.

Lemma nodupb_mid : forall acc x l, nodupb (acc ++ x :: l) = true -> existsb (fun y => py_eq y x) acc = false.
Proof.
  induction acc; simpl; intros; auto.
  apply andb_true_iff in H as [H1 H2]. rewrite forallb_app in H1. apply andb_true_iff in H1 as [_ H1].
  simpl in H1. apply andb_true_iff in H1 as [H1 _]. apply negb_true_iff in H1. rewrite H1. simpl. eauto.
Qed.

Lemma set_build_acc : forall l acc, nodupb (acc ++ l) = true -> fold_left set_add l acc = acc ++ l.
Proof.
  induction l; simpl; intros. rewrite app_nil_r; auto.
  unfold set_add at 2. rewrite (nodupb_mid _ _ _ H).
  rewrite IHl; rewrite <- app_assoc; simpl; auto.
Qed.

Lemma set_build_nodup : forall l, nodupb l = true -> set_build l = l.
Proof. intros. unfold set_build. rewrite set_build_acc; auto. Qed.

Lemma py_set_nodup : forall l, forallb hashable l = true -> existsb is_nan_val l = false ->
  nodupb l = true -> py_set l = Ok (PSet l).
Proof. intros l H N D. unfold py_set. rewrite H, N, set_build_nodup; auto. Qed.

Lemma dict_set_fresh : forall acc k v, existsb (fun y => py_eq y k) (map fst acc) = false ->
  dict_set acc k v = acc ++ [(k, v)].
Proof.
  induction acc as [|[k' v'] acc]; simpl; intros; auto.
  apply orb_false_iff in H as [H1 H2]. rewrite H1. rewrite IHacc; auto.
Qed.

Lemma dict_build_acc : forall kv acc, nodupb (map fst (acc ++ kv)) = true ->
  fold_left (fun a p => dict_set a (fst p) (snd p)) kv acc = acc ++ kv.
Proof.
  induction kv as [|[k v] kv]; simpl; intros. rewrite app_nil_r; auto.
  rewrite dict_set_fresh.
  - rewrite IHkv; rewrite <- app_assoc; simpl; auto.
  - rewrite map_app in H. simpl in H. eapply nodupb_mid; eauto.
Qed.

Lemma dict_build_nodup : forall kv, nodupb (map fst kv) = true -> dict_build kv = kv.
Proof. intros. unfold dict_build. rewrite dict_build_acc; auto. Qed.

Lemma dict_conv_build : forall fk fv kv kv',
  Forall2 (fun p q => fk (fst p) = Ok (fst q) /\ fv (snd p) = Ok (snd q) /\ hashable (fst q) = true) kv kv' ->
  forall acc, dict_conv fk fv kv acc = Ok (fold_left (fun a p => dict_set a (fst p) (snd p)) kv' acc).
Proof.
  induction 1 as [|[k v] [k' v'] kv kv' (A & B & C)]; simpl; intros; auto.
  simpl in A, B, C. rewrite A, B. simpl. rewrite C. auto.
Qed.

Lemma dict_conv_nodup : forall fk fv kv kv',
  Forall2 (fun p q => fk (fst p) = Ok (fst q) /\ fv (snd p) = Ok (snd q) /\ hashable (fst q) = true) kv kv' ->
  nodupb (map fst kv') = true -> dict_conv fk fv kv [] = Ok kv'.
Proof. intros. rewrite (dict_conv_build fk fv kv kv'), dict_build_acc; auto. Qed.

Lemma nodupb_map_inj : forall (f : pv -> pv) l,
  (forall x y, In x l -> In y l -> py_eq x y = false -> py_eq (f x) (f y) = false) ->
  nodupb l = true -> nodupb (map f l) = true.
Proof.
  induction l; simpl; intros; auto. apply andb_true_iff in H0 as [H1 H2].
  apply andb_true_iff; split.
  - rewrite forallb_map. apply forallb_forall. intros y Hy.
    rewrite forallb_forall in H1. specialize (H1 y Hy). apply negb_true_iff in H1.
    apply negb_true_iff. apply H; auto.
  - apply IHl; auto.
Qed.

Lemma nodupb_strs : forall l, str_nodupb l = true -> nodupb (map PStr l) = true.
Proof.
  induction l; simpl; intros; auto. apply andb_true_iff in H as [H1 H2].
  apply andb_true_iff; split; auto. rewrite forallb_map. apply forallb_forall. intros y Hy. simpl.
  apply negb_true_iff in H1. apply negb_true_iff.
  destruct (str_eqb a y) eqn:E; auto. exfalso.
  assert (existsb (str_eqb a) l = true) by (apply existsb_exists; eauto). congruence.
Qed.

(* on str and int keys Python's == is equality *)
Lemma py_eq_plain_keys : forall lim x y, plain_key lim x = true -> plain_key lim y = true ->
  x <> y -> py_eq x y = false.
Proof.
  intros lim x y Px Py N. destruct x; try discriminate; destruct y; try discriminate; simpl; auto.
  - apply Z.eqb_neq. congruence.
  - apply str_eqb_neq. congruence.
Qed.

Lemma plain_key_hashable : forall lim k, plain_key lim k = true -> hashable k = true.
Proof. destruct k; try discriminate; reflexivity. Qed.

Lemma assocZ_in : forall A (l : list (Z * A)) k a, assocZ l k = Some a -> In (k, a) l.
Proof.
  induction l as [|[k' a'] l]; simpl; intros; try discriminate.
  destruct (k =? k') eqn:E. apply Z.eqb_eq in E. inversion H; subst; auto. right; auto.
Qed.

Lemma value2name_in : forall ms raw n, value2name ms raw = Some n -> In (n, raw) ms.
Proof.
  induction ms as [|[n' v] ms]; simpl; intros; try discriminate.
  destruct (value2name ms raw) eqn:E.
  - inversion H; subst. right; auto.
  - destruct (raw =? v) eqn:E2; inversion H; subst. apply Z.eqb_eq in E2; subst; auto.
Qed.

Lemma name2value_nodup : forall ms n v, str_nodupb (map fst ms) = true -> In (n, v) ms -> name2value ms n = Some v.
Proof.
  induction ms as [|[n' v'] ms]; simpl; intros; [contradiction|].
  apply andb_true_iff in H as [H1 H2]. destruct H0 as [E|Hin].
  - inversion E; subst. rewrite str_eqb_refl; auto.
  - destruct (str_eqb n n') eqn:E; auto. apply str_eqb_eq in E; subst.
    apply negb_true_iff in H1. apply existsb_str_false in H1. exfalso; apply H1.
    apply in_map_iff. exists (n', v); auto.
Qed.
