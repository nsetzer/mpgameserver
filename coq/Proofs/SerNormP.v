(* SerNormP.v — when does a value survive a trip?  norm succeeds on every well-formed value whose
   dict keys / set elements are scalars or enum members of scalars, all at the same enum depth
   (the syntactic form of "hashable and comparable after decoding"); it is the identity on values
   without tuples whose floats are float32 values and whose keys are pairwise different. *)
From Coq Require Import Lia ZifyBool.
From Model Require Import Base Ser.
From Proofs Require Import BytesP SerP SerSetP.
Open Scope Z_scope.

(* Model/Json.v has a [plain_key] of its own, on JSON keys: qualify where both files are imported. *)
Definition plain_key (v : value) : bool :=
  match v with VNone | VBool _ | VInt _ | VFloat _ | VStr _ | VBytes _ => true | _ => false end.
Definition key_ok (d : Z) (v : value) : bool := (edepth v =? d) && plain_key (strip v).

Fixpoint keys_ok (v : value) : Prop :=
  match v with
  | VList l | VTuple l | VObj _ l => fold_right (fun x P => keys_ok x /\ P) True l
  | VDict kv =>
      (exists d, forallb (fun p => key_ok d (fst p)) kv = true)
      /\ fold_right (fun p P => keys_ok (snd p) /\ P) True kv
  | VSet l => exists d, forallb (key_ok d) l = true
  | VEnum _ x => keys_ok x
  | _ => True
  end.

Lemma key_ntop d k : key_ok d k = true -> ntop k.
Proof. unfold key_ok. intros H l Hl. rewrite Hl, Bool.andb_false_r in H. discriminate. Qed.

(* keys at one enum depth compare without an exception, so insertion among them only fails on an
   unhashable newcomer *)
Lemma py_eq_keys d a b : key_ok d a = true -> key_ok d b = true -> exists e, py_eq a b = SOk e.
Proof.
  intros Ha Hb. destruct (py_eq_ntop a b (key_ntop d a Ha)) as [H|[_ H]]; [exact H|]. unfold key_ok in *. lia.
Qed.

Definition keys_at (d : Z) (l : list value) : Prop := Forall (fun k => key_ok d k = true) l.

Lemma mem_py_keys d x l e : key_ok d x = true -> keys_at d l -> mem_py x l <> SErr e.
Proof.
  intros Hx Hl H. apply mem_py_err in H as (y & Hy & Ey). unfold keys_at in Hl. rewrite Forall_forall in Hl.
  destruct (py_eq_keys d y x (Hl y Hy) Hx) as [r Hr]. congruence.
Qed.

Lemma dict_put_keys_ok d acc k v : keys_at d (map fst acc) -> key_ok d k = true -> hashable k = true ->
  exists acc', dict_put acc k v = SOk acc' /\ keys_at d (map fst acc').
Proof.
  intros Ha Hk Hh. pose proof (dict_put_spec acc k v) as S. pose proof (dict_put_keys acc k v) as Hkeys.
  destruct (dict_put acc k v) as [acc'|e].
  - exists acc'. split; [reflexivity|]. destruct (Hkeys _ eq_refl) as [->| ->]; [exact Ha|].
    apply Forall_app. split; [exact Ha | constructor; [exact Hk | constructor]].
  - destruct S as [[S _]|S]; [congruence | destruct (mem_py_keys d k _ e Hk Ha S)].
Qed.

Lemma set_add_keys_ok d s x : keys_at d s -> key_ok d x = true -> hashable x = true ->
  exists s', set_add s x = SOk s' /\ keys_at d s'.
Proof.
  intros Hs Hx Hh. pose proof (set_add_spec s x) as S. destruct (set_add s x) as [s'|e].
  - exists s'. split; [reflexivity|]. destruct S as [->| ->]; [exact Hs|].
    apply Forall_app. split; [exact Hs | constructor; [exact Hx | constructor]].
  - destruct S as [[S _]|S]; [congruence | destruct (mem_py_keys d x s e Hx Hs S)].
Qed.

Lemma dict_build_ok : forall d kv acc, keys_at d (map fst acc) ->
  Forall (fun p => key_ok d (fst p) = true /\ hashable (fst p) = true) kv ->
  exists dd, dict_build acc kv = SOk dd.
Proof.
  intros d kv. induction kv as [|[k v] r IH]; intros acc Ha Hkv; [eexists; reflexivity|].
  inversion Hkv as [|? ? [Hk Hh] Hr]; subst. cbn [fst dict_build] in *.
  destruct (dict_put_keys_ok d acc k v Ha Hk Hh) as [acc' [-> Ha']]. cbn [sbind]. apply IH; assumption.
Qed.

Lemma set_build_ok : forall d l acc, keys_at d acc ->
  Forall (fun x => key_ok d x = true /\ hashable x = true) l -> exists s, set_build acc l = SOk s.
Proof.
  intros d l. induction l as [|x r IH]; intros acc Ha Hl; [eexists; reflexivity|].
  inversion Hl as [|? ? [Hx Hh] Hr]; subst. cbn [set_build].
  destruct (set_add_keys_ok d acc x Ha Hx Hh) as [acc' [-> Ha']]. cbn [sbind]. apply IH; assumption.
Qed.

Section Norm.
  Variable fc : fconv.
  Variable reg : registry.

  Lemma norm_key : forall k, wf fc reg k -> plain_key (strip k) = true ->
    exists k', norm fc k = SOk k' /\ edepth k' = edepth k /\ plain_key (strip k') = true /\ hashable k' = true.
  Proof.
    induction k; intros Hw Hp; try discriminate; try (eexists; repeat split; reflexivity).
    - cbn in Hw. destruct Hw as [w Hw]. cbn [norm]. rewrite Hw. eexists. repeat split; reflexivity.
    - cbn [wf] in Hw. destruct Hw as [_ [_ [_ Hx]]]. cbn [strip] in Hp.
      destruct (IHk Hx Hp) as [x' [En [Hd [Hs Hh]]]].
      rewrite norm_enum_eq, En. cbn [sbind]. eexists. split; [reflexivity|].
      cbn [edepth strip hashable]. repeat split; [lia | exact Hs | exact Hh].
  Qed.

  Lemma norm_key_ok : forall d k, wf fc reg k -> key_ok d k = true ->
    exists k', norm fc k = SOk k' /\ key_ok d k' = true /\ hashable k' = true.
  Proof.
    intros d k Hw Hk. unfold key_ok in Hk. apply andb_prop in Hk. destruct Hk as [Hd Hp].
    destruct (norm_key k Hw Hp) as [k' [En [Hd' [Hs Hh]]]].
    exists k'. split; [exact En|]. split; [|exact Hh]. unfold key_ok. rewrite Hs. lia.
  Qed.

  Definition NT (v : value) : Prop := wf fc reg v -> keys_ok v -> exists nv, norm fc v = SOk nv.

  Lemma NT_list : forall l, Forall NT l -> lall (wf fc reg) l -> lall keys_ok l ->
    exists l', mapM (norm fc) l = SOk l'.
  Proof.
    intros l. rewrite !lall_Forall, !Forall_forall. intros HN Hw Hk.
    destruct (mapM_ok_post (norm fc) (fun _ => True) l) as (l' & E & _); [|eauto].
    apply Forall_forall. intros x Hx. destruct (HN x Hx (Hw x Hx) (Hk x Hx)) as [y Ey]. eauto.
  Qed.

  Theorem norm_total : forall v, NT v.
  Proof.
    induction v using value_ind'; intros Hw Hk; try (eexists; reflexivity).
    - destruct Hw as [w Hw]. cbn [norm]. rewrite Hw. eexists. reflexivity.
    - destruct Hw as [_ Hw]. rewrite norm_list_eq. destruct (NT_list l H Hw Hk) as [l' ->]. eexists. reflexivity.
    - destruct Hw as [_ Hw]. change (norm fc (VTuple l)) with (norm fc (VList l)).
      rewrite norm_list_eq. destruct (NT_list l H Hw Hk) as [l' ->]. eexists. reflexivity.
    - (* dict: the keys keep their depth, so insertion never fails *)
      destruct Hw as [_ Hw]. destruct Hk as [[d Hd] Hk]. rewrite norm_dict_eq.
      apply kvall_Forall in Hw. apply lall_Forall in Hk. rewrite forallb_forall in Hd. rewrite Forall_forall in *.
      destruct (mapM_ok_post (norm_pair fc) (fun p => key_ok d (fst p) = true /\ hashable (fst p) = true) kv)
        as (kv' & -> & Hkv').
      { apply Forall_forall. intros [k x] Hp. destruct (Hw _ Hp) as [Hwk Hwx]. cbn [fst snd] in *.
        destruct (norm_key_ok d k Hwk (Hd _ Hp)) as (k' & Ek & Hk').
        destruct (proj2 (H _ Hp) Hwx (Hk _ Hp)) as [x' Ex]. cbn [snd] in Ex.
        exists (k', x'). cbn [norm_pair]. rewrite Ek, Ex. split; [reflexivity | exact Hk']. }
      cbn [sbind]. destruct (dict_build_ok d kv' [] (Forall_nil _) Hkv') as [dd ->]. eexists. reflexivity.
    -
      destruct Hw as [_ Hw]. destruct Hk as [d Hd]. rewrite norm_set_eq.
      apply lall_Forall in Hw. rewrite forallb_forall in Hd. rewrite Forall_forall in Hw.
      destruct (mapM_ok_post (norm fc) (fun x => key_ok d x = true /\ hashable x = true) l) as (l' & -> & Hl').
      { apply Forall_forall. intros x Hx. destruct (norm_key_ok d x (Hw _ Hx) (Hd _ Hx)) as (x' & Ex & Hx'). eauto. }
      cbn [sbind]. destruct (set_build_ok d l' [] (Forall_nil _) Hl') as [s ->]. eexists. reflexivity.
    - destruct Hw as (_ & _ & _ & Hw).
      rewrite norm_obj_eq. destruct (NT_list l H Hw Hk) as [l' ->]. eexists. reflexivity.
    - destruct Hw as (_ & _ & _ & Hw).
      rewrite norm_enum_eq. destruct (IHv Hw Hk) as [x' ->]. eexists. reflexivity.
    - destruct Hw.
  Qed.

  Fixpoint distinct (l : list value) : Prop :=
    match l with
    | [] => True
    | x :: r => Forall (fun y => py_eq x y = SOk false) r /\ distinct r
    end.

  (* values that come back exactly as they were.  The name is also a tactic's: in a term, as in
     [exact fc v] of Properties/C13.v, it is this predicate. *)
  Fixpoint exact (v : value) : Prop :=
    match v with
    | VNone | VBool _ | VInt _ | VStr _ | VBytes _ => True
    | VFloat b => exists w, to32 fc b = SOk w /\ of32 fc w = b
    | VList l | VObj _ l => fold_right (fun x P => exact x /\ P) True l
    | VTuple _ => False
    | VDict kv =>
        distinct (map fst kv) /\ forallb (fun p => hashable (fst p)) kv = true
        /\ fold_right (fun p P => exact (fst p) /\ exact (snd p) /\ P) True kv
    | VSet l => distinct l /\ forallb hashable l = true /\ fold_right (fun x P => exact x /\ P) True l
    | VEnum _ x => exact x
    | VUnsup => False
    end.

  Lemma dict_set_fresh : forall acc k v, Forall (fun p => py_eq (fst p) k = SOk false) acc ->
    dict_set acc k v = SOk (acc ++ [(k, v)]).
  Proof.
    intros acc k v H. pose proof (dict_set_mem acc k v) as S.
    rewrite mem_py_fresh in S by (apply Forall_map; exact H). exact S.
  Qed.

  Lemma dict_build_distinct : forall kv acc,
    (forall a k, In a acc -> In k (map fst kv) -> py_eq (fst a) k = SOk false) ->
    distinct (map fst kv) -> forallb (fun p => hashable (fst p)) kv = true ->
    dict_build acc kv = SOk (acc ++ kv).
  Proof.
    induction kv as [|[k v] r IH]; intros acc Ha Hd Hh.
    - cbn. rewrite app_nil_r. reflexivity.
    - cbn [map fst distinct forallb] in *. destruct Hd as [Hk Hd]. apply andb_prop in Hh. destruct Hh as [Hhk Hhr].
      cbn [dict_build]. unfold dict_put. rewrite Hhk. rewrite dict_set_fresh.
      + cbn [sbind]. rewrite IH; [rewrite <- app_assoc; reflexivity | | exact Hd | exact Hhr].
        intros a k' Hin Hk'. apply in_app_or in Hin. destruct Hin as [Hin | [<- | []]].
        * apply Ha; [exact Hin | right; exact Hk'].
        * cbn [fst]. rewrite Forall_forall in Hk. apply Hk. exact Hk'.
      + apply Forall_forall. intros a Hin. apply Ha; [exact Hin | left; reflexivity].
  Qed.

  Lemma set_build_distinct : forall l acc,
    (forall a x, In a acc -> In x l -> py_eq a x = SOk false) ->
    distinct l -> forallb hashable l = true -> set_build acc l = SOk (acc ++ l).
  Proof.
    induction l as [|x r IH]; intros acc Ha Hd Hh.
    - cbn. rewrite app_nil_r. reflexivity.
    - cbn [distinct forallb] in *. destruct Hd as [Hx Hd]. apply andb_prop in Hh. destruct Hh as [Hhx Hhr].
      cbn [set_build]. unfold set_add. rewrite Hhx. rewrite mem_py_fresh.
      + cbn [sbind]. rewrite IH; [rewrite <- app_assoc; reflexivity | | exact Hd | exact Hhr].
        intros a y Hin Hy. apply in_app_or in Hin. destruct Hin as [Hin | [<- | []]].
        * apply Ha; [exact Hin | right; exact Hy].
        * rewrite Forall_forall in Hx. apply Hx. exact Hy.
      + apply Forall_forall. intros a Hin. apply Ha; [exact Hin | left; reflexivity].
  Qed.

  Lemma exact_list : forall l, Forall (fun v => exact v -> norm fc v = SOk v) l ->
    lall exact l -> mapM (norm fc) l = SOk l.
  Proof.
    intros l H He. apply lall_Forall in He. apply mapM_id. rewrite Forall_forall in *. auto.
  Qed.

  Theorem norm_exact : forall v, exact v -> norm fc v = SOk v.
  Proof.
    induction v using value_ind'; intro He; try reflexivity.
    - destruct He as [w [Hw Ho]]. cbn [norm]. rewrite Hw. cbn [sbind]. rewrite Ho. reflexivity.
    - rewrite norm_list_eq, (exact_list l H He). reflexivity.
    - destruct He.
    - destruct He as [Hd [Hh Hf]]. rewrite norm_dict_eq.
      assert (mapM (norm_pair fc) kv = SOk kv) as ->.
      { apply kvall_Forall in Hf. apply mapM_id. rewrite Forall_forall in *.
        intros [k x] Hp. destruct (H _ Hp) as [Hk Hx]. destruct (Hf _ Hp) as [Hek Hex]. cbn [fst snd norm_pair] in *.
        rewrite (Hk Hek), (Hx Hex). reflexivity. }
      cbn [sbind]. rewrite (dict_build_distinct kv [] ltac:(intros a k []) Hd Hh). reflexivity.
    - destruct He as [Hd [Hh Hf]]. rewrite norm_set_eq, (exact_list l H Hf). cbn [sbind].
      rewrite (set_build_distinct l [] ltac:(intros a k []) Hd Hh). reflexivity.
    - rewrite norm_obj_eq, (exact_list l H He). reflexivity.
    - rewrite norm_enum_eq, (IHv He). reflexivity.
    - destruct He.
  Qed.
End Norm.
