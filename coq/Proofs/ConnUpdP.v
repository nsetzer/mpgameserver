(* A table: upd_<projection>_<field> reads <projection> off an update of <field>, for the ten projections
   outgoing, incoming, key, status, pcbs, pretry_msg, pfrags, rfrags, seq_msg, seq_frag and each of the
   34 fields, each closed by reflexivity on a variable.  Rewriting with one takes an update off a term
   that is not a variable without the kernel comparing nested record updates by conversion, which is
   exponential in the nesting depth.  FragP rewrites with two of them; the rest completes the table.
   No rewrite database is declared: name the equation at the place of use. *)
From RecordUpdate Require Import RecordUpdate.
From Model Require Import Base SeqNum Wire Conn.
Import RecordSetNotations.

Lemma upd_outgoing_server c v : c_outgoing (c <| c_server := v |>) = c_outgoing c. Proof. reflexivity. Qed.
Lemma upd_outgoing_key c v : c_outgoing (c <| c_key := v |>) = c_outgoing c. Proof. reflexivity. Qed.
Lemma upd_outgoing_status c v : c_outgoing (c <| c_status := v |>) = c_outgoing c. Proof. reflexivity. Qed.
Lemma upd_outgoing_incoming c v : c_outgoing (c <| c_incoming := v |>) = c_outgoing c. Proof. reflexivity. Qed.
Lemma upd_outgoing_outgoing c v : c_outgoing (c <| c_outgoing := v |>) = v. Proof. reflexivity. Qed.
Lemma upd_outgoing_packs c v : c_outgoing (c <| c_packs := v |>) = c_outgoing c. Proof. reflexivity. Qed.
Lemma upd_outgoing_pcbs c v : c_outgoing (c <| c_pcbs := v |>) = c_outgoing c. Proof. reflexivity. Qed.
Lemma upd_outgoing_pretry c v : c_outgoing (c <| c_pretry := v |>) = c_outgoing c. Proof. reflexivity. Qed.
Lemma upd_outgoing_pretry_msg c v : c_outgoing (c <| c_pretry_msg := v |>) = c_outgoing c. Proof. reflexivity. Qed.
Lemma upd_outgoing_pfrags c v : c_outgoing (c <| c_pfrags := v |>) = c_outgoing c. Proof. reflexivity. Qed.
Lemma upd_outgoing_rfrags c v : c_outgoing (c <| c_rfrags := v |>) = c_outgoing c. Proof. reflexivity. Qed.
Lemma upd_outgoing_seq_send c v : c_outgoing (c <| c_seq_send := v |>) = c_outgoing c. Proof. reflexivity. Qed.
Lemma upd_outgoing_seq_msg c v : c_outgoing (c <| c_seq_msg := v |>) = c_outgoing c. Proof. reflexivity. Qed.
Lemma upd_outgoing_seq_frag c v : c_outgoing (c <| c_seq_frag := v |>) = c_outgoing c. Proof. reflexivity. Qed.
Lemma upd_outgoing_bf_pkt c v : c_outgoing (c <| c_bf_pkt := v |>) = c_outgoing c. Proof. reflexivity. Qed.
Lemma upd_outgoing_bf_msg c v : c_outgoing (c <| c_bf_msg := v |>) = c_outgoing c. Proof. reflexivity. Qed.
Lemma upd_outgoing_out_timeout c v : c_outgoing (c <| c_out_timeout := v |>) = c_outgoing c. Proof. reflexivity. Qed.
Lemma upd_outgoing_temp_timeout c v : c_outgoing (c <| c_temp_timeout := v |>) = c_outgoing c. Proof. reflexivity. Qed.
Lemma upd_outgoing_send_interval c v : c_outgoing (c <| c_send_interval := v |>) = c_outgoing c. Proof. reflexivity. Qed.
Lemma upd_outgoing_ka_interval c v : c_outgoing (c <| c_ka_interval := v |>) = c_outgoing c. Proof. reflexivity. Qed.
Lemma upd_outgoing_last_recv c v : c_outgoing (c <| c_last_recv := v |>) = c_outgoing c. Proof. reflexivity. Qed.
Lemma upd_outgoing_last_send c v : c_outgoing (c <| c_last_send := v |>) = c_outgoing c. Proof. reflexivity. Qed.
Lemma upd_outgoing_last_ka c v : c_outgoing (c <| c_last_ka := v |>) = c_outgoing c. Proof. reflexivity. Qed.
Lemma upd_outgoing_sent c v : c_outgoing (c <| c_sent := v |>) = c_outgoing c. Proof. reflexivity. Qed.
Lemma upd_outgoing_dropped c v : c_outgoing (c <| c_dropped := v |>) = c_outgoing c. Proof. reflexivity. Qed.
Lemma upd_outgoing_received c v : c_outgoing (c <| c_received := v |>) = c_outgoing c. Proof. reflexivity. Qed.
Lemma upd_outgoing_acked c v : c_outgoing (c <| c_acked := v |>) = c_outgoing c. Proof. reflexivity. Qed.
Lemma upd_outgoing_timeouts c v : c_outgoing (c <| c_timeouts := v |>) = c_outgoing c. Proof. reflexivity. Qed.
Lemma upd_outgoing_assembled c v : c_outgoing (c <| c_assembled := v |>) = c_outgoing c. Proof. reflexivity. Qed.
Lemma upd_outgoing_done c v : c_outgoing (c <| c_done := v |>) = c_outgoing c. Proof. reflexivity. Qed.
Lemma upd_outgoing_next_rid c v : c_outgoing (c <| c_next_rid := v |>) = c_outgoing c. Proof. reflexivity. Qed.
Lemma upd_outgoing_hello_sent c v : c_outgoing (c <| c_hello_sent := v |>) = c_outgoing c. Proof. reflexivity. Qed.
Lemma upd_outgoing_conn_cb c v : c_outgoing (c <| c_conn_cb := v |>) = c_outgoing c. Proof. reflexivity. Qed.
Lemma upd_outgoing_token c v : c_outgoing (c <| c_token := v |>) = c_outgoing c. Proof. reflexivity. Qed.
Lemma upd_pretry_msg_server c v : c_pretry_msg (c <| c_server := v |>) = c_pretry_msg c. Proof. reflexivity. Qed.
Lemma upd_pretry_msg_key c v : c_pretry_msg (c <| c_key := v |>) = c_pretry_msg c. Proof. reflexivity. Qed.
Lemma upd_pretry_msg_status c v : c_pretry_msg (c <| c_status := v |>) = c_pretry_msg c. Proof. reflexivity. Qed.
Lemma upd_pretry_msg_incoming c v : c_pretry_msg (c <| c_incoming := v |>) = c_pretry_msg c. Proof. reflexivity. Qed.
Lemma upd_pretry_msg_outgoing c v : c_pretry_msg (c <| c_outgoing := v |>) = c_pretry_msg c. Proof. reflexivity. Qed.
Lemma upd_pretry_msg_packs c v : c_pretry_msg (c <| c_packs := v |>) = c_pretry_msg c. Proof. reflexivity. Qed.
Lemma upd_pretry_msg_pcbs c v : c_pretry_msg (c <| c_pcbs := v |>) = c_pretry_msg c. Proof. reflexivity. Qed.
Lemma upd_pretry_msg_pretry c v : c_pretry_msg (c <| c_pretry := v |>) = c_pretry_msg c. Proof. reflexivity. Qed.
Lemma upd_pretry_msg_pretry_msg c v : c_pretry_msg (c <| c_pretry_msg := v |>) = v. Proof. reflexivity. Qed.
Lemma upd_pretry_msg_pfrags c v : c_pretry_msg (c <| c_pfrags := v |>) = c_pretry_msg c. Proof. reflexivity. Qed.
Lemma upd_pretry_msg_rfrags c v : c_pretry_msg (c <| c_rfrags := v |>) = c_pretry_msg c. Proof. reflexivity. Qed.
Lemma upd_pretry_msg_seq_send c v : c_pretry_msg (c <| c_seq_send := v |>) = c_pretry_msg c. Proof. reflexivity. Qed.
Lemma upd_pretry_msg_seq_msg c v : c_pretry_msg (c <| c_seq_msg := v |>) = c_pretry_msg c. Proof. reflexivity. Qed.
Lemma upd_pretry_msg_seq_frag c v : c_pretry_msg (c <| c_seq_frag := v |>) = c_pretry_msg c. Proof. reflexivity. Qed.
Lemma upd_pretry_msg_bf_pkt c v : c_pretry_msg (c <| c_bf_pkt := v |>) = c_pretry_msg c. Proof. reflexivity. Qed.
Lemma upd_pretry_msg_bf_msg c v : c_pretry_msg (c <| c_bf_msg := v |>) = c_pretry_msg c. Proof. reflexivity. Qed.
Lemma upd_pretry_msg_out_timeout c v : c_pretry_msg (c <| c_out_timeout := v |>) = c_pretry_msg c. Proof. reflexivity. Qed.
Lemma upd_pretry_msg_temp_timeout c v : c_pretry_msg (c <| c_temp_timeout := v |>) = c_pretry_msg c. Proof. reflexivity. Qed.
Lemma upd_pretry_msg_send_interval c v : c_pretry_msg (c <| c_send_interval := v |>) = c_pretry_msg c. Proof. reflexivity. Qed.
Lemma upd_pretry_msg_ka_interval c v : c_pretry_msg (c <| c_ka_interval := v |>) = c_pretry_msg c. Proof. reflexivity. Qed.
Lemma upd_pretry_msg_last_recv c v : c_pretry_msg (c <| c_last_recv := v |>) = c_pretry_msg c. Proof. reflexivity. Qed.
Lemma upd_pretry_msg_last_send c v : c_pretry_msg (c <| c_last_send := v |>) = c_pretry_msg c. Proof. reflexivity. Qed.
Lemma upd_pretry_msg_last_ka c v : c_pretry_msg (c <| c_last_ka := v |>) = c_pretry_msg c. Proof. reflexivity. Qed.
Lemma upd_pretry_msg_sent c v : c_pretry_msg (c <| c_sent := v |>) = c_pretry_msg c. Proof. reflexivity. Qed.
Lemma upd_pretry_msg_dropped c v : c_pretry_msg (c <| c_dropped := v |>) = c_pretry_msg c. Proof. reflexivity. Qed.
Lemma upd_pretry_msg_received c v : c_pretry_msg (c <| c_received := v |>) = c_pretry_msg c. Proof. reflexivity. Qed.
Lemma upd_pretry_msg_acked c v : c_pretry_msg (c <| c_acked := v |>) = c_pretry_msg c. Proof. reflexivity. Qed.
Lemma upd_pretry_msg_timeouts c v : c_pretry_msg (c <| c_timeouts := v |>) = c_pretry_msg c. Proof. reflexivity. Qed.
Lemma upd_pretry_msg_assembled c v : c_pretry_msg (c <| c_assembled := v |>) = c_pretry_msg c. Proof. reflexivity. Qed.
Lemma upd_pretry_msg_done c v : c_pretry_msg (c <| c_done := v |>) = c_pretry_msg c. Proof. reflexivity. Qed.
Lemma upd_pretry_msg_next_rid c v : c_pretry_msg (c <| c_next_rid := v |>) = c_pretry_msg c. Proof. reflexivity. Qed.
Lemma upd_pretry_msg_hello_sent c v : c_pretry_msg (c <| c_hello_sent := v |>) = c_pretry_msg c. Proof. reflexivity. Qed.
Lemma upd_pretry_msg_conn_cb c v : c_pretry_msg (c <| c_conn_cb := v |>) = c_pretry_msg c. Proof. reflexivity. Qed.
Lemma upd_pretry_msg_token c v : c_pretry_msg (c <| c_token := v |>) = c_pretry_msg c. Proof. reflexivity. Qed.
Lemma upd_pcbs_server c v : c_pcbs (c <| c_server := v |>) = c_pcbs c. Proof. reflexivity. Qed.
Lemma upd_pcbs_key c v : c_pcbs (c <| c_key := v |>) = c_pcbs c. Proof. reflexivity. Qed.
Lemma upd_pcbs_status c v : c_pcbs (c <| c_status := v |>) = c_pcbs c. Proof. reflexivity. Qed.
Lemma upd_pcbs_incoming c v : c_pcbs (c <| c_incoming := v |>) = c_pcbs c. Proof. reflexivity. Qed.
Lemma upd_pcbs_outgoing c v : c_pcbs (c <| c_outgoing := v |>) = c_pcbs c. Proof. reflexivity. Qed.
Lemma upd_pcbs_packs c v : c_pcbs (c <| c_packs := v |>) = c_pcbs c. Proof. reflexivity. Qed.
Lemma upd_pcbs_pcbs c v : c_pcbs (c <| c_pcbs := v |>) = v. Proof. reflexivity. Qed.
Lemma upd_pcbs_pretry c v : c_pcbs (c <| c_pretry := v |>) = c_pcbs c. Proof. reflexivity. Qed.
Lemma upd_pcbs_pretry_msg c v : c_pcbs (c <| c_pretry_msg := v |>) = c_pcbs c. Proof. reflexivity. Qed.
Lemma upd_pcbs_pfrags c v : c_pcbs (c <| c_pfrags := v |>) = c_pcbs c. Proof. reflexivity. Qed.
Lemma upd_pcbs_rfrags c v : c_pcbs (c <| c_rfrags := v |>) = c_pcbs c. Proof. reflexivity. Qed.
Lemma upd_pcbs_seq_send c v : c_pcbs (c <| c_seq_send := v |>) = c_pcbs c. Proof. reflexivity. Qed.
Lemma upd_pcbs_seq_msg c v : c_pcbs (c <| c_seq_msg := v |>) = c_pcbs c. Proof. reflexivity. Qed.
Lemma upd_pcbs_seq_frag c v : c_pcbs (c <| c_seq_frag := v |>) = c_pcbs c. Proof. reflexivity. Qed.
Lemma upd_pcbs_bf_pkt c v : c_pcbs (c <| c_bf_pkt := v |>) = c_pcbs c. Proof. reflexivity. Qed.
Lemma upd_pcbs_bf_msg c v : c_pcbs (c <| c_bf_msg := v |>) = c_pcbs c. Proof. reflexivity. Qed.
Lemma upd_pcbs_out_timeout c v : c_pcbs (c <| c_out_timeout := v |>) = c_pcbs c. Proof. reflexivity. Qed.
Lemma upd_pcbs_temp_timeout c v : c_pcbs (c <| c_temp_timeout := v |>) = c_pcbs c. Proof. reflexivity. Qed.
Lemma upd_pcbs_send_interval c v : c_pcbs (c <| c_send_interval := v |>) = c_pcbs c. Proof. reflexivity. Qed.
Lemma upd_pcbs_ka_interval c v : c_pcbs (c <| c_ka_interval := v |>) = c_pcbs c. Proof. reflexivity. Qed.
Lemma upd_pcbs_last_recv c v : c_pcbs (c <| c_last_recv := v |>) = c_pcbs c. Proof. reflexivity. Qed.
Lemma upd_pcbs_last_send c v : c_pcbs (c <| c_last_send := v |>) = c_pcbs c. Proof. reflexivity. Qed.
Lemma upd_pcbs_last_ka c v : c_pcbs (c <| c_last_ka := v |>) = c_pcbs c. Proof. reflexivity. Qed.
Lemma upd_pcbs_sent c v : c_pcbs (c <| c_sent := v |>) = c_pcbs c. Proof. reflexivity. Qed.
Lemma upd_pcbs_dropped c v : c_pcbs (c <| c_dropped := v |>) = c_pcbs c. Proof. reflexivity. Qed.
Lemma upd_pcbs_received c v : c_pcbs (c <| c_received := v |>) = c_pcbs c. Proof. reflexivity. Qed.
Lemma upd_pcbs_acked c v : c_pcbs (c <| c_acked := v |>) = c_pcbs c. Proof. reflexivity. Qed.
Lemma upd_pcbs_timeouts c v : c_pcbs (c <| c_timeouts := v |>) = c_pcbs c. Proof. reflexivity. Qed.
Lemma upd_pcbs_assembled c v : c_pcbs (c <| c_assembled := v |>) = c_pcbs c. Proof. reflexivity. Qed.
Lemma upd_pcbs_done c v : c_pcbs (c <| c_done := v |>) = c_pcbs c. Proof. reflexivity. Qed.
Lemma upd_pcbs_next_rid c v : c_pcbs (c <| c_next_rid := v |>) = c_pcbs c. Proof. reflexivity. Qed.
Lemma upd_pcbs_hello_sent c v : c_pcbs (c <| c_hello_sent := v |>) = c_pcbs c. Proof. reflexivity. Qed.
Lemma upd_pcbs_conn_cb c v : c_pcbs (c <| c_conn_cb := v |>) = c_pcbs c. Proof. reflexivity. Qed.
Lemma upd_pcbs_token c v : c_pcbs (c <| c_token := v |>) = c_pcbs c. Proof. reflexivity. Qed.
Lemma upd_seq_msg_server c v : c_seq_msg (c <| c_server := v |>) = c_seq_msg c. Proof. reflexivity. Qed.
Lemma upd_seq_msg_key c v : c_seq_msg (c <| c_key := v |>) = c_seq_msg c. Proof. reflexivity. Qed.
Lemma upd_seq_msg_status c v : c_seq_msg (c <| c_status := v |>) = c_seq_msg c. Proof. reflexivity. Qed.
Lemma upd_seq_msg_incoming c v : c_seq_msg (c <| c_incoming := v |>) = c_seq_msg c. Proof. reflexivity. Qed.
Lemma upd_seq_msg_outgoing c v : c_seq_msg (c <| c_outgoing := v |>) = c_seq_msg c. Proof. reflexivity. Qed.
Lemma upd_seq_msg_packs c v : c_seq_msg (c <| c_packs := v |>) = c_seq_msg c. Proof. reflexivity. Qed.
Lemma upd_seq_msg_pcbs c v : c_seq_msg (c <| c_pcbs := v |>) = c_seq_msg c. Proof. reflexivity. Qed.
Lemma upd_seq_msg_pretry c v : c_seq_msg (c <| c_pretry := v |>) = c_seq_msg c. Proof. reflexivity. Qed.
Lemma upd_seq_msg_pretry_msg c v : c_seq_msg (c <| c_pretry_msg := v |>) = c_seq_msg c. Proof. reflexivity. Qed.
Lemma upd_seq_msg_pfrags c v : c_seq_msg (c <| c_pfrags := v |>) = c_seq_msg c. Proof. reflexivity. Qed.
Lemma upd_seq_msg_rfrags c v : c_seq_msg (c <| c_rfrags := v |>) = c_seq_msg c. Proof. reflexivity. Qed.
Lemma upd_seq_msg_seq_send c v : c_seq_msg (c <| c_seq_send := v |>) = c_seq_msg c. Proof. reflexivity. Qed.
Lemma upd_seq_msg_seq_msg c v : c_seq_msg (c <| c_seq_msg := v |>) = v. Proof. reflexivity. Qed.
Lemma upd_seq_msg_seq_frag c v : c_seq_msg (c <| c_seq_frag := v |>) = c_seq_msg c. Proof. reflexivity. Qed.
Lemma upd_seq_msg_bf_pkt c v : c_seq_msg (c <| c_bf_pkt := v |>) = c_seq_msg c. Proof. reflexivity. Qed.
Lemma upd_seq_msg_bf_msg c v : c_seq_msg (c <| c_bf_msg := v |>) = c_seq_msg c. Proof. reflexivity. Qed.
Lemma upd_seq_msg_out_timeout c v : c_seq_msg (c <| c_out_timeout := v |>) = c_seq_msg c. Proof. reflexivity. Qed.
Lemma upd_seq_msg_temp_timeout c v : c_seq_msg (c <| c_temp_timeout := v |>) = c_seq_msg c. Proof. reflexivity. Qed.
Lemma upd_seq_msg_send_interval c v : c_seq_msg (c <| c_send_interval := v |>) = c_seq_msg c. Proof. reflexivity. Qed.
Lemma upd_seq_msg_ka_interval c v : c_seq_msg (c <| c_ka_interval := v |>) = c_seq_msg c. Proof. reflexivity. Qed.
Lemma upd_seq_msg_last_recv c v : c_seq_msg (c <| c_last_recv := v |>) = c_seq_msg c. Proof. reflexivity. Qed.
Lemma upd_seq_msg_last_send c v : c_seq_msg (c <| c_last_send := v |>) = c_seq_msg c. Proof. reflexivity. Qed.
Lemma upd_seq_msg_last_ka c v : c_seq_msg (c <| c_last_ka := v |>) = c_seq_msg c. Proof. reflexivity. Qed.
Lemma upd_seq_msg_sent c v : c_seq_msg (c <| c_sent := v |>) = c_seq_msg c. Proof. reflexivity. Qed.
Lemma upd_seq_msg_dropped c v : c_seq_msg (c <| c_dropped := v |>) = c_seq_msg c. Proof. reflexivity. Qed.
Lemma upd_seq_msg_received c v : c_seq_msg (c <| c_received := v |>) = c_seq_msg c. Proof. reflexivity. Qed.
Lemma upd_seq_msg_acked c v : c_seq_msg (c <| c_acked := v |>) = c_seq_msg c. Proof. reflexivity. Qed.
Lemma upd_seq_msg_timeouts c v : c_seq_msg (c <| c_timeouts := v |>) = c_seq_msg c. Proof. reflexivity. Qed.
Lemma upd_seq_msg_assembled c v : c_seq_msg (c <| c_assembled := v |>) = c_seq_msg c. Proof. reflexivity. Qed.
Lemma upd_seq_msg_done c v : c_seq_msg (c <| c_done := v |>) = c_seq_msg c. Proof. reflexivity. Qed.
Lemma upd_seq_msg_next_rid c v : c_seq_msg (c <| c_next_rid := v |>) = c_seq_msg c. Proof. reflexivity. Qed.
Lemma upd_seq_msg_hello_sent c v : c_seq_msg (c <| c_hello_sent := v |>) = c_seq_msg c. Proof. reflexivity. Qed.
Lemma upd_seq_msg_conn_cb c v : c_seq_msg (c <| c_conn_cb := v |>) = c_seq_msg c. Proof. reflexivity. Qed.
Lemma upd_seq_msg_token c v : c_seq_msg (c <| c_token := v |>) = c_seq_msg c. Proof. reflexivity. Qed.
Lemma upd_key_server c v : c_key (c <| c_server := v |>) = c_key c. Proof. reflexivity. Qed.
Lemma upd_key_key c v : c_key (c <| c_key := v |>) = v. Proof. reflexivity. Qed.
Lemma upd_key_status c v : c_key (c <| c_status := v |>) = c_key c. Proof. reflexivity. Qed.
Lemma upd_key_incoming c v : c_key (c <| c_incoming := v |>) = c_key c. Proof. reflexivity. Qed.
Lemma upd_key_outgoing c v : c_key (c <| c_outgoing := v |>) = c_key c. Proof. reflexivity. Qed.
Lemma upd_key_packs c v : c_key (c <| c_packs := v |>) = c_key c. Proof. reflexivity. Qed.
Lemma upd_key_pcbs c v : c_key (c <| c_pcbs := v |>) = c_key c. Proof. reflexivity. Qed.
Lemma upd_key_pretry c v : c_key (c <| c_pretry := v |>) = c_key c. Proof. reflexivity. Qed.
Lemma upd_key_pretry_msg c v : c_key (c <| c_pretry_msg := v |>) = c_key c. Proof. reflexivity. Qed.
Lemma upd_key_pfrags c v : c_key (c <| c_pfrags := v |>) = c_key c. Proof. reflexivity. Qed.
Lemma upd_key_rfrags c v : c_key (c <| c_rfrags := v |>) = c_key c. Proof. reflexivity. Qed.
Lemma upd_key_seq_send c v : c_key (c <| c_seq_send := v |>) = c_key c. Proof. reflexivity. Qed.
Lemma upd_key_seq_msg c v : c_key (c <| c_seq_msg := v |>) = c_key c. Proof. reflexivity. Qed.
Lemma upd_key_seq_frag c v : c_key (c <| c_seq_frag := v |>) = c_key c. Proof. reflexivity. Qed.
Lemma upd_key_bf_pkt c v : c_key (c <| c_bf_pkt := v |>) = c_key c. Proof. reflexivity. Qed.
Lemma upd_key_bf_msg c v : c_key (c <| c_bf_msg := v |>) = c_key c. Proof. reflexivity. Qed.
Lemma upd_key_out_timeout c v : c_key (c <| c_out_timeout := v |>) = c_key c. Proof. reflexivity. Qed.
Lemma upd_key_temp_timeout c v : c_key (c <| c_temp_timeout := v |>) = c_key c. Proof. reflexivity. Qed.
Lemma upd_key_send_interval c v : c_key (c <| c_send_interval := v |>) = c_key c. Proof. reflexivity. Qed.
Lemma upd_key_ka_interval c v : c_key (c <| c_ka_interval := v |>) = c_key c. Proof. reflexivity. Qed.
Lemma upd_key_last_recv c v : c_key (c <| c_last_recv := v |>) = c_key c. Proof. reflexivity. Qed.
Lemma upd_key_last_send c v : c_key (c <| c_last_send := v |>) = c_key c. Proof. reflexivity. Qed.
Lemma upd_key_last_ka c v : c_key (c <| c_last_ka := v |>) = c_key c. Proof. reflexivity. Qed.
Lemma upd_key_sent c v : c_key (c <| c_sent := v |>) = c_key c. Proof. reflexivity. Qed.
Lemma upd_key_dropped c v : c_key (c <| c_dropped := v |>) = c_key c. Proof. reflexivity. Qed.
Lemma upd_key_received c v : c_key (c <| c_received := v |>) = c_key c. Proof. reflexivity. Qed.
Lemma upd_key_acked c v : c_key (c <| c_acked := v |>) = c_key c. Proof. reflexivity. Qed.
Lemma upd_key_timeouts c v : c_key (c <| c_timeouts := v |>) = c_key c. Proof. reflexivity. Qed.
Lemma upd_key_assembled c v : c_key (c <| c_assembled := v |>) = c_key c. Proof. reflexivity. Qed.
Lemma upd_key_done c v : c_key (c <| c_done := v |>) = c_key c. Proof. reflexivity. Qed.
Lemma upd_key_next_rid c v : c_key (c <| c_next_rid := v |>) = c_key c. Proof. reflexivity. Qed.
Lemma upd_key_hello_sent c v : c_key (c <| c_hello_sent := v |>) = c_key c. Proof. reflexivity. Qed.
Lemma upd_key_conn_cb c v : c_key (c <| c_conn_cb := v |>) = c_key c. Proof. reflexivity. Qed.
Lemma upd_key_token c v : c_key (c <| c_token := v |>) = c_key c. Proof. reflexivity. Qed.
Lemma upd_rfrags_server c v : c_rfrags (c <| c_server := v |>) = c_rfrags c. Proof. reflexivity. Qed.
Lemma upd_rfrags_key c v : c_rfrags (c <| c_key := v |>) = c_rfrags c. Proof. reflexivity. Qed.
Lemma upd_rfrags_status c v : c_rfrags (c <| c_status := v |>) = c_rfrags c. Proof. reflexivity. Qed.
Lemma upd_rfrags_incoming c v : c_rfrags (c <| c_incoming := v |>) = c_rfrags c. Proof. reflexivity. Qed.
Lemma upd_rfrags_outgoing c v : c_rfrags (c <| c_outgoing := v |>) = c_rfrags c. Proof. reflexivity. Qed.
Lemma upd_rfrags_packs c v : c_rfrags (c <| c_packs := v |>) = c_rfrags c. Proof. reflexivity. Qed.
Lemma upd_rfrags_pcbs c v : c_rfrags (c <| c_pcbs := v |>) = c_rfrags c. Proof. reflexivity. Qed.
Lemma upd_rfrags_pretry c v : c_rfrags (c <| c_pretry := v |>) = c_rfrags c. Proof. reflexivity. Qed.
Lemma upd_rfrags_pretry_msg c v : c_rfrags (c <| c_pretry_msg := v |>) = c_rfrags c. Proof. reflexivity. Qed.
Lemma upd_rfrags_pfrags c v : c_rfrags (c <| c_pfrags := v |>) = c_rfrags c. Proof. reflexivity. Qed.
Lemma upd_rfrags_rfrags c v : c_rfrags (c <| c_rfrags := v |>) = v. Proof. reflexivity. Qed.
Lemma upd_rfrags_seq_send c v : c_rfrags (c <| c_seq_send := v |>) = c_rfrags c. Proof. reflexivity. Qed.
Lemma upd_rfrags_seq_msg c v : c_rfrags (c <| c_seq_msg := v |>) = c_rfrags c. Proof. reflexivity. Qed.
Lemma upd_rfrags_seq_frag c v : c_rfrags (c <| c_seq_frag := v |>) = c_rfrags c. Proof. reflexivity. Qed.
Lemma upd_rfrags_bf_pkt c v : c_rfrags (c <| c_bf_pkt := v |>) = c_rfrags c. Proof. reflexivity. Qed.
Lemma upd_rfrags_bf_msg c v : c_rfrags (c <| c_bf_msg := v |>) = c_rfrags c. Proof. reflexivity. Qed.
Lemma upd_rfrags_out_timeout c v : c_rfrags (c <| c_out_timeout := v |>) = c_rfrags c. Proof. reflexivity. Qed.
Lemma upd_rfrags_temp_timeout c v : c_rfrags (c <| c_temp_timeout := v |>) = c_rfrags c. Proof. reflexivity. Qed.
Lemma upd_rfrags_send_interval c v : c_rfrags (c <| c_send_interval := v |>) = c_rfrags c. Proof. reflexivity. Qed.
Lemma upd_rfrags_ka_interval c v : c_rfrags (c <| c_ka_interval := v |>) = c_rfrags c. Proof. reflexivity. Qed.
Lemma upd_rfrags_last_recv c v : c_rfrags (c <| c_last_recv := v |>) = c_rfrags c. Proof. reflexivity. Qed.
Lemma upd_rfrags_last_send c v : c_rfrags (c <| c_last_send := v |>) = c_rfrags c. Proof. reflexivity. Qed.
Lemma upd_rfrags_last_ka c v : c_rfrags (c <| c_last_ka := v |>) = c_rfrags c. Proof. reflexivity. Qed.
Lemma upd_rfrags_sent c v : c_rfrags (c <| c_sent := v |>) = c_rfrags c. Proof. reflexivity. Qed.
Lemma upd_rfrags_dropped c v : c_rfrags (c <| c_dropped := v |>) = c_rfrags c. Proof. reflexivity. Qed.
Lemma upd_rfrags_received c v : c_rfrags (c <| c_received := v |>) = c_rfrags c. Proof. reflexivity. Qed.
Lemma upd_rfrags_acked c v : c_rfrags (c <| c_acked := v |>) = c_rfrags c. Proof. reflexivity. Qed.
Lemma upd_rfrags_timeouts c v : c_rfrags (c <| c_timeouts := v |>) = c_rfrags c. Proof. reflexivity. Qed.
Lemma upd_rfrags_assembled c v : c_rfrags (c <| c_assembled := v |>) = c_rfrags c. Proof. reflexivity. Qed.
Lemma upd_rfrags_done c v : c_rfrags (c <| c_done := v |>) = c_rfrags c. Proof. reflexivity. Qed.
Lemma upd_rfrags_next_rid c v : c_rfrags (c <| c_next_rid := v |>) = c_rfrags c. Proof. reflexivity. Qed.
Lemma upd_rfrags_hello_sent c v : c_rfrags (c <| c_hello_sent := v |>) = c_rfrags c. Proof. reflexivity. Qed.
Lemma upd_rfrags_conn_cb c v : c_rfrags (c <| c_conn_cb := v |>) = c_rfrags c. Proof. reflexivity. Qed.
Lemma upd_rfrags_token c v : c_rfrags (c <| c_token := v |>) = c_rfrags c. Proof. reflexivity. Qed.
Lemma upd_incoming_server c v : c_incoming (c <| c_server := v |>) = c_incoming c. Proof. reflexivity. Qed.
Lemma upd_incoming_key c v : c_incoming (c <| c_key := v |>) = c_incoming c. Proof. reflexivity. Qed.
Lemma upd_incoming_status c v : c_incoming (c <| c_status := v |>) = c_incoming c. Proof. reflexivity. Qed.
Lemma upd_incoming_incoming c v : c_incoming (c <| c_incoming := v |>) = v. Proof. reflexivity. Qed.
Lemma upd_incoming_outgoing c v : c_incoming (c <| c_outgoing := v |>) = c_incoming c. Proof. reflexivity. Qed.
Lemma upd_incoming_packs c v : c_incoming (c <| c_packs := v |>) = c_incoming c. Proof. reflexivity. Qed.
Lemma upd_incoming_pcbs c v : c_incoming (c <| c_pcbs := v |>) = c_incoming c. Proof. reflexivity. Qed.
Lemma upd_incoming_pretry c v : c_incoming (c <| c_pretry := v |>) = c_incoming c. Proof. reflexivity. Qed.
Lemma upd_incoming_pretry_msg c v : c_incoming (c <| c_pretry_msg := v |>) = c_incoming c. Proof. reflexivity. Qed.
Lemma upd_incoming_pfrags c v : c_incoming (c <| c_pfrags := v |>) = c_incoming c. Proof. reflexivity. Qed.
Lemma upd_incoming_rfrags c v : c_incoming (c <| c_rfrags := v |>) = c_incoming c. Proof. reflexivity. Qed.
Lemma upd_incoming_seq_send c v : c_incoming (c <| c_seq_send := v |>) = c_incoming c. Proof. reflexivity. Qed.
Lemma upd_incoming_seq_msg c v : c_incoming (c <| c_seq_msg := v |>) = c_incoming c. Proof. reflexivity. Qed.
Lemma upd_incoming_seq_frag c v : c_incoming (c <| c_seq_frag := v |>) = c_incoming c. Proof. reflexivity. Qed.
Lemma upd_incoming_bf_pkt c v : c_incoming (c <| c_bf_pkt := v |>) = c_incoming c. Proof. reflexivity. Qed.
Lemma upd_incoming_bf_msg c v : c_incoming (c <| c_bf_msg := v |>) = c_incoming c. Proof. reflexivity. Qed.
Lemma upd_incoming_out_timeout c v : c_incoming (c <| c_out_timeout := v |>) = c_incoming c. Proof. reflexivity. Qed.
Lemma upd_incoming_temp_timeout c v : c_incoming (c <| c_temp_timeout := v |>) = c_incoming c. Proof. reflexivity. Qed.
Lemma upd_incoming_send_interval c v : c_incoming (c <| c_send_interval := v |>) = c_incoming c. Proof. reflexivity. Qed.
Lemma upd_incoming_ka_interval c v : c_incoming (c <| c_ka_interval := v |>) = c_incoming c. Proof. reflexivity. Qed.
Lemma upd_incoming_last_recv c v : c_incoming (c <| c_last_recv := v |>) = c_incoming c. Proof. reflexivity. Qed.
Lemma upd_incoming_last_send c v : c_incoming (c <| c_last_send := v |>) = c_incoming c. Proof. reflexivity. Qed.
Lemma upd_incoming_last_ka c v : c_incoming (c <| c_last_ka := v |>) = c_incoming c. Proof. reflexivity. Qed.
Lemma upd_incoming_sent c v : c_incoming (c <| c_sent := v |>) = c_incoming c. Proof. reflexivity. Qed.
Lemma upd_incoming_dropped c v : c_incoming (c <| c_dropped := v |>) = c_incoming c. Proof. reflexivity. Qed.
Lemma upd_incoming_received c v : c_incoming (c <| c_received := v |>) = c_incoming c. Proof. reflexivity. Qed.
Lemma upd_incoming_acked c v : c_incoming (c <| c_acked := v |>) = c_incoming c. Proof. reflexivity. Qed.
Lemma upd_incoming_timeouts c v : c_incoming (c <| c_timeouts := v |>) = c_incoming c. Proof. reflexivity. Qed.
Lemma upd_incoming_assembled c v : c_incoming (c <| c_assembled := v |>) = c_incoming c. Proof. reflexivity. Qed.
Lemma upd_incoming_done c v : c_incoming (c <| c_done := v |>) = c_incoming c. Proof. reflexivity. Qed.
Lemma upd_incoming_next_rid c v : c_incoming (c <| c_next_rid := v |>) = c_incoming c. Proof. reflexivity. Qed.
Lemma upd_incoming_hello_sent c v : c_incoming (c <| c_hello_sent := v |>) = c_incoming c. Proof. reflexivity. Qed.
Lemma upd_incoming_conn_cb c v : c_incoming (c <| c_conn_cb := v |>) = c_incoming c. Proof. reflexivity. Qed.
Lemma upd_incoming_token c v : c_incoming (c <| c_token := v |>) = c_incoming c. Proof. reflexivity. Qed.
Lemma upd_pfrags_server c v : c_pfrags (c <| c_server := v |>) = c_pfrags c. Proof. reflexivity. Qed.
Lemma upd_pfrags_key c v : c_pfrags (c <| c_key := v |>) = c_pfrags c. Proof. reflexivity. Qed.
Lemma upd_pfrags_status c v : c_pfrags (c <| c_status := v |>) = c_pfrags c. Proof. reflexivity. Qed.
Lemma upd_pfrags_incoming c v : c_pfrags (c <| c_incoming := v |>) = c_pfrags c. Proof. reflexivity. Qed.
Lemma upd_pfrags_outgoing c v : c_pfrags (c <| c_outgoing := v |>) = c_pfrags c. Proof. reflexivity. Qed.
Lemma upd_pfrags_packs c v : c_pfrags (c <| c_packs := v |>) = c_pfrags c. Proof. reflexivity. Qed.
Lemma upd_pfrags_pcbs c v : c_pfrags (c <| c_pcbs := v |>) = c_pfrags c. Proof. reflexivity. Qed.
Lemma upd_pfrags_pretry c v : c_pfrags (c <| c_pretry := v |>) = c_pfrags c. Proof. reflexivity. Qed.
Lemma upd_pfrags_pretry_msg c v : c_pfrags (c <| c_pretry_msg := v |>) = c_pfrags c. Proof. reflexivity. Qed.
Lemma upd_pfrags_pfrags c v : c_pfrags (c <| c_pfrags := v |>) = v. Proof. reflexivity. Qed.
Lemma upd_pfrags_rfrags c v : c_pfrags (c <| c_rfrags := v |>) = c_pfrags c. Proof. reflexivity. Qed.
Lemma upd_pfrags_seq_send c v : c_pfrags (c <| c_seq_send := v |>) = c_pfrags c. Proof. reflexivity. Qed.
Lemma upd_pfrags_seq_msg c v : c_pfrags (c <| c_seq_msg := v |>) = c_pfrags c. Proof. reflexivity. Qed.
Lemma upd_pfrags_seq_frag c v : c_pfrags (c <| c_seq_frag := v |>) = c_pfrags c. Proof. reflexivity. Qed.
Lemma upd_pfrags_bf_pkt c v : c_pfrags (c <| c_bf_pkt := v |>) = c_pfrags c. Proof. reflexivity. Qed.
Lemma upd_pfrags_bf_msg c v : c_pfrags (c <| c_bf_msg := v |>) = c_pfrags c. Proof. reflexivity. Qed.
Lemma upd_pfrags_out_timeout c v : c_pfrags (c <| c_out_timeout := v |>) = c_pfrags c. Proof. reflexivity. Qed.
Lemma upd_pfrags_temp_timeout c v : c_pfrags (c <| c_temp_timeout := v |>) = c_pfrags c. Proof. reflexivity. Qed.
Lemma upd_pfrags_send_interval c v : c_pfrags (c <| c_send_interval := v |>) = c_pfrags c. Proof. reflexivity. Qed.
Lemma upd_pfrags_ka_interval c v : c_pfrags (c <| c_ka_interval := v |>) = c_pfrags c. Proof. reflexivity. Qed.
Lemma upd_pfrags_last_recv c v : c_pfrags (c <| c_last_recv := v |>) = c_pfrags c. Proof. reflexivity. Qed.
Lemma upd_pfrags_last_send c v : c_pfrags (c <| c_last_send := v |>) = c_pfrags c. Proof. reflexivity. Qed.
Lemma upd_pfrags_last_ka c v : c_pfrags (c <| c_last_ka := v |>) = c_pfrags c. Proof. reflexivity. Qed.
Lemma upd_pfrags_sent c v : c_pfrags (c <| c_sent := v |>) = c_pfrags c. Proof. reflexivity. Qed.
Lemma upd_pfrags_dropped c v : c_pfrags (c <| c_dropped := v |>) = c_pfrags c. Proof. reflexivity. Qed.
Lemma upd_pfrags_received c v : c_pfrags (c <| c_received := v |>) = c_pfrags c. Proof. reflexivity. Qed.
Lemma upd_pfrags_acked c v : c_pfrags (c <| c_acked := v |>) = c_pfrags c. Proof. reflexivity. Qed.
Lemma upd_pfrags_timeouts c v : c_pfrags (c <| c_timeouts := v |>) = c_pfrags c. Proof. reflexivity. Qed.
Lemma upd_pfrags_assembled c v : c_pfrags (c <| c_assembled := v |>) = c_pfrags c. Proof. reflexivity. Qed.
Lemma upd_pfrags_done c v : c_pfrags (c <| c_done := v |>) = c_pfrags c. Proof. reflexivity. Qed.
Lemma upd_pfrags_next_rid c v : c_pfrags (c <| c_next_rid := v |>) = c_pfrags c. Proof. reflexivity. Qed.
Lemma upd_pfrags_hello_sent c v : c_pfrags (c <| c_hello_sent := v |>) = c_pfrags c. Proof. reflexivity. Qed.
Lemma upd_pfrags_conn_cb c v : c_pfrags (c <| c_conn_cb := v |>) = c_pfrags c. Proof. reflexivity. Qed.
Lemma upd_pfrags_token c v : c_pfrags (c <| c_token := v |>) = c_pfrags c. Proof. reflexivity. Qed.
Lemma upd_seq_frag_server c v : c_seq_frag (c <| c_server := v |>) = c_seq_frag c. Proof. reflexivity. Qed.
Lemma upd_seq_frag_key c v : c_seq_frag (c <| c_key := v |>) = c_seq_frag c. Proof. reflexivity. Qed.
Lemma upd_seq_frag_status c v : c_seq_frag (c <| c_status := v |>) = c_seq_frag c. Proof. reflexivity. Qed.
Lemma upd_seq_frag_incoming c v : c_seq_frag (c <| c_incoming := v |>) = c_seq_frag c. Proof. reflexivity. Qed.
Lemma upd_seq_frag_outgoing c v : c_seq_frag (c <| c_outgoing := v |>) = c_seq_frag c. Proof. reflexivity. Qed.
Lemma upd_seq_frag_packs c v : c_seq_frag (c <| c_packs := v |>) = c_seq_frag c. Proof. reflexivity. Qed.
Lemma upd_seq_frag_pcbs c v : c_seq_frag (c <| c_pcbs := v |>) = c_seq_frag c. Proof. reflexivity. Qed.
Lemma upd_seq_frag_pretry c v : c_seq_frag (c <| c_pretry := v |>) = c_seq_frag c. Proof. reflexivity. Qed.
Lemma upd_seq_frag_pretry_msg c v : c_seq_frag (c <| c_pretry_msg := v |>) = c_seq_frag c. Proof. reflexivity. Qed.
Lemma upd_seq_frag_pfrags c v : c_seq_frag (c <| c_pfrags := v |>) = c_seq_frag c. Proof. reflexivity. Qed.
Lemma upd_seq_frag_rfrags c v : c_seq_frag (c <| c_rfrags := v |>) = c_seq_frag c. Proof. reflexivity. Qed.
Lemma upd_seq_frag_seq_send c v : c_seq_frag (c <| c_seq_send := v |>) = c_seq_frag c. Proof. reflexivity. Qed.
Lemma upd_seq_frag_seq_msg c v : c_seq_frag (c <| c_seq_msg := v |>) = c_seq_frag c. Proof. reflexivity. Qed.
Lemma upd_seq_frag_seq_frag c v : c_seq_frag (c <| c_seq_frag := v |>) = v. Proof. reflexivity. Qed.
Lemma upd_seq_frag_bf_pkt c v : c_seq_frag (c <| c_bf_pkt := v |>) = c_seq_frag c. Proof. reflexivity. Qed.
Lemma upd_seq_frag_bf_msg c v : c_seq_frag (c <| c_bf_msg := v |>) = c_seq_frag c. Proof. reflexivity. Qed.
Lemma upd_seq_frag_out_timeout c v : c_seq_frag (c <| c_out_timeout := v |>) = c_seq_frag c. Proof. reflexivity. Qed.
Lemma upd_seq_frag_temp_timeout c v : c_seq_frag (c <| c_temp_timeout := v |>) = c_seq_frag c. Proof. reflexivity. Qed.
Lemma upd_seq_frag_send_interval c v : c_seq_frag (c <| c_send_interval := v |>) = c_seq_frag c. Proof. reflexivity. Qed.
Lemma upd_seq_frag_ka_interval c v : c_seq_frag (c <| c_ka_interval := v |>) = c_seq_frag c. Proof. reflexivity. Qed.
Lemma upd_seq_frag_last_recv c v : c_seq_frag (c <| c_last_recv := v |>) = c_seq_frag c. Proof. reflexivity. Qed.
Lemma upd_seq_frag_last_send c v : c_seq_frag (c <| c_last_send := v |>) = c_seq_frag c. Proof. reflexivity. Qed.
Lemma upd_seq_frag_last_ka c v : c_seq_frag (c <| c_last_ka := v |>) = c_seq_frag c. Proof. reflexivity. Qed.
Lemma upd_seq_frag_sent c v : c_seq_frag (c <| c_sent := v |>) = c_seq_frag c. Proof. reflexivity. Qed.
Lemma upd_seq_frag_dropped c v : c_seq_frag (c <| c_dropped := v |>) = c_seq_frag c. Proof. reflexivity. Qed.
Lemma upd_seq_frag_received c v : c_seq_frag (c <| c_received := v |>) = c_seq_frag c. Proof. reflexivity. Qed.
Lemma upd_seq_frag_acked c v : c_seq_frag (c <| c_acked := v |>) = c_seq_frag c. Proof. reflexivity. Qed.
Lemma upd_seq_frag_timeouts c v : c_seq_frag (c <| c_timeouts := v |>) = c_seq_frag c. Proof. reflexivity. Qed.
Lemma upd_seq_frag_assembled c v : c_seq_frag (c <| c_assembled := v |>) = c_seq_frag c. Proof. reflexivity. Qed.
Lemma upd_seq_frag_done c v : c_seq_frag (c <| c_done := v |>) = c_seq_frag c. Proof. reflexivity. Qed.
Lemma upd_seq_frag_next_rid c v : c_seq_frag (c <| c_next_rid := v |>) = c_seq_frag c. Proof. reflexivity. Qed.
Lemma upd_seq_frag_hello_sent c v : c_seq_frag (c <| c_hello_sent := v |>) = c_seq_frag c. Proof. reflexivity. Qed.
Lemma upd_seq_frag_conn_cb c v : c_seq_frag (c <| c_conn_cb := v |>) = c_seq_frag c. Proof. reflexivity. Qed.
Lemma upd_seq_frag_token c v : c_seq_frag (c <| c_token := v |>) = c_seq_frag c. Proof. reflexivity. Qed.
Lemma upd_status_server c v : c_status (c <| c_server := v |>) = c_status c. Proof. reflexivity. Qed.
Lemma upd_status_key c v : c_status (c <| c_key := v |>) = c_status c. Proof. reflexivity. Qed.
Lemma upd_status_status c v : c_status (c <| c_status := v |>) = v. Proof. reflexivity. Qed.
Lemma upd_status_incoming c v : c_status (c <| c_incoming := v |>) = c_status c. Proof. reflexivity. Qed.
Lemma upd_status_outgoing c v : c_status (c <| c_outgoing := v |>) = c_status c. Proof. reflexivity. Qed.
Lemma upd_status_packs c v : c_status (c <| c_packs := v |>) = c_status c. Proof. reflexivity. Qed.
Lemma upd_status_pcbs c v : c_status (c <| c_pcbs := v |>) = c_status c. Proof. reflexivity. Qed.
Lemma upd_status_pretry c v : c_status (c <| c_pretry := v |>) = c_status c. Proof. reflexivity. Qed.
Lemma upd_status_pretry_msg c v : c_status (c <| c_pretry_msg := v |>) = c_status c. Proof. reflexivity. Qed.
Lemma upd_status_pfrags c v : c_status (c <| c_pfrags := v |>) = c_status c. Proof. reflexivity. Qed.
Lemma upd_status_rfrags c v : c_status (c <| c_rfrags := v |>) = c_status c. Proof. reflexivity. Qed.
Lemma upd_status_seq_send c v : c_status (c <| c_seq_send := v |>) = c_status c. Proof. reflexivity. Qed.
Lemma upd_status_seq_msg c v : c_status (c <| c_seq_msg := v |>) = c_status c. Proof. reflexivity. Qed.
Lemma upd_status_seq_frag c v : c_status (c <| c_seq_frag := v |>) = c_status c. Proof. reflexivity. Qed.
Lemma upd_status_bf_pkt c v : c_status (c <| c_bf_pkt := v |>) = c_status c. Proof. reflexivity. Qed.
Lemma upd_status_bf_msg c v : c_status (c <| c_bf_msg := v |>) = c_status c. Proof. reflexivity. Qed.
Lemma upd_status_out_timeout c v : c_status (c <| c_out_timeout := v |>) = c_status c. Proof. reflexivity. Qed.
Lemma upd_status_temp_timeout c v : c_status (c <| c_temp_timeout := v |>) = c_status c. Proof. reflexivity. Qed.
Lemma upd_status_send_interval c v : c_status (c <| c_send_interval := v |>) = c_status c. Proof. reflexivity. Qed.
Lemma upd_status_ka_interval c v : c_status (c <| c_ka_interval := v |>) = c_status c. Proof. reflexivity. Qed.
Lemma upd_status_last_recv c v : c_status (c <| c_last_recv := v |>) = c_status c. Proof. reflexivity. Qed.
Lemma upd_status_last_send c v : c_status (c <| c_last_send := v |>) = c_status c. Proof. reflexivity. Qed.
Lemma upd_status_last_ka c v : c_status (c <| c_last_ka := v |>) = c_status c. Proof. reflexivity. Qed.
Lemma upd_status_sent c v : c_status (c <| c_sent := v |>) = c_status c. Proof. reflexivity. Qed.
Lemma upd_status_dropped c v : c_status (c <| c_dropped := v |>) = c_status c. Proof. reflexivity. Qed.
Lemma upd_status_received c v : c_status (c <| c_received := v |>) = c_status c. Proof. reflexivity. Qed.
Lemma upd_status_acked c v : c_status (c <| c_acked := v |>) = c_status c. Proof. reflexivity. Qed.
Lemma upd_status_timeouts c v : c_status (c <| c_timeouts := v |>) = c_status c. Proof. reflexivity. Qed.
Lemma upd_status_assembled c v : c_status (c <| c_assembled := v |>) = c_status c. Proof. reflexivity. Qed.
Lemma upd_status_done c v : c_status (c <| c_done := v |>) = c_status c. Proof. reflexivity. Qed.
Lemma upd_status_next_rid c v : c_status (c <| c_next_rid := v |>) = c_status c. Proof. reflexivity. Qed.
Lemma upd_status_hello_sent c v : c_status (c <| c_hello_sent := v |>) = c_status c. Proof. reflexivity. Qed.
Lemma upd_status_conn_cb c v : c_status (c <| c_conn_cb := v |>) = c_status c. Proof. reflexivity. Qed.
Lemma upd_status_token c v : c_status (c <| c_token := v |>) = c_status c. Proof. reflexivity. Qed.
