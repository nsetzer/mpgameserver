(* C07: when the connection reports success / failure of a send.  The single-resolve facts come first
   (what firing the callbacks of one datagram reports); then the log of the resolutions of a step, which
   says for each resolve call of a tick or a receive why it was made; the statements about a step are read
   off an entry of the log. *)
From Coq Require Import Lia.
From RecordUpdate Require Import RecordUpdate.
From Model Require Import Base SeqNum Wire Conn Net2.
From Proofs Require Import DictP BytesP ConnFrameP NonceP AckP.
Import RecordSetNotations.
Open Scope Z_scope.

Definition cb_true (o : list out) : Prop := exists id, In (OCallback id true) o.

(* fragment sender contexts in pending_fragments are never complete *)
Definition incomplete (fs : fsender) : Prop := forallb is_some (fs_acks fs) = false.
Definition Inc (c : conn) : Prop := Forall (fun p => incomplete (snd p)) (c_pfrags c).

Lemma cb_true_app a b : cb_true (a ++ b) -> cb_true a \/ cb_true b.
Proof. intros [id H]. apply in_app_or in H as [H|H]; [left|right]; exists id; exact H. Qed.

Lemma set_false_not_all_true l : forall n, forallb is_some l = false ->
  forallb is_some (set_nth n (Some false) l) = true -> forallb is_true (set_nth n (Some false) l) = false.
Proof.
  induction l as [|a l IH]; intros n H0 H1; [discriminate|].
  destruct n as [|n]; cbn [set_nth forallb is_true] in *; [reflexivity|].
  apply andb_prop in H1 as [Ha Hl]. rewrite Ha in H0. cbn [andb] in H0. rewrite (IH _ H0 Hl). apply andb_false_r.
Qed.

Definition truthful (ok : bool) (c c' : conn) (o : list out) : Prop := Inc c -> Inc c' /\ (ok = false -> ~ cb_true o).

Lemma fire_icb_truthful c k ok c' o : fire_icb c k ok = (c', o) -> truthful ok c c' o.
Proof.
  intros E I. destruct (fire_icb_cases _ _ _ _ _ E) as [o' Ho|fid idx fs o' _ Eg Ea Ho|fid idx fs _ _ Ea].
  - split; [exact I|]. intros -> [id Hin]. destruct (Ho _ _ Hin) as [_ H]. discriminate.
  - split; [apply Forall_ddel; exact I|]. intros -> [id Hin]. destruct (Ho _ _ Hin) as [_ H]. unfold frag_acks in *.
    (* the last flag is false: not all are true *)
    unfold Inc in I. rewrite Forall_forall in I. pose proof (I _ (dget_In _ _ _ Eg)) as Hinc. cbn in Hinc.
    rewrite (set_false_not_all_true _ _ Hinc Ea) in H. discriminate.
  - split; [apply Forall_dset; [exact I|exact Ea]|intros _ [id []]].
Qed.

Lemma fire_cb_truthful c k ok c' o : fire_cb c k ok = (c', o) -> truthful ok c c' o.
Proof.
  intros E I. apply fire_cb_cases in E as [(q & -> & ->)|(d & i & _ & E)]; [split; [exact I|intros _ [id []]]|].
  exact (fire_icb_truthful _ _ _ _ _ E I).
Qed.

Lemma truthful_same ok c c' : c_pfrags c' = c_pfrags c -> truthful ok c c' [].
Proof. intros P I. split; [unfold Inc; rewrite P; exact I|intros _ [id []]]. Qed.
Lemma truthful_trans ok a b c o1 o2 : truthful ok a b o1 -> truthful ok b c o2 -> truthful ok a c (o1 ++ o2).
Proof.
  intros H1 H2 I. destruct (H1 I) as [I1 N1]. destruct (H2 I1) as [I2 N2]. split; [exact I2|].
  intros Hk H. apply cb_true_app in H as [H|H]; [exact (N1 Hk H)|exact (N2 Hk H)].
Qed.

Lemma ratom_truthful ok c c' o : ratom (eq ok) c c' o -> truthful ok c c' o.
Proof.
  intros [ok' _|s ks k ok' c1 o1 <- _ _ E|s|s _].
  - apply truthful_same. destruct ok'; reflexivity.
  - eapply fire_cb_truthful, E.
  - apply truthful_same. reflexivity.
  - apply truthful_same. exact (wr_keeps W_forget c_pfrags (fun _ _ => eq_refl) (forget_wr s c)).
Qed.

Lemma resolve_truthful ok c s c' o : resolve ok c s = (c', o) -> truthful ok c c' o.
Proof.
  intros E. apply (resolve_racts (eq ok) ok _ _ _ _ eq_refl) in E. revert E.
  apply star_rel; [intros a; apply truthful_same; reflexivity|apply truthful_trans|apply ratom_truthful].
Qed.

Lemma ratom_Inc B c c' o : ratom B c c' o -> Inc c -> Inc c'.
Proof.
  intros [ok' _|s ks k ok' c1 o1 _ _ _ E|s|s _] I; [destruct ok'; exact I|exact (proj1 (fire_cb_truthful _ _ _ _ _ E I))|exact I|].
  unfold Inc. rewrite (wr_keeps W_forget c_pfrags (fun _ _ => eq_refl) (forget_wr s c)). exact I.
Qed.

Lemma resolve_Inc ok c s c' o : Inc c -> resolve ok c s = (c', o) -> Inc c'.
Proof. intros I E. apply (resolve_truthful _ _ _ _ _ E I). Qed.

Lemma resolve_false_true c s c' o : Inc c -> resolve false c s = (c', o) -> ~ cb_true o.
Proof. intros I E. exact (proj2 (resolve_truthful _ _ _ _ _ E I) eq_refl). Qed.

Lemma no_cb_true_of_cb_free o : (forall id b, ~ In (OCallback id b) o) -> ~ cb_true o.
Proof. intros H [id Hin]. exact (H _ _ Hin). Qed.

Lemma dispatch_no_cb c now m orcs c' o orcs' id b : dispatch c now m orcs = (c', o, orcs') -> ~ In (OCallback id b) o.
Proof.
  unfold dispatch. intros E H.
  assert (Hh : forall ty, (let '(c1, o1) := recv_handshake c ty (hd no_oracle orcs) in (c1, o1, tl orcs)) = (c', o, orcs') -> False).
  { intros ty E1. destruct (recv_handshake c ty _) as [c1 o1] eqn:Eh. injection E1 as _ <- _.
    destruct (recv_handshake_inv _ _ _ _ _ Eh) as [os' _ _ [->|(er & ->)]|_ _ _ _|_ _ _ _|_ _ _|_ _ _];
      try destruct (c_conn_cb c); repeat (destruct H as [H|H]; [discriminate|]); destruct H. }
  destruct (w_type m); try (exact (Hh _ E)); try (injection E as _ <- _; destruct H).
  destruct (recv_fragment _ _ _ _) as [c1 o1] eqn:Ef. injection E as _ <- _.
  destruct (recv_fragment_out Ef) as [->| ->]; [destruct H|destruct H as [H|[]]; discriminate].
Qed.

Lemma recv_msgs_no_cb ms : forall c now orcs c' o id b, recv_msgs c now ms orcs = (c', o) -> ~ In (OCallback id b) o.
Proof.
  induction ms as [|m r IH]; intros c now orcs c' o id b E; [injection E as _ <-; intros []|].
  rewrite recv_msgs_cons in E. destruct (bf_insert _ _); [|eapply IH, E].
  destruct (dispatch _ now m orcs) as [[c1 o1] orcs1] eqn:E1. apply dispatch_no_cb with (id := id) (b := b) in E1.
  destruct (raised o1); [injection E as _ <-; exact E1|].
  destruct (recv_msgs c1 now r orcs1) as [c2 o2] eqn:E2. injection E as _ <-.
  intros H. apply in_app_or in H as [H|H]; [exact (E1 H)|exact (IH _ _ _ _ _ _ _ E2 H)].
Qed.

Lemma send_no_cb e c p r k c' o id b : send e c p r k = (c', o) -> ~ In (OCallback id b) o.
Proof.
  intros E Hin. destruct (send_out E) as [->| ->]; [destruct Hin|destruct Hin as [H|[]]; discriminate].
Qed.

Lemma client_update_no_cb c now c' o id b : client_update c now = (c', o) -> ~ In (OCallback id b) o.
Proof. intros E H. apply client_update_out in E as [->| ->]; [destruct H|destruct H as [H|[]]; discriminate]. Qed.

Lemma atom_pfrags e x c c' o : atom e x c c' o ->
  c_pfrags c' = c_pfrags c \/ (exists p r k, x = ESend p r k /\ send e c p r k = (c', o)) \/ (exists h, handle_ack_bits c h = (c', o)).
Proof.
  intros [H|H|H];
    [destruct H as [p r k c1 o1 Ex E|k _|w v ->|now hello _|_|b _|now r c1 o1 _ E|now er _]
    |destruct H as [o1 _|s bf _|h c1 o1 _ E|o1 _]
    |destruct H as [s bf _|s p|s p c1 o1 E| |ty oo c1 os _ _ E]]; try (left; reflexivity).
  - right. left. eauto.
  - left. exact (wr_keeps W_disc c_pfrags (fun _ _ => eq_refl) (disconnect_wr c k)).
  - left. exact (wr_keeps W_cfg c_pfrags (fun _ _ => eq_refl) (setcfg_wr e c w v)).
  - left. exact (wr_keeps W_update c_pfrags (fun _ _ => eq_refl) (client_update_wr E)).
  - right. right. eauto.
  - left. exact (wr_keeps W_frag c_pfrags (fun _ _ => eq_refl) (recv_fragment_wr E)).
  - left. exact (wr_keeps W_hs c_pfrags (fun _ _ => eq_refl) (recv_handshake_wr E)).
Qed.

(* receiving: success is reported only for a datagram that passes the authenticity gate (opens
   under the key the connection holds), is new, and whose header acknowledges a pending datagram *)
Definition passes_gate (c : conn) (d : dgram) : Prop :=
  keyless_refuses c (d_hdr d) = false /\ (exists ms, open_dgram (c_key c) d = Ok ms) /\ exists bf, bf_insert (c_bf_pkt c) (h_seq (d_hdr d)) = Ok bf.

Lemma passes_gate_opens c d : passes_gate c d -> opens c d = true.
Proof. intros (G1 & (ms & G2) & _). unfold opens. rewrite G1, G2. reflexivity. Qed.

Definition old_false (c0 cur : conn) : Prop :=
  forall fid fs, dget fid (c_pfrags cur) = Some fs -> In (Some false) (fs_acks fs) ->
    exists fs0, dget fid (c_pfrags c0) = Some fs0 /\ fs_ucb fs0 = fs_ucb fs /\ In (Some false) (fs_acks fs0).

(* since c0: either a datagram has been declared timed out, or no new failed ack exists *)
Definition no_new_false (c0 cur : conn) : Prop :=
  c_timeouts c0 <= c_timeouts cur /\ (c_timeouts c0 < c_timeouts cur \/ old_false c0 cur).

Definition false_ok (c0 : conn) (c' : conn) (o : list out) : Prop :=
  forall id, In (OCallback id false) o ->
    c_timeouts c0 < c_timeouts c' \/
    exists fid fs0, dget fid (c_pfrags c0) = Some fs0 /\ fs_ucb fs0 = IUser id /\ In (Some false) (fs_acks fs0).

Lemma set_nth_true_false l : forall n, In (Some false) (set_nth n (Some true) l) -> In (Some false) l.
Proof.
  induction l as [|a l IH]; intros [|n] H; cbn [set_nth] in *; try exact H.
  - destruct H as [H|H]; [discriminate|right; exact H].
  - destruct H as [H|H]; [left; exact H|right; eapply IH; exact H].
Qed.

Lemma all_some_not_all_true l : forallb is_some l = true -> forallb is_true l = false -> In (Some false) l.
Proof.
  induction l as [|a l IH]; cbn; intros H1 H2; [discriminate|].
  apply andb_prop in H1 as [Ha Hl]. destruct a as [[|]|]; cbn in *; try discriminate.
  - right. apply IH; assumption.
  - left. reflexivity.
Qed.

Lemma no_new_false_refl c : no_new_false c c. Proof. split; [lia|right]. intros fid fs H1 H2. exists fs. auto. Qed.

Lemma old_false_trans a b c : old_false a b -> old_false b c -> old_false a c.
Proof.
  intros H1 H2 fid fs G I. destruct (H2 _ _ G I) as (fs1 & G1 & U1 & I1). destruct (H1 _ _ G1 I1) as (fs0 & G0 & U0 & I0).
  exists fs0. split; [exact G0|]. split; [congruence|exact I0].
Qed.

Lemma no_new_false_trans a b c : no_new_false a b -> no_new_false b c -> no_new_false a c.
Proof.
  intros [T1 [H1|H1]] [T2 [H2|H2]]; (split; [lia|]); try (left; lia). right. eapply old_false_trans; eassumption.
Qed.

Lemma no_new_false_same a b : c_pfrags b = c_pfrags a -> c_timeouts b = c_timeouts a -> no_new_false a b.
Proof. intros P T. split; [lia|right]. unfold old_false. rewrite P. intros fid fs H1 H2. exists fs. auto. Qed.

Definition fails (a b : conn) (o : list out) : Prop := no_new_false a b /\ false_ok a b o.

Lemma fails_refl c : fails c c []. Proof. split; [apply no_new_false_refl|intros id []]. Qed.
Lemma fails_trans a b c o1 o2 : fails a b o1 -> fails b c o2 -> fails a c (o1 ++ o2).
Proof.
  intros [Q1 F1] [Q2 F2]. split; [eapply no_new_false_trans; eassumption|]. destruct Q1 as [T1 Q1], Q2 as [T2 _].
  intros id H. apply in_app_or in H as [H|H].
  - destruct (F1 id H) as [L|R]; [left; lia|right; exact R].
  - (* a failed flag seen by the second part is an old one of the first, or the first has timed a datagram out *)
    destruct (F2 id H) as [L|(fid & fs & A & B & C)]; [left; lia|]. destruct Q1 as [L|Hold]; [left; lia|right].
    destruct (Hold _ _ A C) as (fs0 & A0 & B0 & C0). exists fid, fs0. rewrite B0. auto.
Qed.
Lemma fails_quiet a b : c_pfrags b = c_pfrags a -> c_timeouts b = c_timeouts a -> fails a b [].
Proof. intros P T. split; [apply no_new_false_same; assumption|intros id []]. Qed.

(* one inner callback fired for an acknowledged datagram: a failure it reports is an old one *)
Lemma fire_icb_fails c k c' o : fire_icb c k true = (c', o) -> fails c c' o.
Proof.
  intros E. destruct (fire_icb_cases _ _ _ _ _ E) as [o' Ho|fid idx fs o' _ Eg Ea Ho|fid idx fs _ Eg Ea]; unfold frag_acks in *.
  - split; [apply no_new_false_refl|]. intros id Hin. destruct (Ho _ _ Hin) as [_ H]. discriminate.
  - (* complete: the user callback fires, the context is deleted *)
    split; [split; [cbn; lia|right]|].
    + intros fid' fs' H1 H2. cbn in H1. rewrite dget_ddel in H1. destruct (fid' =? fid); [discriminate|]. exists fs'. auto.
    + intros id Hin. destruct (Ho _ _ Hin) as [Eu Hf]. right. exists fid, fs. split; [exact Eg|]. split; [exact Eu|].
      apply (set_nth_true_false _ (Z.to_nat idx)), all_some_not_all_true; assumption.
  - (* not complete: the flag is stored *)
    split; [split; [cbn; lia|right]|intros id []].
    intros fid' fs' H1 H2. cbn in H1. rewrite dget_dset in H1. destruct (fid' =? fid) eqn:Ef; [|exists fs'; auto].
    apply Z.eqb_eq in Ef. subst fid'. injection H1 as <-. cbn in H2. apply set_nth_true_false in H2. exists fs. auto.
Qed.

Lemma fire_cb_fails c k c' o : fire_cb c k true = (c', o) -> fails c c' o.
Proof.
  intros E. apply fire_cb_cases in E as [(q & -> & ->)|(d & i & _ & E)]; [apply fails_quiet; reflexivity|].
  change o with ([] ++ o). eapply fails_trans; [|exact (fire_icb_fails _ _ _ _ E)]. apply fails_quiet; reflexivity.
Qed.

Lemma ratom_fails c c' o : ratom (eq true) c c' o -> fails c c' o.
Proof.
  intros [ok' <-|s ks k ok' c1 o1 <- _ _ E|s|s _].
  - apply fails_quiet; reflexivity.
  - eapply fire_cb_fails, E.
  - apply fails_quiet; reflexivity.
  - apply fails_quiet; [exact (wr_keeps W_forget c_pfrags (fun _ _ => eq_refl) (forget_wr s c))|exact (wr_keeps W_forget c_timeouts (fun _ _ => eq_refl) (forget_wr s c))].
Qed.

(* a time-out raises c_timeouts, which is the first alternative of no_new_false and of false_ok; an acknowledgement fires the callbacks *)
Lemma resolve_fails ok c s c' o : resolve ok c s = (c', o) -> fails c c' o.
Proof.
  intros E. pose proof (resolve_packs _ _ _ _ _ E) as (_ & _ & _ & T).
  destruct ok; [|split; [split; [lia|left; lia]|intros id _; left; lia]].
  apply (resolve_racts (eq true) true _ _ _ _ eq_refl) in E. revert E. apply star_rel; [apply fails_refl|apply fails_trans|apply ratom_fails].
Qed.

(* Every callback a connection reports and every change of its two resolution counters comes from a call
   of resolve (_handle_ack / _handle_timeout).  The log of a step lists these calls, each with the reason
   it was made. *)

(* a call of resolve, for the datagram r_s r, sent at r_t r *)
Record resn := { r_ok : bool; r_s : Z; r_t : Z; r_c : conn; r_c' : conn; r_o : list out }.
Definition is_res (r : resn) : Prop := resolve (r_ok r) (r_c r) (r_s r) = (r_c' r, r_o r).

Definition cbs_from (o : list out) (l : list resn) : Prop :=
  forall id b, In (OCallback id b) o -> exists r, In r l /\ In (OCallback id b) (r_o r).
Definition nres (b : bool) (l : list resn) : Z := len (filter (fun r => Bool.eqb (r_ok r) b) l).

Lemma nres_app b l1 l2 : nres b (l1 ++ l2) = nres b l1 + nres b l2.
Proof. unfold nres. rewrite filter_app. apply len_app. Qed.

Lemma nres_nonneg b l : 0 <= nres b l. Proof. apply len_nonneg. Qed.

Lemma nres_pos b l : 0 < nres b l <-> exists r, In r l /\ r_ok r = b.
Proof.
  unfold nres. split.
  - intros H. destruct (filter _ l) as [|r f] eqn:E; [cbn in H; lia|].
    assert (Hr : In r (filter (fun r => Bool.eqb (r_ok r) b) l)) by (rewrite E; left; reflexivity).
    apply filter_In in Hr as [Hr Hb]. exists r. split; [exact Hr|apply Bool.eqb_prop, Hb].
  - intros (r & Hr & Hb).
    assert (Hf : In r (filter (fun r => Bool.eqb (r_ok r) b) l)) by (apply filter_In; split; [exact Hr|rewrite Hb; apply Bool.eqb_reflx]).
    destruct (filter _ l) as [|r0 f]; [destruct Hf|rewrite len_cons; pose proof (len_nonneg f); lia].
Qed.

(* F: what is known of a later state; J: why a resolution was made *)
Section Log.
  Variable F : conn -> conn -> Prop.
  Hypothesis Frefl : forall c, F c c.
  Hypothesis Ftrans : forall a b c, F a b -> F b c -> F a c.
  Variable J : resn -> Prop.

  Record log_of (c c' : conn) (o : list out) (l : list resn) : Prop := {
    lg_res : Forall is_res l;
    lg_why : Forall J l;
    lg_pre : Forall (fun r => F c (r_c r)) l;
    lg_post : Forall (fun r => F (r_c' r) c') l;
    lg_all : F c c';
    lg_cbs : cbs_from o l;
    lg_to : c_timeouts c' = c_timeouts c + nres false l;
    lg_ak : c_acked c' = c_acked c + nres true l }.
  Definition logged (c c' : conn) (o : list out) : Prop := exists l, log_of c c' o l.

  Lemma log_entry c c' o l r : log_of c c' o l -> In r l -> is_res r /\ J r /\ F c (r_c r) /\ F (r_c' r) c'.
  Proof. intros [R W P Q _ _ _ _] Hr. rewrite Forall_forall in R, W, P, Q. auto. Qed.

  Lemma logged_quiet c c' o : F c c' -> (forall id b, ~ In (OCallback id b) o) ->
    c_timeouts c' = c_timeouts c -> c_acked c' = c_acked c -> logged c c' o.
  Proof.
    intros HF N T A. exists []. constructor; try constructor; try assumption; [|cbn; lia..].
    intros id b H. destruct (N _ _ H).
  Qed.

  Lemma logged_refl c : logged c c [].
  Proof. apply logged_quiet; auto. Qed.

  Lemma logged_trans a b c o1 o2 : logged a b o1 -> logged b c o2 -> logged a c (o1 ++ o2).
  Proof.
    intros [l1 [R1 W1 P1 Q1 A1 C1 T1 K1]] [l2 [R2 W2 P2 Q2 A2 C2 T2 K2]]. exists (l1 ++ l2).
    constructor; try (apply Forall_app; split; try assumption); try (rewrite nres_app; lia).
    - eapply Forall_impl; [|exact P2]. intros r. apply Ftrans, A1.
    - eapply Forall_impl; [|exact Q1]. intros r H. exact (Ftrans _ _ _ H A2).
    - exact (Ftrans _ _ _ A1 A2).
    - intros id v H. apply in_app_or in H as [H|H]; [destruct (C1 _ _ H) as (r & H1 & H2)|destruct (C2 _ _ H) as (r & H1 & H2)];
        exists r; (split; [apply in_or_app; auto|exact H2]).
  Qed.

  Lemma logged_res r : is_res r -> J r -> F (r_c r) (r_c' r) -> logged (r_c r) (r_c' r) (r_o r).
  Proof.
    intros E W HF. exists [r]. pose proof (resolve_packs _ _ _ _ _ E) as (_ & _ & A & T).
    constructor; try (constructor; [|constructor]); try assumption; try apply Frefl.
    - intros id b H. exists r. split; [left; reflexivity|exact H].
    - rewrite T. unfold nres. cbn. destruct (r_ok r); reflexivity.
    - rewrite A. unfold nres. cbn. destruct (r_ok r); reflexivity.
  Qed.

  (* the log reads the outputs as a set *)
  Lemma logged_out c c' o o' : incl o' o -> logged c c' o -> logged c c' o'.
  Proof. intros Hi [l [R W P Q A C T K]]. exists l. constructor; try assumption. intros id b H. apply C, Hi, H. Qed.
End Log.

Lemma logged_impl (F F' : conn -> conn -> Prop) (J J' : resn -> Prop) c c' o :
  (forall a b, F a b -> F' a b) -> (forall r, F c (r_c r) -> J r -> J' r) -> logged F J c c' o -> logged F' J' c c' o.
Proof.
  intros HF HJ [l [R W P Q A C T K]]. exists l. constructor; try assumption; auto.
  - clear - HJ W P. induction l as [|r l IH]; constructor; inversion W; inversion P; subst; auto.
  - eapply Forall_impl; [|exact P]. auto.
  - eapply Forall_impl; [|exact Q]. auto.
Qed.

(* the callback machinery's own fields: the parts of a step between the sweeps keep them *)
Definition cbf (c : conn) := (c_pfrags c, c_done c, c_timeouts c, c_acked c).

(* why a datagram is resolved.  At a receive: as acknowledged, for a header that passed the gate and names
   it (pending_callbacks only shrinks during the sweep, so what is registered for it when it is resolved
   was registered when the datagram arrived); as timed out, because it is older than the message time-out.
   In the tail of update(): as timed out, because it is as old as the message time-out. *)
Definition acked_at (c : conn) (d : dgram) (r : resn) : Prop :=
  passes_gate c d /\ In (r_s r, r_t r) (c_packs c) /\ hdr_acks (h_ack (d_hdr d)) (h_ackbits (d_hdr d)) (r_s r) = true /\
  forall ks, dget (r_s r) (c_pcbs (r_c r)) = Some ks -> dget (r_s r) (c_pcbs c) = Some ks.
Definition recv_why (c : conn) (now : Z) (d : dgram) (r : resn) : Prop :=
  if r_ok r then acked_at c d r else In (r_s r, r_t r) (c_packs c) /\ c_out_timeout c < now - r_t r.
Definition due_why (c : conn) (now : Z) (r : resn) : Prop :=
  r_ok r = false /\ (In (r_s r, r_t r) (c_packs c) \/ r_t r = now) /\ c_out_timeout c <= now - r_t r.
(* the datagram d of the event x reaches _recv_datagram in the state c0 *)
Definition reaches (c : conn) (x : ev) (c0 : conn) (d : dgram) : Prop :=
  pre_recv c x = Some (c0, d) /\
  exists now orcs, x = ERecv now d orcs /\ c0 = c \/ x = EClientTick now (RxDgram d orcs) /\ c0 = fst (client_update c now).
Definition why (c : conn) (x : ev) (r : resn) : Prop :=
  if r_ok r then exists c0 d, reaches c x c0 d /\ acked_at c0 d r else due_why c (ev_now x) r.

Definition sweeps (x : ev) : bool := match x with EClientTick _ _ | EServerTick _ | ERecv _ _ _ => true | _ => false end.

Lemma why_due c x r : due_why c (ev_now x) r -> why c x r.
Proof. intros [E H]. unfold why. rewrite E. split; [exact E|exact H]. Qed.

Lemma why_recv c x c0 d r : reaches c x c0 d -> c_packs c0 = c_packs c -> c_out_timeout c0 = c_out_timeout c ->
  recv_why c0 (ev_now x) d r -> why c x r.
Proof.
  intros Hp P O. unfold why, recv_why, due_why. destruct (r_ok r); [eauto|]. rewrite P, O. intros [A B].
  split; [reflexivity|]. split; [left; exact A|lia].
Qed.

(* F: what a user of the log wants to know of the states a step passes through *)
Section StepLog.
  Variable F : conn -> conn -> Prop.
  Hypothesis Frefl : forall c, F c c.
  Hypothesis Ftrans : forall a b c, F a b -> F b c -> F a c.
  Hypothesis Fquiet : forall a b, cbf b = cbf a -> F a b.
  Hypothesis Fres : forall ok a s b o, resolve ok a s = (b, o) -> F a b.

  (* what a sweep keeps between two of its resolutions: besides F, pending_callbacks and pending_acks only lose entries *)
  Definition swept (a b : conn) : Prop :=
    wr W_resolve a b /\ F a b /\ (forall s ks, dget s (c_pcbs b) = Some ks -> dget s (c_pcbs a) = Some ks) /\
    incl (c_packs b) (c_packs a).

  Lemma swept_refl c : swept c c.
  Proof. split; [apply wr_refl|]. split; [apply Frefl|]. split; [auto|apply incl_refl]. Qed.
  Lemma swept_trans a b c : swept a b -> swept b c -> swept a c.
  Proof.
    intros (S1 & N1 & P1 & I1) (S2 & N2 & P2 & I2). split; [eapply wr_trans; eassumption|].
    split; [eapply Ftrans; eassumption|]. split; [auto|eapply incl_tran; eassumption].
  Qed.

  Lemma resolve_swept ok c s c' o : resolve ok c s = (c', o) -> swept c c'.
  Proof.
    intros E. split; [eapply resolve_wr, E|]. split; [eapply Fres, E|]. split; [exact (resolve_pcbs_sub _ _ _ _ _ E)|].
    apply resolve_packs in E as (P & _). rewrite P. intros x Hx. apply ddel_In in Hx as [Hx _]. exact Hx.
  Qed.

  Lemma sweep_logged verdict snap c c' o : sweep verdict c snap = (c', o) ->
    logged swept (fun r => In (r_s r, r_t r) snap /\ verdict (r_c r) (r_s r) (r_t r) = Some (r_ok r)) c c' o.
  Proof.
    apply sweep_walk; [apply logged_refl, swept_refl|apply logged_trans, swept_trans|].
    intros a s t ok a' o' Hin Hv E.
    apply (logged_res swept swept_refl _ {| r_ok := ok; r_s := s; r_t := t; r_c := a; r_c' := a'; r_o := o' |}); cbn; auto.
    eapply resolve_swept, E.
  Qed.

  Lemma quiet_logged J c c' o : cbf c' = cbf c -> (forall id b, ~ In (OCallback id b) o) -> logged F J c c' o.
  Proof. intros E N. pose proof (Fquiet _ _ E). injection E as P D T A. apply logged_quiet; auto. Qed.

  Lemma recv_logged c now d orcs c' o : recv c now d orcs = (c', o) ->
    logged F (recv_why c now d) c c' o /\ incl (c_packs c') (c_packs c) /\ c_out_timeout c' = c_out_timeout c.
  Proof.
    intros E. pose proof (wr_keeps W_recv c_out_timeout (fun _ _ => eq_refl) (recv_wr E)) as O.
    apply recv_cases in E as [(-> & -> & _)|(ms & bf & c1 & o1 & o2 & G1 & G2 & G3 & E1 & E2 & ->)].
    { split; [|split; [apply incl_refl|reflexivity]]. apply quiet_logged; [reflexivity|intros id b [H|[]]; discriminate]. }
    set (ca := c <| c_bf_pkt := bf |> <| c_received := c_received c + 1 |> <| c_last_recv := now |>) in E1.
    unfold handle_ack_bits in E1. rewrite ack_loop_sweep in E1. apply sweep_logged in E1.
    assert (I1 : incl (c_packs c1) (c_packs c)) by (destruct E1 as [l L]; exact (proj2 (proj2 (proj2 (lg_all _ _ _ _ _ _ L))))).
    pose proof (recv_msgs_wr E2) as W2. pose proof (wr_keeps W_msgs c_packs (fun _ _ => eq_refl) W2) as P2.
    split; [|split; [rewrite P2; exact I1|exact O]].
    change (o1 ++ o2 ++ _) with ([] ++ o1 ++ o2 ++ (if raised o2 then [] else [ORet true])).
    apply (logged_trans F Ftrans _ c ca); [apply quiet_logged; [reflexivity|intros id b []]|].
    apply (logged_trans F Ftrans _ ca c1).
    - revert E1. apply logged_impl; [intros a b (_ & H & _); exact H|]. cbn [c_packs set] in *.
      (* the sweep keeps the time-out and the liveness clock, which accepting the datagram has set to now *)
      intros r (Wr & _ & Pr & _) [Hin Hv]. unfold recv_why, ack_verdict in *.
      pose proof (wr_keeps W_resolve (fun a => (c_out_timeout a, c_last_recv a)) (fun _ _ => eq_refl) Wr) as K. injection K as Or Lr.
      destruct (hdr_acks _ _ (r_s r)) eqn:Eh; [injection Hv as <-; unfold acked_at, passes_gate; eauto 10|].
      destruct (_ >? _) eqn:Eo; [injection Hv as <-|discriminate]. rewrite Or, Lr in Eo. cbn in Eo. split; [exact Hin|lia].
    - apply quiet_logged.
      + exact (wr_keeps W_msgs cbf (fun _ _ => eq_refl) W2).
      + intros id b H. apply in_app_or in H as [H|H]; [exact (recv_msgs_no_cb _ _ _ _ _ _ _ _ E2 H)|].
        destruct (raised o2); [destruct H|destruct H as [H|[]]; discriminate].
  Qed.

  Lemma tick_tail_logged strict e c now c' o2 o3 : tick_tail strict e c now = (c', o2, o3) ->
    logged F (due_why c now) c c' (if strict then o3 ++ o2 else o2 ++ o3).
  Proof.
    intros E. apply tick_tail_cases in E as (c1 & pk & E1 & E2 & ->).
    apply logged_out with (o := match pk with Some p => emit c1 p | None => [] end ++ o3);
      [destruct strict; [intros x Hx; apply in_app_or in Hx; apply in_or_app; tauto|apply incl_refl]|].
    pose proof (build_packet_wr E1) as W1. pose proof (wr_keeps W_build c_out_timeout (fun _ _ => eq_refl) W1) as O1.
    apply (logged_trans F Ftrans _ c c1).
    - apply quiet_logged; [exact (wr_keeps W_build cbf (fun _ _ => eq_refl) W1)|].
      intros id b H. destruct pk; [exact (emit_no_cb _ _ _ _ H)|destruct H].
    - unfold check_timeout in E2. rewrite timeout_loop_sweep in E2. apply sweep_logged in E2. revert E2.
      apply logged_impl; [intros a b (_ & H & _); exact H|].
      intros r (Wr & _) [Hin Hv]. unfold due_why, timeout_verdict, overdue in *.
      rewrite (wr_keeps W_resolve c_out_timeout (fun _ _ => eq_refl) Wr), O1 in Hv.
      destruct (if strict then _ else _) eqn:Ed; [injection Hv as <-|discriminate].
      split; [reflexivity|]. split; [|destruct strict; lia].
      (* the snapshot is pending_acks after assembly: what was pending, and the datagram just assembled *)
      apply build_packet_hdr in E1. destruct pk as [[h ms]|]; [destruct E1 as (_ & P1 & _)|destruct E1 as (_ & P1 & _)]; rewrite P1 in Hin; [|left; exact Hin].
      apply dset_In in Hin as [Hin|Hin]; [right; congruence|left; exact Hin].
  Qed.

  (* the part of a tick before its datagram: the client's timers, a header that does not parse *)
  Lemma cacts_logged e x J c c0 o0 : sweeps x = true -> star (catom e x) c c0 o0 ->
    logged F J c c0 o0 /\ c_packs c0 = c_packs c /\ c_out_timeout c0 = c_out_timeout c.
  Proof.
    intros Hx. apply (star_rel (catom e x) (fun a b o => logged F J a b o /\ c_packs b = c_packs a /\ c_out_timeout b = c_out_timeout a)).
    - intros a. split; [apply logged_refl, Frefl|auto].
    - intros a b d oa ob (L1 & P1 & O1) (L2 & P2 & O2). split; [exact (logged_trans F Ftrans J _ _ _ _ _ L1 L2)|split; congruence].
    - intros a a' oa [p r k c1 o1 Ex E|k Ex|w v Ex|now hello Ex|Ex|b Ex|now r c1 o1 Ex E|now er Ex]; try (subst x; discriminate Hx).
      + pose proof (client_update_wr E) as W. split.
        * apply quiet_logged; [exact (wr_keeps W_update cbf (fun _ _ => eq_refl) W)|intros id b; eapply client_update_no_cb; exact E].
        * pose proof (wr_keeps W_update (fun a => (c_packs a, c_out_timeout a)) (fun _ _ => eq_refl) W) as K. injection K. auto.
      + split; [apply quiet_logged; [reflexivity|intros id b [H|[]]; discriminate]|auto].
  Qed.

  Theorem step_log e c x c' o : step e c x = (c', o) ->
    if sweeps x then logged F (why c x) c c' o
    else (forall id b, ~ In (OCallback id b) o) /\ c_timeouts c' = c_timeouts c /\ c_acked c' = c_acked c.
  Proof.
    intros E. destruct (sweeps x) eqn:Hx.
    - apply step_shape in E as (c0 & c1 & o0 & o1 & ot & H0 & H1 & Ht & ->).
      apply (cacts_logged e x (why c x)) in H0 as (L0 & P0 & O0); [|exact Hx].
      assert (L1 : logged F (why c x) c0 c1 o1 /\ incl (c_packs c1) (c_packs c) /\ c_out_timeout c1 = c_out_timeout c).
      { destruct H1 as [_|now d orcs c1 o1 o1' Hp Hf Er]; [rewrite P0, O0; auto using logged_refl, Frefl, incl_refl|].
        apply recv_logged in Er as (L & I & O). rewrite <- P0, <- O0. split; [|auto].
        assert (Ho : incl o1' o1) by (destruct Hf as [(_ & _ & ->)|(_ & _ & ->)]; [apply incl_refl|intros y Hy; apply filter_In in Hy as [Hy _]; exact Hy]).
        apply (logged_out F _ _ _ _ _ Ho). revert L. apply logged_impl; [auto|]. intros r _.
        assert (Hn : ev_now x = now) by (destruct Hf as [(-> & _)|(-> & _)]; reflexivity). rewrite <- Hn.
        apply why_recv; [|exact P0|exact O0]. split; [exact Hp|]. exists now, orcs. destruct Hf as [(A & B & _)|(A & B & _)]; auto. }
      destruct L1 as (L1 & I1 & O1). pose proof (logged_trans F Ftrans _ _ _ _ _ _ L0 L1) as L01.
      destruct Ht as [_|strict c2 o2 o3 _ T]; [rewrite app_nil_r; exact L01|]. rewrite app_assoc. apply (logged_trans F Ftrans _ _ _ _ _ _ L01).
      apply tick_tail_logged in T. revert T. apply logged_impl; [auto|]. intros r _ (B & A & D). apply why_due.
      (* NonceP.ev_now, in which the C07 statements are written, is ConnFrameP.ev_clock *)
      change (ev_now x) with (ev_clock x). unfold due_why. rewrite <- O1. split; [exact B|]. split; [destruct A as [A|A]; auto|exact D].
    - destruct x; try discriminate Hx; cbn [step] in E; try (injection E as <- <-; split; [intros ? ? []|split; reflexivity]).
      + split; [intros id b; eapply send_no_cb; exact E|].
        pose proof (wr_keeps W_send (fun a => (c_timeouts a, c_acked a)) (fun _ _ => eq_refl) (send_wr E)) as K. injection K as T A. auto.
      + injection E as <- <-. split; [intros id b []|].
        pose proof (wr_keeps W_disc (fun a => (c_timeouts a, c_acked a)) (fun _ _ => eq_refl) (disconnect_wr c k)) as K. injection K as T A. auto.
      + injection E as <- <-. split; [intros id b []|].
        pose proof (wr_keeps W_cfg (fun a => (c_timeouts a, c_acked a)) (fun _ _ => eq_refl) (setcfg_wr e c which v)) as K. injection K as T A. auto.
  Qed.
End StepLog.

(* what is known of a later state of the same step: the fragment contexts stay incomplete, and a failed
   flag is an old one unless a datagram has timed out since *)
Definition since (a b : conn) : Prop := (Inc a -> Inc b) /\ no_new_false a b.
Lemma since_refl c : since c c. Proof. split; [auto|apply no_new_false_refl]. Qed.
Lemma since_trans a b c : since a b -> since b c -> since a c.
Proof. intros [I1 Q1] [I2 Q2]. split; [auto|eapply no_new_false_trans; eassumption]. Qed.
Lemma since_quiet a b : cbf b = cbf a -> since a b.
Proof. intros E. injection E as P _ T _. split; [unfold Inc; rewrite P; auto|apply no_new_false_same; assumption]. Qed.
Lemma resolve_since ok c s c' o : resolve ok c s = (c', o) -> since c c'.
Proof. intros E. split; [intros I; eapply resolve_Inc; eassumption|apply (resolve_fails _ _ _ _ _ E)]. Qed.

Definition step_log_since := step_log since since_refl since_trans since_quiet resolve_since.

Lemma ack_loop_mono h snap : forall c c' o, ack_loop c h snap = (c', o) -> c_timeouts c <= c_timeouts c'.
Proof.
  intros c c' o. rewrite ack_loop_sweep. intros E. apply (sweep_logged since since_refl since_trans resolve_since) in E as [l L].
  destruct (lg_all _ _ _ _ _ _ L) as (_ & (_ & T & _) & _). exact T.
Qed.

(* Which callback object reports a success: one registered in pending_callbacks for a pending datagram that the
   header names.  P is anything fire_cb guarantees of a callback object it reports for; it may read the state the
   callback fires in, provided it can be carried back to the state the sweep, the receive or the step began in. *)
Section Success.
  Variable P : conn -> cb -> Z -> Prop.
  Definition back (c c' : conn) : Prop := forall k id, P c' k id -> P c k id.
  Hypothesis P_fire : forall c k ok c' o, fire_cb c k ok = (c', o) ->
    back c c' /\ forall id b, In (OCallback id b) o -> P c k id.
  Hypothesis P_pfrags : forall c c', c_pfrags c' = c_pfrags c -> back c c'.

  Lemma back_refl c : back c c. Proof. intros k id H. exact H. Qed.
  Lemma back_trans a b c : back a b -> back b c -> back a c.
  Proof. intros H1 H2 k id H. apply H1, H2, H. Qed.

  Lemma fire_all_P ks : forall c ok c' o, fire_all c ks ok = (c', o) ->
    back c c' /\ forall id b, In (OCallback id b) o -> exists k, In k ks /\ P c k id.
  Proof.
    induction ks as [|k ks IH]; intros c ok c' o E; cbn [fire_all] in E; [injection E as <- <-; split; [apply back_refl|intros id b []]|].
    destruct (fire_cb c k ok) as [c1 o1] eqn:E1. destruct (fire_all c1 ks ok) as [c2 o2] eqn:E2. injection E as <- <-.
    destruct (P_fire _ _ _ _ _ E1) as [B1 H1]. destruct (IH _ _ _ _ E2) as [B2 H2]. split; [eapply back_trans; eassumption|].
    intros id b H. apply in_app_or in H as [H|H]; [exists k; split; [left; reflexivity|exact (H1 id b H)]|].
    destruct (H2 id b H) as (k' & Hk & Hp). exists k'. split; [right; exact Hk|apply B1, Hp].
  Qed.

  Lemma resolve_P ok c s c' o : resolve ok c s = (c', o) ->
    back c c' /\ forall id b, In (OCallback id b) o -> exists ks k, dget s (c_pcbs c) = Some ks /\ In k ks /\ P c k id.
  Proof.
    rewrite resolve_eq.
    assert (B0 : back c (count_outcome ok c)) by (apply P_pfrags; destruct ok; reflexivity).
    assert (Bf : forall a, back a (forget s a)) by (intros a; exact (P_pfrags _ _ (wr_keeps W_forget c_pfrags (fun _ _ => eq_refl) (forget_wr s a)))).
    destruct (dget s (c_pcbs c)) as [ks|].
    - destruct (fire_all _ ks ok) as [c1 o1] eqn:E1. intros E; injection E as <- <-.
      destruct (fire_all_P _ _ _ _ _ E1) as [B H].
      split; [eapply back_trans; [exact B0|]; eapply back_trans; [exact B|]; eapply back_trans; [|apply Bf]; apply P_pfrags; reflexivity|].
      intros id b Hin. destruct (H id b Hin) as (k & Hk & Hp). exists ks, k. split; [reflexivity|]. split; [exact Hk|apply B0, Hp].
    - intros E; injection E as <- <-. split; [eapply back_trans; [exact B0|apply Bf]|intros id b []].
  Qed.

  Definition acked_by (h : header) (snap : list (Z * Z)) (c : conn) (id : Z) : Prop :=
    exists s t ks k, In (s, t) snap /\ hdr_acks (h_ack h) (h_ackbits h) s = true /\
      dget s (c_pcbs c) = Some ks /\ In k ks /\ P c k id.

  Definition psince (a b : conn) : Prop := since a b /\ back a b.
  Lemma psince_refl c : psince c c. Proof. split; [apply since_refl|apply back_refl]. Qed.
  Lemma psince_trans a b c : psince a b -> psince b c -> psince a c.
  Proof. intros [S1 B1] [S2 B2]. split; [eapply since_trans|eapply back_trans]; eassumption. Qed.
  Lemma psince_quiet a b : cbf b = cbf a -> psince a b.
  Proof. intros E. split; [apply since_quiet, E|]. injection E as E _ _ _. apply P_pfrags, E. Qed.
  Lemma resolve_psince ok c s c' o : resolve ok c s = (c', o) -> psince c c'.
  Proof. intros E. split; [eapply resolve_since, E|apply (resolve_P _ _ _ _ _ E)]. Qed.

  Lemma entry_true c r id : is_res r -> psince c (r_c r) -> Inc c -> In (OCallback id true) (r_o r) ->
    r_ok r = true /\ exists ks k, dget (r_s r) (c_pcbs (r_c r)) = Some ks /\ In k ks /\ P c k id.
  Proof.
    unfold is_res. intros R [[Ir _] B] I H. specialize (Ir I).
    destruct (r_ok r); [|exfalso; apply (resolve_false_true _ _ _ _ Ir R); exists id; exact H].
    destruct (proj2 (resolve_P _ _ _ _ _ R) id true H) as (ks & k & A1 & A2 & A3). eauto 7.
  Qed.

  Lemma ack_loop_P h snap c c' o id : Inc c -> ack_loop c h snap = (c', o) -> In (OCallback id true) o -> acked_by h snap c id.
  Proof.
    rewrite ack_loop_sweep. intros I E H. apply (sweep_logged psince psince_refl psince_trans resolve_psince) in E as [l L].
    destruct (lg_cbs _ _ _ _ _ _ L _ _ H) as (r & Hr & Ho). destruct (log_entry _ _ _ _ _ _ _ L Hr) as (R & [Hin Hv] & (_ & B & Sub & _) & _).
    destruct (entry_true c r id R B I Ho) as (Eb & ks & k & A1 & A2 & A3). rewrite Eb in Hv. unfold ack_verdict in Hv.
    exists (r_s r), (r_t r), ks, k. destruct (hdr_acks _ _ (r_s r)); [auto 6|destruct (_ >? _); discriminate].
  Qed.

  Lemma recv_P c now d orcs c' o id : Inc c -> recv c now d orcs = (c', o) -> In (OCallback id true) o ->
    passes_gate c d /\ acked_by (d_hdr d) (c_packs c) c id.
  Proof.
    intros I E H. apply (recv_logged psince psince_refl psince_trans psince_quiet resolve_psince) in E as [[l L] _].
    destruct (lg_cbs _ _ _ _ _ _ L _ _ H) as (r & Hr & Ho). destruct (log_entry _ _ _ _ _ _ _ L Hr) as (R & W & B & _).
    destruct (entry_true c r id R B I Ho) as (Eb & ks & k & A1 & A2 & A3). unfold recv_why in W. rewrite Eb in W.
    destruct W as (G & Hin & Ha & Sub). split; [exact G|]. exists (r_s r), (r_t r), ks, k. auto 6.
  Qed.

  Lemma step_true_P e c x c' o id : Inc c -> step e c x = (c', o) -> In (OCallback id true) o ->
    exists now d orcs c0, pre_recv c x = Some (c0, d) /\
      (x = ERecv now d orcs /\ c0 = c \/ x = EClientTick now (RxDgram d orcs) /\ c0 = fst (client_update c now)) /\
      passes_gate c0 d /\
      exists s t ks k, In (s, t) (c_packs c0) /\ hdr_acks (h_ack (d_hdr d)) (h_ackbits (d_hdr d)) s = true /\
        dget s (c_pcbs c0) = Some ks /\ In k ks /\ P c k id.
  Proof.
    intros I E H. apply (step_log psince psince_refl psince_trans psince_quiet resolve_psince) in E.
    destruct (sweeps x); [destruct E as [l L]|destruct (proj1 E _ _ H)].
    destruct (lg_cbs _ _ _ _ _ _ L _ _ H) as (r & Hr & Ho). destruct (log_entry _ _ _ _ _ _ _ L Hr) as (R & W & B & _).
    destruct (entry_true c r id R B I Ho) as (Eb & ks & k & A1 & A2 & A3). unfold why in W. rewrite Eb in W.
    destruct W as (c0 & d & (Hp & now & orcs & Hx) & G & Hin & Ha & Sub).
    exists now, d, orcs, c0. do 3 (split; [assumption|]). exists (r_s r), (r_t r), ks, k. do 4 (split; [auto|]). exact A3.
  Qed.
End Success.

Lemma blind_fire (P : cb -> Z -> Prop) :
  (forall c k ok c' o id b, fire_cb c k ok = (c', o) -> In (OCallback id b) o -> P k id) ->
  forall c k ok c' o, fire_cb c k ok = (c', o) ->
    back (fun _ => P) c c' /\ forall id b, In (OCallback id b) o -> P k id.
Proof. intros H c k ok c' o E. split; [intros k' id Hp; exact Hp|intros id b; exact (H _ _ _ _ _ id b E)]. Qed.

Theorem step_true e c x c' o : Inc c -> step e c x = (c', o) -> cb_true o ->
  exists now d orcs c0, (x = ERecv now d orcs /\ c0 = c \/
                         x = EClientTick now (RxDgram d orcs) /\ c0 = fst (client_update c now)) /\
    passes_gate c0 d /\
    exists s t, In (s, t) (c_packs c0) /\ hdr_acks (h_ack (d_hdr d)) (h_ackbits (d_hdr d)) s = true.
Proof.
  intros I E [id H].
  destruct (step_true_P (fun _ _ _ => True) (blind_fire _ (fun _ _ _ _ _ _ _ _ _ => Logic.I)) (fun _ _ _ _ _ H => H) _ _ _ _ _ _ I E H)
    as (now & d & orcs & c0 & _ & Hx & G & s & t & _ & _ & A & B & _).
  exists now, d, orcs, c0. eauto 6.
Qed.

(* every event: a reported failure means a datagram was declared timed out in this very step,
   or a fragment of that message had already been declared timed out *)
Theorem step_false e c x c' o : step e c x = (c', o) -> false_ok c c' o.
Proof.
  intros E id H. apply step_log_since in E. destruct (sweeps x); [destruct E as [l L]|destruct (proj1 E _ _ H)].
  destruct (lg_cbs _ _ _ _ _ _ L _ _ H) as (r & Hr & Ho). destruct (log_entry _ _ _ _ _ _ _ L Hr) as (R & _ & [_ [T0 Q0]] & [_ [T1 _]]).
  unfold is_res in R. pose proof (resolve_packs _ _ _ _ _ R) as (_ & _ & _ & T).
  destruct (r_ok r); [|left; lia].
  destruct (proj2 (resolve_fails _ _ _ _ _ R) id Ho) as [Hlt|(fid & fs & A & B & C)]; [lia|]. destruct Q0 as [Hlt|Hold]; [left; lia|right].
  destruct (Hold _ _ A C) as (fs0 & A0 & B0 & C0). exists fid, fs0. rewrite B0. auto.
Qed.

(* ... and a datagram is declared timed out only when it is at least message-time-out old *)
Theorem step_timeout_due e c x c' o : step e c x = (c', o) -> c_timeouts c < c_timeouts c' ->
  exists s t, (In (s, t) (c_packs c) \/ t = ev_now x) /\ c_out_timeout c <= ev_now x - t.
Proof.
  intros E Hlt. apply step_log_since in E. destruct (sweeps x); [destruct E as [l L]|lia].
  destruct (proj1 (nres_pos false l)) as (r & Hr & Hb); [rewrite (lg_to _ _ _ _ _ _ L) in Hlt; lia|].
  destruct (log_entry _ _ _ _ _ _ _ L Hr) as (_ & W & _). unfold why in W. rewrite Hb in W.
  destruct W as (_ & A & B). exists (r_s r), (r_t r). auto.
Qed.
