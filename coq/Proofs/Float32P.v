(* Float32P.v — struct.pack('>f') as modelled with Flocq always yields a 32-bit pattern. *)
From Coq Require Import ZArith Lia.
From Flocq Require Import Core.Zaux IEEE754.BinarySingleNaN IEEE754.Binary IEEE754.Bits.
From Model Require Import Base Ser Float32.
From Proofs Require Import BytesP.
Open Scope Z_scope.

Lemma bits32_range : forall x : binary32, 0 <= bits_of_b32 x < 2 ^ 32.
Proof.
  intro x. unfold bits_of_b32.
  pose proof (bits_of_binary_float_range 23 8 eq_refl eq_refl x) as H.
  change (2 ^ (23 + 8 + 1)) with (2 ^ 32) in H. exact H.
Qed.

Lemma flocq_to32_range : forall b w, flocq_to32 b = SOk w -> 0 <= w < 2 ^ 32.
Proof.
  intros b w H. unfold flocq_to32 in H.
  destruct (f_is_nan b).
  - pose proof (Z.mod_pos_bound (f_man b / 2 ^ 29) (2 ^ 22) eq_refl) as Hm.
    set (x := (f_man b / 2 ^ 29) mod 2 ^ 22) in *. clearbody x.
    change (2 ^ 22) with 4194304 in Hm. change (2 ^ 31) with 2147483648 in H.
    change (2 ^ 32) with 4294967296.
    destruct (f_neg b); apply SOk_inj in H; rewrite <- H; lia.
  - destruct (b64_of_bits (b mod 2 ^ 64)) as [s|s|s pl Hp|s m e Hb].
    + apply SOk_inj in H; rewrite <- H. apply bits32_range.
    + apply SOk_inj in H; rewrite <- H. apply bits32_range.
    + apply SOk_inj in H; rewrite <- H. apply bits32_range.
    + set (r := binary_normalize 24 128 eq_refl eq_refl mode_NE (cond_Zopp s (Z.pos m)) e s) in H.
      clearbody r. destruct r; try discriminate; apply SOk_inj in H; rewrite <- H; apply bits32_range.
Qed.

Theorem flocq_fc_range : forall b w, to32 flocq_fc b = SOk w -> 0 <= w < 2 ^ 32.
Proof. exact flocq_to32_range. Qed.
