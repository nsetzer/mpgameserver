(* No send callback is invoked twice (C07, the at-most-once half, per callback).

   Where user callbacks live: `Plain (IUser id)` in the m_cb of queued messages (c_outgoing) and in
   the callback lists of pending datagrams (c_pcbs) — moved, never copied, consumed when fired;
   `IUser id` as fs_ucb of a fragment-sender context (c_pfrags) — consumed when the context is
   deleted; `Retry rid .. (IUser id)` (a RetrySender) in c_outgoing / c_pretry_msg / c_pcbs — copied
   freely, but guarded by the done flag of rid (c_done).  The invariant Inv below is stated over a
   view (the five components that matter) and a list X of callbacks "in hand" (the pending
   callbacks, or what is left of the list being run by fire_all). *)
From Coq Require Import Lia.
From RecordUpdate Require Import RecordUpdate.
From Model Require Import Base SeqNum Wire Conn.
From Proofs Require Import DictP ConnFrameP PackP.
Import RecordSetNotations.
Open Scope Z_scope.

Lemma icb_cases i : (exists id, i = IUser id) \/ forall id, i <> IUser id.
Proof. destruct i; try (right; intros; discriminate). left. eauto. Qed.

Definition cnt (l : list Z) (x : Z) : nat := count_occ Z.eq_dec l x.
Definition msub (l l' : list Z) : Prop := forall x, (cnt l x <= cnt l' x)%nat.

Lemma cnt_app a b x : cnt (a ++ b) x = (cnt a x + cnt b x)%nat.
Proof. apply count_occ_app. Qed.
Lemma cnt_nil x : cnt [] x = 0%nat. Proof. reflexivity. Qed.

(* inclusions between concatenations: every inclusion at hand is taken at one element, then counted *)
Ltac subs :=
  unfold msub in *; let x := fresh "x" in intros x;
  repeat match goal with H : forall y : Z, (_ <= _)%nat |- _ => specialize (H x) end;
  repeat rewrite ?cnt_app, ?cnt_nil in *; lia.

Lemma sub_refl l : msub l l. Proof. subs. Qed.
Lemma sub_trans a b c : msub a b -> msub b c -> msub a c. Proof. intros H1 H2. subs. Qed.
Lemma sub_NoDup l l' : msub l l' -> NoDup l' -> NoDup l.
Proof.
  intros H N. apply (NoDup_count_occ Z.eq_dec). intros x.
  rewrite (NoDup_count_occ Z.eq_dec) in N. specialize (H x). specialize (N x). unfold cnt in H. lia.
Qed.
Lemma sub_In l l' x : msub l l' -> In x l -> In x l'.
Proof.
  intros H Hin. apply (count_occ_In Z.eq_dec). apply (count_occ_In Z.eq_dec) in Hin.
  specialize (H x). unfold cnt in H. lia.
Qed.
Lemma cnt_In l x : In x l <-> (0 < cnt l x)%nat.
Proof. unfold cnt. rewrite (count_occ_In Z.eq_dec). lia. Qed.
Lemma NoDup_cnt l : NoDup l <-> forall x, (cnt l x <= 1)%nat.
Proof. apply NoDup_count_occ. Qed.

Lemma NoDup_app_iff (a b : list Z) : NoDup (a ++ b) <-> NoDup a /\ NoDup b /\ (forall x, In x a -> In x b -> False).
Proof.
  rewrite !NoDup_cnt. split.
  - intros H. split; [|split].
    + intros x. specialize (H x). rewrite cnt_app in H. lia.
    + intros x. specialize (H x). rewrite cnt_app in H. lia.
    + intros x Ha Hb. apply cnt_In in Ha, Hb. specialize (H x). rewrite cnt_app in H. lia.
  - intros (Ha & Hb & Hd) x. rewrite cnt_app. specialize (Ha x). specialize (Hb x). specialize (Hd x).
    rewrite !cnt_In in Hd. lia.
Qed.

(* What a stored callback object mentions.  uid / pid: the user callback id it would report directly (a plain
   IUser; a RetrySender counts for nothing here); rp: (RetrySender number, user id) of a RetrySender; pids, rps over a
   list; mcbs: the callback objects of a list of queued messages; fids: the user ids held by fragment-sender contexts;
   mok m: a message that will be re-sent (m_retry <> RNone) carries no plain user callback — a copy of it stays in
   the re-send store. *)
Definition olist {A} (o : option A) : list A := match o with Some x => [x] | None => [] end.
Definition uid (i : icb) : list Z := match i with IUser id => [id] | _ => [] end.
Definition pid (k : cb) : list Z := match k with Plain i => uid i | Retry _ _ _ _ _ => [] end.
Definition rp (k : cb) : list (Z * Z) :=
  match k with Retry rid _ _ _ (IUser id) => [(rid, id)] | _ => [] end.
Definition pids (l : list cb) : list Z := flat_map pid l.
Definition rps (l : list cb) : list (Z * Z) := flat_map rp l.
Definition mcbs (q : list pmsg) : list cb := flat_map (fun m => olist (m_cb m)) q.
Definition fids (pf : list (Z * fsender)) : list Z := flat_map (fun p => uid (fs_ucb (snd p))) pf.
Definition mok (m : pmsg) : Prop := m_retry m <> RNone -> pids (olist (m_cb m)) = [].

Lemma uid_nil i : (forall id, i <> IUser id) -> uid i = [].
Proof. destruct i; intros H; try reflexivity. exfalso. exact (H id eq_refl). Qed.
Lemma pids_app a b : pids (a ++ b) = pids a ++ pids b. Proof. apply flat_map_app. Qed.
Lemma rps_app a b : rps (a ++ b) = rps a ++ rps b. Proof. apply flat_map_app. Qed.
Lemma mcbs_app a b : mcbs (a ++ b) = mcbs a ++ mcbs b. Proof. apply flat_map_app. Qed.
Lemma mcbs_cons m q : mcbs (m :: q) = olist (m_cb m) ++ mcbs q. Proof. reflexivity. Qed.
Lemma mcbs_snoc q m : mcbs (q ++ [m]) = mcbs q ++ olist (m_cb m).
Proof. rewrite mcbs_app. cbn. rewrite app_nil_r. reflexivity. Qed.
Lemma mcbs_opt q : opt_list (map m_cb q) = mcbs q.
Proof. induction q as [|m q IH]; [reflexivity|]. cbn. destruct (m_cb m); cbn; rewrite IH; reflexivity. Qed.
Lemma mok_nil q : pids (mcbs q) = [] -> Forall mok q.
Proof.
  induction q as [|m q IH]; [constructor|]. rewrite mcbs_cons, pids_app. intros H. apply app_eq_nil in H as [H1 H2].
  constructor; [intros _; exact H1|exact (IH H2)].
Qed.
Lemma rps_incl a b : incl a b -> incl (rps a) (rps b).
Proof.
  intros H x Hx. apply in_flat_map in Hx as (k & Hk & Hx). apply in_flat_map. exists k. split; [apply H; exact Hk|exact Hx].
Qed.
Lemma rps_In rid id l : In (rid, id) (rps l) <-> exists mseq ty p, In (Retry rid mseq ty p (IUser id)) l.
Proof.
  unfold rps. rewrite in_flat_map. split.
  - intros (k & Hk & Hx). destruct k as [i|r m t p i]; [destruct Hx|]. destruct i; cbn in Hx; try contradiction.
    destruct Hx as [Hx|[]]. injection Hx as <- <-. eauto.
  - intros (m & t & p & H). eexists. split; [exact H|]. left. reflexivity.
Qed.
Lemma pids_nil_iff l : pids l = [] <-> forall k, In k l -> pid k = [].
Proof.
  split.
  - intros H k Hk. destruct (pid k) as [|x r] eqn:E; [reflexivity|]. exfalso.
    assert (Hx : In x (pids l)) by (apply in_flat_map; exists k; split; [exact Hk|rewrite E; left; reflexivity]).
    rewrite H in Hx. destruct Hx.
  - intros H. induction l as [|k l IH]; [reflexivity|]. change (pids (k :: l)) with (pid k ++ pids l).
    rewrite (H k (or_introl eq_refl)), IH; [reflexivity|]. intros k' Hk'. apply H. right. exact Hk'.
Qed.
Lemma pids_nil_incl a b : incl a b -> pids b = [] -> pids a = [].
Proof. rewrite !pids_nil_iff. auto. Qed.
Lemma mcbs_In k q : In k (mcbs q) <-> exists m, In m q /\ m_cb m = Some k.
Proof.
  unfold mcbs. rewrite in_flat_map. split.
  - intros (m & Hm & Hk). exists m. split; [exact Hm|]. destruct (m_cb m); [destruct Hk as [->|[]]; reflexivity|destruct Hk].
  - intros (m & Hm & Hk). exists m. split; [exact Hm|]. rewrite Hk. left. reflexivity.
Qed.
Lemma mcbs_incl a b : incl a b -> incl (mcbs a) (mcbs b).
Proof. intros H k Hk. apply mcbs_In in Hk as (m & Hm & Hk). apply mcbs_In. exists m. split; [apply H; exact Hm|exact Hk]. Qed.

Section DV.
  Context {A : Type} (f : A -> list Z).
  Definition dv (d : list (Z * A)) : list Z := flat_map (fun p => f (snd p)) d.

  Lemma dv_cons k v d : dv ((k, v) :: d) = f v ++ dv d. Proof. reflexivity. Qed.

  Lemma dv_ddel k d : msub (dv (ddel k d)) (dv d).
  Proof.
    induction d as [|[k' v] d IH]; [apply sub_refl|]. unfold ddel in *. cbn [filter fst].
    destruct (negb (k' =? k)); rewrite ?dv_cons; subs.
  Qed.
  Lemma dv_get_del k d v : dget k d = Some v -> msub (f v ++ dv (ddel k d)) (dv d).
  Proof.
    induction d as [|[k' v'] d IH]; [discriminate|]. cbn [dget]. unfold ddel in *. cbn [filter fst].
    destruct (k =? k') eqn:E.
    - intros H. injection H as ->. assert (k' =? k = true) as -> by lia. cbn [negb]. rewrite dv_cons.
      pose proof (dv_ddel k d) as H. unfold ddel in H. subs.
    - intros H. specialize (IH H). assert (k' =? k = false) as -> by lia. cbn [negb]. rewrite !dv_cons. subs.
  Qed.
  Lemma dv_dset k v d : msub (dv (dset k v d)) (f v ++ dv d).
  Proof.
    induction d as [|[k' v'] d IH]; cbn [dset]; [rewrite dv_cons; subs|].
    destruct (k =? k'); rewrite !dv_cons; subs.
  Qed.
  Lemma dv_dset_same k v v' d : dget k d = Some v -> f v' = f v -> dv (dset k v' d) = dv d.
  Proof.
    induction d as [|[k' v0] d IH]; [discriminate|]. cbn [dget dset]. destruct (k =? k').
    - intros H Hf. injection H as ->. rewrite !dv_cons, Hf. reflexivity.
    - intros H Hf. rewrite !dv_cons, (IH H Hf). reflexivity.
  Qed.
End DV.

Lemma fids_dv pf : fids pf = dv (fun fs => uid (fs_ucb fs)) pf. Proof. reflexivity. Qed.

Definition pend (c : conn) : list cb := flat_map snd (c_pcbs c).
Lemma pids_vals (d : list (Z * list cb)) : pids (flat_map snd d) = dv pids d.
Proof. induction d as [|[k v] d IH]; [reflexivity|]. cbn. rewrite pids_app, IH. reflexivity. Qed.
Lemma vals_ddel_In {A} k (d : list (Z * list A)) x : In x (flat_map snd (ddel k d)) -> In x (flat_map snd d).
Proof.
  intros H. apply in_flat_map in H as (p & Hp & Hx). apply in_flat_map. exists p. split; [|exact Hx].
  apply ddel_In in Hp as [Hp _]. exact Hp.
Qed.
Lemma vals_dset_In {A} k v (d : list (Z * list A)) x : In x (flat_map snd (dset k v d)) -> In x v \/ In x (flat_map snd d).
Proof.
  intros H. apply in_flat_map in H as (p & Hp & Hx). apply dset_In in Hp as [->|Hp]; [left; exact Hx|].
  right. apply in_flat_map. exists p. split; assumption.
Qed.
Lemma vals_dget_In {A} k (d : list (Z * list A)) v x : dget k d = Some v -> In x v -> In x (flat_map snd d).
Proof. intros H Hx. apply in_flat_map. exists (k, v). split; [exact (dget_In _ _ _ H)|exact Hx]. Qed.

Record view := { v_out : list pmsg; v_prm : list (Z * pmsg); v_pf : list (Z * fsender);
                 v_done : list Z; v_rid : Z }.
Definition vw (c : conn) : view :=
  {| v_out := c_outgoing c; v_prm := c_pretry_msg c; v_pf := c_pfrags c; v_done := c_done c; v_rid := c_next_rid c |}.

Definition plain (X : list cb) (v : view) : list Z := pids X ++ pids (mcbs (v_out v)) ++ fids (v_pf v).
Definition allcb (X : list cb) (v : view) : list cb := X ++ mcbs (v_out v) ++ mcbs (map snd (v_prm v)).

(* X: the callbacks in hand; v: the view.  i_nodup: a plain user id is held in one place (in hand, queued, or a fragment
   context); i_prm: the re-send store holds no plain user id; i_out: mok of every queued message; i_rid: a RetrySender's
   number is below the counter and the id it wraps is held plainly nowhere; i_uniq: a RetrySender's number and the
   callback it wraps determine each other (repetitions are copies) *)
Record Inv (X : list cb) (v : view) : Prop := {
  i_nodup : NoDup (plain X v);
  i_prm : pids (mcbs (map snd (v_prm v))) = [];
  i_out : Forall mok (v_out v);
  i_rid : forall rid id, In (rid, id) (rps (allcb X v)) -> rid < v_rid v /\ ~ In id (plain X v);
  i_uniq : forall rid id rid' id', In (rid, id) (rps (allcb X v)) -> In (rid', id') (rps (allcb X v)) ->
                                   (rid = rid' <-> id = id') }.

(* an id that some stored callback mentions / that can still be reported *)
Definition Known (X : list cb) (v : view) (id : Z) : Prop :=
  In id (plain X v) \/ exists rid, In (rid, id) (rps (allcb X v)).
Definition Live (X : list cb) (v : view) (id : Z) : Prop :=
  In id (plain X v) \/ exists rid, In (rid, id) (rps (allcb X v)) /\ zmem rid (v_done v) = false.
Lemma Live_Known X v id : Live X v id -> Known X v id.
Proof. intros [H|(rid & H & _)]; [left; exact H|right; exists rid; exact H]. Qed.

Definition fired (o : list out) : list Z :=
  flat_map (fun x => match x with OCallback id _ => [id] | _ => [] end) o.
Lemma fired_app a b : fired (a ++ b) = fired a ++ fired b. Proof. apply flat_map_app. Qed.
Lemma fired_ret o b : fired (o ++ [ORet b]) = fired o.
Proof. rewrite fired_app. cbn. apply app_nil_r. Qed.
Lemma fired_none o : (forall id b, ~ In (OCallback id b) o) -> fired o = [].
Proof.
  induction o as [|x o IH]; intros H; [reflexivity|].
  change (fired (x :: o)) with (match x with OCallback id _ => [id] | _ => [] end ++ fired o).
  rewrite IH by (intros id b Hin; apply (H id b); right; exact Hin).
  destruct x; try reflexivity. exfalso. apply (H id ok). left. reflexivity.
Qed.
Lemma fired_In id o : In id (fired o) <-> exists b, In (OCallback id b) o.
Proof.
  unfold fired. rewrite in_flat_map. split.
  - intros (x & Hx & Hid). destruct x; cbn in Hid; try contradiction. destruct Hid as [<-|[]]. eauto.
  - intros (b & H). eexists. split; [exact H|]. left. reflexivity.
Qed.

(* What a part of a step does to the invariant, from (X, v) to (X', v') with outputs o; ids = callback ids handed over by
   the application in this part, new and pairwise distinct.  Then: Inv is kept; no id is reported twice; a reported id
   was Live before (held plainly, or wrapped by a RetrySender not yet done) or is handed over now; an id Live afterwards
   was Live before or is handed over now, and has NOT been reported; ids come to be Known only by being handed over.
   The third and fourth clauses are what composes (St_comp): what a later part reports was Live after the earlier one,
   which therefore has not reported it. *)
Definition St (ids : list Z) (X : list cb) (v : view) (X' : list cb) (v' : view) (o : list out) : Prop :=
  Inv X v -> NoDup ids -> (forall id, In id ids -> ~ Known X v id) ->
  Inv X' v' /\ NoDup (fired o) /\
  (forall id, In id (fired o) -> Live X v id \/ In id ids) /\
  (forall id, Live X' v' id -> (Live X v id \/ In id ids) /\ ~ In id (fired o)) /\
  (forall id, Known X' v' id -> Known X v id \/ In id ids).

Lemma St_comp i1 i2 X v X1 v1 X2 v2 o1 o2 :
  St i1 X v X1 v1 o1 -> St i2 X1 v1 X2 v2 o2 -> St (i1 ++ i2) X v X2 v2 (o1 ++ o2).
Proof.
  intros S1 S2 HI ND Fr. apply NoDup_app_iff in ND as (ND1 & ND2 & Hdisj).
  destruct S1 as (I1 & N1 & F1 & L1 & K1); [exact HI|exact ND1|intros id Hid; apply Fr, in_or_app; left; exact Hid|].
  destruct S2 as (I2 & N2 & F2 & L2 & K2); [exact I1|exact ND2| |].
  { intros id Hid HK. destruct (K1 id HK) as [H|H]; [|exact (Hdisj id H Hid)].
    apply (Fr id); [apply in_or_app; right; exact Hid|exact H]. }
  assert (Hf1 : forall id, In id (fired o1) -> In id i2 -> False).
  { intros id H1 H2. destruct (F1 id H1) as [H|H]; [|exact (Hdisj id H H2)].
    apply (Fr id); [apply in_or_app; right; exact H2|apply Live_Known; exact H]. }
  assert (Hw : forall (P : Prop) id, P \/ In id i1 -> P \/ In id (i1 ++ i2)).
  { intros P id [H|H]; [left; exact H|right; apply in_or_app; left; exact H]. }
  split; [exact I2|]. split; [|split; [|split]].
  - rewrite fired_app. apply NoDup_app_iff. split; [exact N1|]. split; [exact N2|].
    intros id H1 H2. destruct (F2 id H2) as [H|H]; [exact (proj2 (L1 id H) H1)|exact (Hf1 id H1 H)].
  - intros id Hid. rewrite fired_app in Hid. apply in_app_or in Hid as [H|H]; [exact (Hw _ id (F1 id H))|].
    destruct (F2 id H) as [H'|H']; [exact (Hw _ id (proj1 (L1 id H')))|right; apply in_or_app; right; exact H'].
  - intros id HL. destruct (L2 id HL) as [H Hn2]. rewrite fired_app. split.
    + destruct H as [H|H]; [exact (Hw _ id (proj1 (L1 id H)))|right; apply in_or_app; right; exact H].
    + intros Hin. apply in_app_or in Hin as [Hin|Hin]; [|exact (Hn2 Hin)].
      destruct H as [H|H]; [exact (proj2 (L1 id H) Hin)|exact (Hf1 id Hin H)].
  - intros id HK. destruct (K2 id HK) as [H|H]; [exact (Hw _ id (K1 id H))|right; apply in_or_app; right; exact H].
Qed.

Lemma St_seq X v X1 v1 X2 v2 o1 o2 : St [] X v X1 v1 o1 -> St [] X1 v1 X2 v2 o2 -> St [] X v X2 v2 (o1 ++ o2).
Proof. intros A B. exact (St_comp [] [] _ _ _ _ _ _ _ _ A B). Qed.

Lemma St_out X v X' v' ids o o' : fired o' = fired o -> St ids X v X' v' o -> St ids X v X' v' o'.
Proof. unfold St. intros ->. auto. Qed.

Lemma St_weaken ids X v X' v' o : St [] X v X' v' o -> St ids X v X' v' o.
Proof.
  intros S HI _ _. destruct S as (I' & N & F & L & K); [exact HI|constructor|intros ? []|].
  split; [exact I'|]. split; [exact N|]. split; [|split].
  - intros id H. destruct (F id H) as [H'|[]]. left. exact H'.
  - intros id H. destruct (L id H) as [[H'|[]] H2]. split; [left; exact H'|exact H2].
  - intros id H. destruct (K id H) as [H'|[]]. left. exact H'.
Qed.

Lemma In_one {A} (l : list A) x y : (length l <= 1)%nat -> In x l -> In y l -> x = y.
Proof. destruct l as [|a [|b l]]; cbn; [intros _ []|intros _ [<-|[]] [<-|[]]; reflexivity|lia]. Qed.

(* the application hands over callbacks.  pl: ids that arrive in plain callbacks; rt: the id (at most one)
   that arrives wrapped in a RetrySender, which gets the next free number *)
Section Grow.
  Variables (pl rt : list Z) (X : list cb) (v : view) (X' : list cb) (v' : view).
  Hypothesis Gplain : msub (plain X' v') (plain X v ++ pl).
  Hypothesis Grps : forall rid id, In (rid, id) (rps (allcb X' v')) ->
    In (rid, id) (rps (allcb X v)) \/ rid = v_rid v /\ In id rt /\ v_rid v < v_rid v'.
  Hypothesis Gone : (length rt <= 1)%nat.
  Hypothesis Grid : v_rid v <= v_rid v'.

  Lemma Inv_grow : Inv X v -> NoDup (pl ++ rt) -> (forall id, In id (pl ++ rt) -> ~ Known X v id) ->
    pids (mcbs (map snd (v_prm v'))) = [] -> Forall mok (v_out v') -> Inv X' v'.
  Proof.
    intros [N P O R U] ND Fr S3 S4. apply NoDup_app_iff in ND as (NDp & _ & Hdj).
    assert (Hpl : forall id, In id (plain X' v') -> In id (plain X v) \/ In id pl).
    { intros id H. apply in_app_or. eapply sub_In; eassumption. }
    assert (Frp : forall id, In id pl -> ~ Known X v id) by (intros id H; apply Fr, in_or_app; left; exact H).
    assert (Frt : forall id, In id rt -> ~ Known X v id) by (intros id H; apply Fr, in_or_app; right; exact H).
    constructor; [|exact S3|exact S4| |].
    - eapply sub_NoDup; [exact Gplain|]. apply NoDup_app_iff. split; [exact N|]. split; [exact NDp|].
      intros x H1 H2. apply (Frp x H2). left. exact H1.
    - intros rid id H. destruct (Grps _ _ H) as [H'|(-> & H' & Hlt)].
      + destruct (R rid id H') as [A B]. split; [lia|]. intros Hin.
        destruct (Hpl id Hin) as [H''|H'']; [exact (B H'')|]. apply (Frp id H''). right. exists rid. exact H'.
      + split; [exact Hlt|]. intros Hin.
        destruct (Hpl id Hin) as [H''|H'']; [apply (Frt id H'); left; exact H''|exact (Hdj id H'' H')].
    - intros rid id rid' id' H H'. destruct (Grps _ _ H) as [A|(-> & A & _)], (Grps _ _ H') as [B|(-> & B & _)].
      + apply U; assumption.
      + destruct (R _ _ A) as [A1 _]. split; [lia|]. intros ->. exfalso. apply (Frt id' B). right. eauto.
      + destruct (R _ _ B) as [B1 _]. split; [lia|]. intros <-. exfalso. apply (Frt id A). right. eauto.
      + split; intros _; [exact (In_one _ _ _ Gone A B)|reflexivity].
  Qed.

  Lemma St_grow : (Inv X v -> pids (mcbs (map snd (v_prm v'))) = [] /\ Forall mok (v_out v')) ->
    (forall r, zmem r (v_done v) = true -> zmem r (v_done v') = true) -> St (pl ++ rt) X v X' v' [].
  Proof.
    intros S34 S6 HI ND Fr. destruct (S34 HI) as [S3 S4].
    assert (Hp : forall id, In id (plain X' v') -> In id (plain X v) \/ In id (pl ++ rt)).
    { intros id H. apply (sub_In _ _ _ Gplain), in_app_or in H as [H|H]; [left; exact H|].
      right. apply in_or_app. left. exact H. }
    assert (Hr : forall rid id, In (rid, id) (rps (allcb X' v')) -> In (rid, id) (rps (allcb X v)) \/ In id (pl ++ rt)).
    { intros rid id H. destruct (Grps _ _ H) as [H'|(_ & H' & _)]; [left; exact H'|].
      right. apply in_or_app. right. exact H'. }
    split; [exact (Inv_grow HI ND Fr S3 S4)|]. split; [constructor|]. split; [intros ? []|]. split.
    - intros id HL. split; [|intros []]. destruct HL as [H|(rid & H & Hd)].
      + destruct (Hp id H) as [H'|H']; [left; left; exact H'|right; exact H'].
      + destruct (Hr _ _ H) as [H'|H']; [|right; exact H']. left. right. exists rid. split; [exact H'|].
        destruct (zmem rid (v_done v)) eqn:E; [|reflexivity]. rewrite (S6 _ E) in Hd. discriminate.
    - intros id [H|(rid & H)].
      + destruct (Hp id H) as [H'|H']; [left; left; exact H'|right; exact H'].
      + destruct (Hr _ _ H) as [H'|H']; [left; right; exists rid; exact H'|right; exact H'].
  Qed.
End Grow.

(* a silent step: nothing added, nothing reported *)
Record Shrink (X : list cb) (v : view) (X' : list cb) (v' : view) : Prop := {
  sh_plain : msub (plain X' v') (plain X v);
  sh_all : incl (allcb X' v') (allcb X v);
  sh_prm : pids (mcbs (map snd (v_prm v'))) = [];
  sh_out : Forall mok (v_out v');
  sh_rid : v_rid v <= v_rid v';
  sh_done : forall r, zmem r (v_done v) = true -> zmem r (v_done v') = true }.

Lemma St_shrink X v X' v' o : fired o = [] -> (Inv X v -> Shrink X v X' v') -> St [] X v X' v' o.
Proof.
  intros Hf HS. apply (St_out _ _ _ _ _ []); [exact Hf|]. intros HI. destruct (HS HI) as [S1 S2 S3 S4 S5 S6].
  refine (St_grow [] [] X v X' v' _ _ _ S5 (fun _ => conj S3 S4) S6 HI).
  - rewrite app_nil_r. exact S1.
  - intros rid id H. left. exact (rps_incl _ _ S2 _ H).
  - cbn. lia.
Qed.

Lemma Inv_shrink X v X' v' : Inv X v -> Shrink X v X' v' ->
  Inv X' v' /\ (forall id, Live X' v' id -> Live X v id) /\ (forall id, Known X' v' id -> Known X v id).
Proof.
  intros HI HS. destruct (St_shrink X v X' v' [] eq_refl (fun _ => HS) HI (NoDup_nil _) (fun _ H => match H with end)) as (I' & _ & _ & L & K).
  split; [exact I'|]. split; intros id H; [destruct (proj1 (L id H)) as [H'|[]]|destruct (K id H) as [H'|[]]]; exact H'.
Qed.

Lemma St_silent X v o : fired o = [] -> St [] X v X v o.
Proof.
  intros Hf. apply St_shrink; [exact Hf|]. intros [N P O R U]. constructor; auto; try lia; [apply sub_refl|apply incl_refl].
Qed.

Lemma St_refl X v : St [] X v X v [].
Proof. apply St_silent. reflexivity. Qed.

Lemma St_fire X v X' v' id b :
  (Inv X v -> Shrink X v X' v' /\ Live X v id /\ ~ Live X' v' id) -> St [] X v X' v' [OCallback id b].
Proof.
  intros H HI _ _. destruct (H HI) as (HS & L0 & L1).
  destruct (Inv_shrink _ _ _ _ HI HS) as (I' & L & K).
  split; [exact I'|]. split; [repeat constructor; intros []|]. split; [|split].
  - intros id' [<-|[]]. left. exact L0.
  - intros id' H'. split; [left; apply L; exact H'|]. intros [<-|[]]. exact (L1 H').
  - intros id' H'. left. apply K. exact H'.
Qed.

Definition v_set_pf (v : view) pf : view :=
  {| v_out := v_out v; v_prm := v_prm v; v_pf := pf; v_done := v_done v; v_rid := v_rid v |}.
Definition v_set_done (v : view) dn : view :=
  {| v_out := v_out v; v_prm := v_prm v; v_pf := v_pf v; v_done := dn; v_rid := v_rid v |}.
Definition v_set_out (v : view) q : view :=
  {| v_out := q; v_prm := v_prm v; v_pf := v_pf v; v_done := v_done v; v_rid := v_rid v |}.

Lemma Shrink_drop k X v : Inv (k :: X) v -> Shrink (k :: X) v X v.
Proof.
  intros [N P O R U]. constructor; auto; try lia.
  - unfold plain. change (pids (k :: X)) with (pid k ++ pids X). subs.
  - unfold allcb. intros x Hx. right. exact Hx.
Qed.

Lemma St_drop k X v : St [] (k :: X) v X v [].
Proof. apply St_shrink; [reflexivity|apply Shrink_drop]. Qed.

Lemma zmem_cons r x l : zmem r (x :: l) = (r =? x) || zmem r l. Proof. exact (DictP.zmem_cons r x l). Qed.

Lemma Shrink_set_done k X v dn : (forall r, zmem r (v_done v) = true -> zmem r dn = true) ->
  Inv (k :: X) v -> Shrink (k :: X) v X (v_set_done v dn).
Proof.
  intros Hd HI. destruct (Shrink_drop _ _ _ HI) as [S1 S2 S3 S4 S5 S6]. constructor; auto.
Qed.

Lemma Shrink_done k X v rid : Inv (k :: X) v -> Shrink (k :: X) v X (v_set_done v (rid :: v_done v)).
Proof. apply Shrink_set_done. intros r Hr. rewrite zmem_cons, Hr. apply orb_true_r. Qed.

Lemma Shrink_pf X v pf' : msub (fids pf') (fids (v_pf v)) -> Inv X v -> Shrink X v X (v_set_pf v pf').
Proof.
  intros Hs [N P O R U]. constructor; cbn; auto; try lia; [|apply incl_refl].
  unfold plain. cbn [v_set_pf v_out v_pf]. subs.
Qed.

Lemma St_user X v id b : St [] (Plain (IUser id) :: X) v X v [OCallback id b].
Proof.
  apply St_fire. intros HI. split; [apply Shrink_drop; exact HI|]. split; [left; left; reflexivity|].
  destruct HI as [N P O R U]. intros [H|(rid & H & _)].
  - change (plain (Plain (IUser id) :: X) v) with (id :: plain X v) in N. inversion N; auto.
  - assert (H' : In (rid, id) (rps (allcb (Plain (IUser id) :: X) v))) by exact H.
    apply R in H' as [_ H']. apply H'. left. reflexivity.
Qed.

Lemma St_frag X v fid fs id b : dget fid (v_pf v) = Some fs -> fs_ucb fs = IUser id ->
  St [] X v X (v_set_pf v (ddel fid (v_pf v))) [OCallback id b].
Proof.
  intros Hg Hu. apply St_fire. intros [N P O R U].
  assert (Hf : msub ([id] ++ fids (ddel fid (v_pf v))) (fids (v_pf v))).
  { pose proof (dv_get_del (fun fs => uid (fs_ucb fs)) _ _ _ Hg) as Hf. cbn beta in Hf. rewrite Hu in Hf. exact Hf. }
  assert (Hs : msub ([id] ++ plain X (v_set_pf v (ddel fid (v_pf v)))) (plain X v))
    by (unfold plain; cbn [v_set_pf v_out v_pf]; subs).
  assert (Hin : In id (plain X v)) by (eapply sub_In; [exact Hs|left; reflexivity]).
  split; [|split].
  - apply Shrink_pf; [subs|constructor; assumption].
  - left. exact Hin.
  - intros [H|(rid & H & _)]; [|exact (proj2 (R rid id H) Hin)].
    pose proof (sub_NoDup _ _ Hs N) as N'. inversion N'; auto.
Qed.

Lemma St_retry X v rid mseq ty p id : zmem rid (v_done v) = false ->
  St [] (Retry rid mseq ty p (IUser id) :: X) v X (v_set_done v (rid :: v_done v)) [OCallback id true].
Proof.
  intros Hd. apply St_fire. intros HI. split; [apply Shrink_done; exact HI|]. destruct HI as [N P O R U].
  assert (Hh : In (rid, id) (rps (allcb (Retry rid mseq ty p (IUser id) :: X) v))) by (left; reflexivity).
  split.
  - right. exists rid. split; [exact Hh|exact Hd].
  - intros [H|(rid' & H & Hd')].
    + apply (proj2 (R _ _ Hh)). exact H.
    + assert (H' : In (rid', id) (rps (allcb (Retry rid mseq ty p (IUser id) :: X) v))) by (right; exact H).
      assert (rid' = rid) as -> by (apply (U rid' id rid id H' Hh); reflexivity).
      cbn [v_set_done v_done] in Hd'. rewrite zmem_cons, Z.eqb_refl in Hd'. discriminate.
Qed.

Lemma Shrink_requeue X v rid mseq ty p i m :
  m_cb m = Some (Retry rid mseq ty p i) ->
  Inv (Retry rid mseq ty p i :: X) v -> Shrink (Retry rid mseq ty p i :: X) v X (v_set_out v (v_out v ++ [m])).
Proof.
  intros Hm [N P O R U]. constructor; cbn [v_set_out v_out v_prm v_pf v_rid v_done]; auto; try lia.
  - unfold plain. cbn [v_set_out v_out v_pf]. rewrite mcbs_app, pids_app.
    assert (pids (mcbs [m]) = []) as -> by (cbn; rewrite Hm; reflexivity).
    change (pids (Retry rid mseq ty p i :: X)) with (pids X). subs.
  - unfold allcb. cbn [v_set_out v_out v_prm]. rewrite mcbs_app. cbn [mcbs flat_map]. rewrite Hm.
    intros x. rewrite !in_app_iff. cbn [In olist]. tauto.
  - apply Forall_app. split; [exact O|]. constructor; [|constructor]. intros _. rewrite Hm. reflexivity.
Qed.

Lemma Shrink_prm X v prm' : incl prm' (v_prm v) -> Inv X v ->
  Shrink X v X {| v_out := v_out v; v_prm := prm'; v_pf := v_pf v; v_done := v_done v; v_rid := v_rid v |}.
Proof.
  intros Hi [N P O R U].
  assert (Hm : incl (mcbs (map snd prm')) (mcbs (map snd (v_prm v)))) by (apply mcbs_incl, incl_map; exact Hi).
  constructor; cbn; auto; try lia; [apply sub_refl| |exact (pids_nil_incl _ _ Hm P)].
  unfold allcb. cbn. apply incl_app; [apply incl_appl, incl_refl|]. apply incl_appr.
  apply incl_app; [apply incl_appl, incl_refl|apply incl_appr; exact Hm].
Qed.

Lemma St_take s ks (d : list (Z * list cb)) v : dget s d = Some ks ->
  St [] (flat_map snd d) v (ks ++ flat_map snd (ddel s d)) v [].
Proof.
  intros Eg. apply St_shrink; [reflexivity|]. intros [N P O R U]. constructor; auto; try lia.
  - unfold plain. rewrite pids_app, !pids_vals. pose proof (dv_get_del pids _ _ _ Eg) as Hs. subs.
  - unfold allcb. apply incl_app; [|apply incl_appr, incl_refl]. apply incl_appl.
    intros x Hx. apply in_app_or in Hx as [Hx|Hx]; [exact (vals_dget_In _ _ _ _ Eg Hx)|exact (vals_ddel_In _ _ _ Hx)].
Qed.

Lemma fire_icb_St c i ok c' o X : fire_icb c i ok = (c', o) -> (forall id, i <> IUser id) ->
  St [] X (vw c) X (vw c') o.
Proof.
  unfold fire_icb. intros E Hi.
  destruct i as [|id|fid idx| | |]; try (injection E as <- <-; apply St_silent; try destruct ok; reflexivity).
  - exfalso. exact (Hi id eq_refl).
  - destruct (dget fid (c_pfrags c)) as [fs|] eqn:Eg; [|injection E as <- <-; apply St_refl].
    destruct (forallb is_some _); injection E as <- <-.
    + destruct (fs_ucb fs) as [|id| | | |] eqn:Eu;
        try (apply St_shrink; [reflexivity|]; apply (Shrink_pf X (vw c)), (dv_ddel (fun fs => uid (fs_ucb fs)))).
      exact (St_frag X (vw c) fid fs id _ Eg Eu).
    + apply St_shrink; [reflexivity|]. apply (Shrink_pf X (vw c)). cbn [c_pfrags set].
      rewrite (dv_dset_same (fun fs => uid (fs_ucb fs)) fid fs _ _ Eg) by reflexivity. apply sub_refl.
Qed.

Lemma fire_cb_St c k ok c' o X : fire_cb c k ok = (c', o) -> St [] (k :: X) (vw c) X (vw c') o.
Proof.
  unfold fire_cb. intros E. destruct k as [i|rid mseq ty p i].
  - destruct (icb_cases i) as [(id & ->)|Hi]; [injection E as <- <-; apply St_user|].
    exact (St_seq _ _ _ _ _ _ _ _ (St_drop _ X (vw c)) (fire_icb_St _ _ _ _ _ X E Hi)).
  - destruct (zmem rid (c_done c)) eqn:Ed; [injection E as <- <-; apply St_drop|].
    destruct ok; cbn [negb] in E.
    + destruct (icb_cases i) as [(id & ->)|Hi]; [injection E as <- <-; exact (St_retry X (vw c) rid mseq ty p id Ed)|].
      change o with ([] ++ o). refine (St_seq _ _ _ _ _ _ _ _ _ (fire_icb_St _ _ _ _ _ X E Hi)).
      apply St_shrink; [reflexivity|]. apply (Shrink_done _ X (vw c)).
    + injection E as <- <-. apply St_shrink; [reflexivity|]. apply (Shrink_requeue X (vw c)). reflexivity.
Qed.

Lemma fire_all_St ks : forall c ok c' o X, fire_all c ks ok = (c', o) -> St [] (ks ++ X) (vw c) X (vw c') o.
Proof.
  induction ks as [|k ks IH]; intros c ok c' o X E; cbn [fire_all] in E.
  - injection E as <- <-. apply St_refl.
  - destruct (fire_cb c k ok) as [c1 o1] eqn:E1. destruct (fire_all c1 ks ok) as [c2 o2] eqn:E2.
    injection E as <- <-. exact (St_seq _ _ _ _ _ _ _ _ (fire_cb_St _ _ _ _ _ (ks ++ X) E1) (IH _ _ _ _ X E2)).
Qed.

(* St between two connection states: in hand is what pending_callbacks holds *)
Definition Sc (ids : list Z) (c c' : conn) (o : list out) : Prop := St ids (pend c) (vw c) (pend c') (vw c') o.

Lemma Sc_refl c : Sc [] c c []. Proof. apply St_refl. Qed.
Lemma Sc_seq c c1 c2 o1 o2 : Sc [] c c1 o1 -> Sc [] c1 c2 o2 -> Sc [] c c2 (o1 ++ o2).
Proof. apply St_seq. Qed.
Lemma Sc_nil_trans a b c : Sc [] a b [] -> Sc [] b c [] -> Sc [] a c [].
Proof. apply (Sc_seq a b c [] []). Qed.
Lemma Sc_same_r ids c c1 c2 o : Sc ids c c1 o -> vw c2 = vw c1 -> c_pcbs c2 = c_pcbs c1 -> Sc ids c c2 o.
Proof. unfold Sc, pend. intros H -> ->. exact H. Qed.
(* on variables: between the updated records of a model function these equations are costly conversions *)
Lemma Sc_status ids c c1 o s : Sc ids c c1 o -> Sc ids c (c1 <| c_status := s |>) o.
Proof. intros H. exact (Sc_same_r _ _ _ _ _ H eq_refl eq_refl). Qed.
Lemma Sc_hello_sent ids c c1 o t : Sc ids c c1 o -> Sc ids c (c1 <| c_hello_sent := t |>) o.
Proof. intros H. exact (Sc_same_r _ _ _ _ _ H eq_refl eq_refl). Qed.
Lemma Sc_same c c' o : vw c' = vw c -> c_pcbs c' = c_pcbs c -> fired o = [] -> Sc [] c c' o.
Proof. intros Hv Hp Hf. apply (Sc_same_r [] c c); [apply St_silent; exact Hf|exact Hv|exact Hp]. Qed.

Lemma fold_ddel_In {A} ms : forall (d : list (Z * A)) x, In x (fold_left (fun d m => ddel m d) ms d) -> In x d.
Proof. exact (DictP.fold_ddel_In ms). Qed.

Lemma forget_Sc s c : Sc [] c (forget s c) [].
Proof.
  unfold forget, forget_retry. destruct (dget s (c_pretry c)) as [mseqs|]; [|apply Sc_same; reflexivity].
  apply St_shrink; [reflexivity|]. apply (Shrink_prm (pend c) (vw c)). intros x. apply fold_ddel_In.
Qed.

Lemma resolve_Sc ok c s c' o : resolve ok c s = (c', o) -> Sc [] c c' o.
Proof.
  rewrite resolve_eq. intros E.
  assert (H0 : Sc [] c (count_outcome ok c) []) by (apply Sc_same; destruct ok; reflexivity).
  assert (Hp : c_pcbs (count_outcome ok c) = c_pcbs c) by (destruct ok; reflexivity).
  rewrite <- Hp in E. revert H0 E. generalize (count_outcome ok c). intros c0 H0 E.
  destruct (dget s (c_pcbs c0)) as [ks|] eqn:Eg; [|injection E as <- <-; exact (Sc_nil_trans _ _ _ H0 (forget_Sc s c0))].
  destruct (fire_all c0 ks ok) as [c1 o1] eqn:E1. injection E as <- <-.
  rewrite <- (app_nil_r o1). refine (Sc_seq _ _ _ [] _ H0 (Sc_seq _ _ _ ([] ++ o1) [] _ (forget_Sc s _))).
  unfold Sc, pend. cbn [c_pcbs set].
  rewrite (wr_keeps W_cb c_pcbs (fun _ _ => eq_refl) (fire_all_wr E1)).
  exact (St_seq _ _ _ _ _ _ _ _ (St_take s ks _ (vw c0) Eg) (fire_all_St _ _ _ _ _ _ E1)).
Qed.

(* resolve is taken whole: between firing a callback and unregistering its datagram the callback is fired and still stored *)
Lemma sweep_Sc verdict snap c c' o : sweep verdict c snap = (c', o) -> Sc [] c c' o.
Proof. apply (sweep_walk (Sc []) Sc_refl Sc_seq). intros; eapply resolve_Sc; eassumption. Qed.

Lemma ack_loop_Sc h snap c c' o : ack_loop c h snap = (c', o) -> Sc [] c c' o.
Proof. rewrite ack_loop_sweep. apply sweep_Sc. Qed.

Lemma timeout_loop_Sc strict now snap c c' o : timeout_loop strict c now snap = (c', o) -> Sc [] c c' o.
Proof. rewrite timeout_loop_sweep. apply sweep_Sc. Qed.

(* Sc reads the five components of the view and pending_callbacks *)
Lemma wr_Sc m c c' o : (forall a d, vw (over m a d) = vw a /\ c_pcbs (over m a d) = c_pcbs a) -> wr m c c' -> fired o = [] -> Sc [] c c' o.
Proof. intros H [d ->] Hf. destruct (H c d). apply Sc_same; assumption. Qed.

Lemma St_grow_plain ids X v X' v' :
  msub (plain X' v') (plain X v ++ ids) -> incl (rps (allcb X' v')) (rps (allcb X v)) ->
  (Inv X v -> pids (mcbs (map snd (v_prm v'))) = [] /\ Forall mok (v_out v')) ->
  v_rid v <= v_rid v' -> (forall r, zmem r (v_done v) = true -> zmem r (v_done v') = true) ->
  St ids X v X' v' [].
Proof.
  intros S1 S2 S34 S5 S6. rewrite <- (app_nil_r ids). apply St_grow; [exact S1| |apply Nat.le_0_l|exact S5|exact S34|exact S6].
  intros rid id H. left. exact (S2 _ H).
Qed.

Lemma St_grow_retry id X v X' v' :
  msub (plain X' v') (plain X v) ->
  (forall pr, In pr (rps (allcb X' v')) -> In pr (rps (allcb X v)) \/ pr = (v_rid v, id)) ->
  (Inv X v -> pids (mcbs (map snd (v_prm v'))) = [] /\ Forall mok (v_out v')) ->
  v_rid v < v_rid v' -> (forall r, zmem r (v_done v) = true -> zmem r (v_done v') = true) ->
  St [id] X v X' v' [].
Proof.
  intros S1 S2 S34 S5 S6. apply (St_grow [] [id]); [rewrite app_nil_r; exact S1| |apply le_n|lia|exact S34|exact S6].
  intros rid id' H. destruct (S2 _ H) as [H'|H']; [left; exact H'|]. injection H' as -> ->. right. cbn. auto.
Qed.

Definition v_push (v : view) (m : pmsg) (rid' : Z) : view :=
  {| v_out := v_out v ++ [m]; v_prm := v_prm v; v_pf := v_pf v; v_done := v_done v; v_rid := rid' |}.

Lemma Inv_keep_prm_out X v : Inv X v -> forall m, mok m ->
  pids (mcbs (map snd (v_prm v))) = [] /\ Forall mok (v_out v ++ [m]).
Proof. intros [N P O R U] m Hm. split; [exact P|]. apply Forall_app. split; [exact O|]. constructor; [exact Hm|constructor]. Qed.

Lemma St_push pl rt X v m rid' :
  pids (olist (m_cb m)) = pl -> rps (olist (m_cb m)) = map (pair (v_rid v)) rt -> (length rt <= 1)%nat ->
  mok m -> v_rid v <= rid' -> (rt <> [] -> v_rid v < rid') ->
  St (pl ++ rt) X v X (v_push v m rid') [].
Proof.
  intros Hp Hq Hl Hm Hr Hr'. apply St_grow; [| |exact Hl|exact Hr| |auto].
  - unfold plain. cbn [v_push v_out v_pf]. rewrite mcbs_snoc, pids_app, Hp. subs.
  - unfold allcb. cbn [v_push v_out v_prm v_rid]. rewrite mcbs_snoc. intros rid id.
    rewrite !rps_app, Hq, !in_app_iff, in_map_iff. intros [H|[[H|(x & Hx & Hin)]|H]]; auto.
    injection Hx as <- <-. right. split; [reflexivity|]. split; [exact Hin|]. apply Hr'. intros ->. destruct Hin.
  - intros HI. exact (Inv_keep_prm_out _ _ HI m Hm).
Qed.

Lemma send_type_Sc c ty p r k : (r = RBest -> uid k = []) -> Sc (uid k) c (send_type c ty p r k) [].
Proof.
  intros Hb. unfold Sc, send_type. set (mseq := seq_succ (c_seq_msg c)).
  set (m := {| m_seq := mseq; m_type := ty; m_payload := p; m_cb := mk_cb r k (c_next_rid c) mseq ty p; m_retry := r; m_atime := 0 |}).
  set (rid' := match r with RTimeout => c_next_rid c + 1 | _ => c_next_rid c end).
  change (St (uid k) (pend c) (vw c) (pend c) (v_push (vw c) m rid') []).
  destruct r; subst rid'.
  - rewrite <- (app_nil_r (uid k)).
    apply St_push; [destruct k; reflexivity|destruct k; reflexivity|cbn; lia|intros H; destruct (H eq_refl)|cbn; lia|congruence].
  - rewrite <- (app_nil_r (uid k)).
    apply St_push; [destruct k; reflexivity|destruct k; reflexivity|cbn; lia| |cbn; lia|congruence].
    intros _. cbn. rewrite <- (Hb eq_refl). destruct k; reflexivity.
  - change (uid k) with ([] ++ uid k).
    apply St_push; [reflexivity|destruct k; reflexivity|destruct k; cbn; lia|intros _; reflexivity|cbn; lia|cbn; lia].
Qed.

Lemma send_type_Sc0 c ty p r k : (forall id, k <> IUser id) -> Sc [] c (send_type c ty p r k) [].
Proof. intros Hi. rewrite <- (uid_nil _ Hi). apply send_type_Sc. intros _. apply uid_nil. exact Hi. Qed.

Lemma send_frags_Sc frags : forall c fid n r i, Sc [] c (send_frags c fid n r i frags) [].
Proof.
  induction frags as [|f rest IH]; intros c fid n r i; cbn [send_frags]; [apply Sc_refl|].
  eapply Sc_nil_trans; [|apply IH]. apply send_type_Sc0. intros; discriminate.
Qed.

Definition ev_ids (x : ev) : list Z :=
  match x with ESend _ _ k => uid k | EDisconnect k => uid k | _ => [] end.
(* a best-effort (RBest) send that fits one datagram copies its plain callback into the re-send
   store: its callback may fire once per transmitted copy
   (Properties.C07.C07_callback_at_most_once_best_effort_refuted) *)
Definition ev_ok (e : env) (x : ev) : Prop :=
  match x with
  | ESend p RBest (IUser _) => len p >? e_max_payload e = true
  | _ => True
  end.

Lemma pfrags_add_Sc c fid fs : Sc (uid (fs_ucb fs)) c (c <| c_pfrags := dset fid fs (c_pfrags c) |>) [].
Proof.
  rewrite <- (app_nil_r (uid (fs_ucb fs))).
  apply (St_grow _ [] (pend c) (vw c) (pend c) (v_set_pf (vw c) (dset fid fs (c_pfrags c)))); auto; try (cbn; lia).
  - unfold plain. cbn [v_set_pf v_out v_pf vw].
    pose proof (dv_dset (fun fs => uid (fs_ucb fs)) fid fs (c_pfrags c) : msub (fids _) (_ ++ fids _)) as Hs. subs.
  - intros [N P O R U]. split; assumption.
Qed.

Lemma Sc_pre ids a b c o : Sc [] a b [] -> Sc ids b c o -> Sc ids a c o.
Proof. apply (St_comp [] ids). Qed.

Lemma send_Sc e c p r k c' o : ev_ok e (ESend p r k) -> send e c p r k = (c', o) -> Sc (uid k) c c' o.
Proof.
  intros Hok E. destruct (send_inv E) as [_|_ Ep|_ _ _|_ [Ep _]].
  - apply St_weaken, St_refl.
  - apply send_type_Sc. intros ->. destruct k; try reflexivity. cbn in Hok. lia.
  - apply St_weaken; apply Sc_same; reflexivity.
  - unfold send_fragmented. apply (Sc_pre _ _ (c <| c_seq_frag := seq_succ (c_seq_frag c) |>)); [apply Sc_same; reflexivity|].
    eapply Sc_pre; [apply send_frags_Sc|]. apply (pfrags_add_Sc _ _ {| fs_ucb := k; fs_acks := _ |}).
Qed.

Lemma disconnect_Sc c k : Sc (uid k) c (disconnect c k) [].
Proof.
  destruct (disconnect_cases c k) as [(_ & _ & ->)|(_ & ->)]; [apply St_weaken; apply Sc_same; reflexivity|].
  apply Sc_status. eapply Sc_pre; [|apply send_type_Sc; discriminate].
  apply St_shrink; [reflexivity|]. intros [N P O R U]. constructor; cbn; auto; try lia.
  - unfold plain. cbn. subs.
  - unfold allcb. cbn. apply incl_appr, incl_appr, incl_refl.
Qed.

Lemma client_hello_Sc c now hello : Sc [] c (client_hello c now hello) [].
Proof.
  apply Sc_hello_sent, Sc_status, send_type_Sc0. discriminate.
Qed.

Lemma recv_handshake_Sc c ty oo c' os : recv_handshake c ty oo = (c', os) -> Sc [] c c' [].
Proof.
  intros E. destruct (recv_handshake_inv _ _ _ _ _ E)
      as [os' _ _ _|_ _ _ _|_ _ _ _|_ _ _|_ _ _];
    try (apply Sc_same; reflexivity).
  - (* the states before the reply are named: left to unification, the updated records are compared by conversion *)
    set (c0 := c <| c_token := o_token oo |> <| c_key := Some (o_key oo) |> <| c_status := CONNECTING |>).
    apply Sc_nil_trans with (b := c0); [apply Sc_same; reflexivity|apply send_type_Sc0; discriminate].
  - set (c0 := c <| c_token := o_token oo |> <| c_key := Some (o_key oo) |>).
    apply Sc_hello_sent, Sc_status, Sc_nil_trans with (b := c0); [apply Sc_same; reflexivity|apply send_type_Sc0; discriminate].
Qed.

Lemma stamp_cb now m : m_cb (stamp now m) = m_cb m. Proof. reflexivity. Qed.
Lemma stamp_retry now m : m_retry (stamp now m) = m_retry m. Proof. reflexivity. Qed.

Lemma restored_cbs now sel prm : Forall mok sel ->
  let prm' := fold_left (fun d m => dset (m_seq m) m d)
                (filter (fun m => negb (retry_is_none (m_retry m))) (map (stamp now) sel)) prm in
  forall k, In k (mcbs (map snd prm')) -> In k (mcbs (map snd prm)) \/ In k (mcbs sel) /\ pid k = [].
Proof.
  intros Hok prm' k Hk. apply mcbs_In in Hk as (m & Hm & Hc). apply in_map_iff in Hm as (x & <- & Hx).
  destruct (fold_dset_In m_seq (fun m => m) _ _ _ Hx) as [H|(m & H1 & H2)].
  - left. apply mcbs_In. exists (snd x). split; [apply in_map; exact H|exact Hc].
  - right. apply filter_In in H1 as [H1 Hr]. apply in_map_iff in H1 as (m0 & <- & Hm0). rewrite H2 in Hc.
    change (m_cb m0 = Some k) in Hc. change (negb (retry_is_none (m_retry m0)) = true) in Hr.
    split; [apply mcbs_In; exists m0; auto|].
    rewrite Forall_forall in Hok. pose proof (Hok m0 Hm0) as Hm. unfold mok in Hm. rewrite Hc in Hm. cbn in Hm.
    rewrite app_nil_r in Hm. apply Hm. intros Hn. rewrite Hn in Hr. discriminate.
Qed.

(* the queue is an interleaving of what assembly takes and what it leaves: no plain holder is lost or doubled *)
Lemma Interleave_pids (a b l : list pmsg) : Interleave a b l -> msub (pids (mcbs b) ++ pids (mcbs a)) (pids (mcbs l)).
Proof. induction 1; [apply sub_refl|..]; rewrite !mcbs_cons, !pids_app; subs. Qed.

(* what packet assembly does to the places callbacks are stored in; msgs0 ++ tk = the messages it selected *)
Lemma build_impl_moves e c now ka delay c' r : build_impl e c now ka delay = (c', r) ->
  exists prm msgs0 rem tk,
    incl prm (c_pretry_msg c) /\ incl msgs0 (map snd (c_pretry_msg c)) /\ Interleave tk rem (c_outgoing c) /\
    c_outgoing c' = rem /\ c_pfrags c' = c_pfrags c /\ c_done c' = c_done c /\ c_next_rid c' = c_next_rid c /\
    (c_pretry_msg c' = prm \/ c_pretry_msg c' = fold_left (fun d m => dset (m_seq m) m d) (retried now (msgs0 ++ tk)) prm) /\
    (c_pcbs c' = c_pcbs c \/ c_pcbs c' = dset (seq_succ (c_seq_send c)) (opt_list (map m_cb (msgs0 ++ tk))) (c_pcbs c)).
Proof.
  intros E. destruct (build_impl_spec _ _ _ _ _ _ _ E) as (taken & tk & rem & A & _ & C & _ & Hres). cbv zeta in Hres.
  exists (fold_left (fun d k => ddel k d) (map fst taken) (c_pretry_msg c)), (map snd taken), rem, tk.
  split; [intros x; apply fold_ddel_In|]. split; [exact (incl_map snd A)|]. split; [exact C|].
  destruct (ptype_eqb _ _); destruct Hres as [-> _]; [cbn; auto 10|].
  rewrite register_prm, register_pcbs.
  pose proof (wr_keeps W_register (fun a => (c_outgoing a, c_pfrags a, c_done a, c_next_rid a)) (fun _ _ => eq_refl)
                (register_wr (c <| c_pretry_msg := fold_left (fun d k => ddel k d) (map fst taken) (c_pretry_msg c) |> <| c_outgoing := rem |>)
                   now (map snd taken ++ tk))) as K. injection K as -> -> -> ->.
  repeat (split; [reflexivity|]). split; [right; reflexivity|]. destruct (opt_list _); auto.
Qed.

Lemma build_impl_Sc e c now ka delay c' r : build_impl e c now ka delay = (c', r) -> Sc [] c c' [].
Proof.
  intros E. destruct (build_impl_moves _ _ _ _ _ _ _ E) as (prm & msgs0 & rem & tk & Hprm & Hm0 & C & <- & Hpf & Hdn & Hrid & Hp' & Hc').
  pose proof (Interleave_pids _ _ _ C) as Hs.
  assert (Irem : incl (c_outgoing c') (c_outgoing c)) by (intros m; apply (Interleave_in_r _ _ _ m C)).
  assert (Itk : incl tk (c_outgoing c)) by (intros m; apply (Interleave_in_l _ _ _ m C)). clear E C.
  apply St_shrink; [reflexivity|]. intros [N P O R U]. cbn [vw v_prm v_out] in P, O.
  (* every selected message was stored; the ones from the re-send store carry no plain user callback *)
  assert (Hsel : incl (mcbs (msgs0 ++ tk)) (mcbs (c_outgoing c) ++ mcbs (map snd (c_pretry_msg c)))).
  { rewrite mcbs_app. apply incl_app; [apply incl_appr, mcbs_incl, Hm0|apply incl_appl, mcbs_incl, Itk]. }
  assert (Hp0 : pids (mcbs msgs0) = []) by exact (pids_nil_incl _ _ (mcbs_incl _ _ Hm0) P).
  assert (Hok : Forall mok (msgs0 ++ tk)).
  { apply Forall_app. split; [exact (mok_nil _ Hp0)|exact (incl_Forall Itk O)]. }
  assert (Hp1 : pids (mcbs (msgs0 ++ tk)) = pids (mcbs tk)) by (rewrite mcbs_app, pids_app, Hp0; reflexivity).
  (* the callbacks registered for the new datagram are those of the selected messages *)
  assert (HX : msub (pids (pend c')) (pids (mcbs tk) ++ pids (pend c)) /\ incl (pend c') (mcbs (msgs0 ++ tk) ++ pend c)).
  { unfold pend. destruct Hc' as [->| ->]; [split; [subs|apply incl_appr, incl_refl]|]. rewrite mcbs_opt. split.
    - rewrite !pids_vals, <- Hp1. apply dv_dset.
    - intros x Hx. apply in_or_app. exact (vals_dset_In _ _ _ _ Hx). }
  destruct HX as [HX1 HX2].
  assert (Hk' : forall k, In k (mcbs (map snd (c_pretry_msg c'))) ->
                          In k (mcbs (map snd (c_pretry_msg c))) \/ In k (mcbs (msgs0 ++ tk)) /\ pid k = []).
  { intros k Hk. destruct Hp' as [Hp'|Hp']; rewrite Hp' in Hk.
    - left. exact (mcbs_incl _ _ (incl_map snd Hprm) k Hk).
    - destruct (restored_cbs now _ prm Hok k Hk) as [H|H]; [left; exact (mcbs_incl _ _ (incl_map snd Hprm) k H)|right; exact H]. }
  constructor; cbn [vw v_prm v_out v_rid v_done v_pf].
  - unfold plain. cbn [vw v_out v_pf]. rewrite Hpf. subs.
  - unfold allcb. cbn [vw v_out v_prm]. intros x. specialize (HX2 x). specialize (Hsel x). specialize (Hk' x).
    pose proof (mcbs_incl _ _ Irem x). rewrite !in_app_iff in *. tauto.
  - apply pids_nil_iff. intros k Hk. destruct (Hk' k Hk) as [H|[_ H]]; [exact (proj1 (pids_nil_iff _) P k H)|exact H].
  - exact (incl_Forall Irem O).
  - lia.
  - rewrite Hdn. auto.
Qed.

Lemma build_packet_Sc e c now c' r : build_packet e c now = (c', r) -> Sc [] c c' [].
Proof.
  intros E. apply build_packet_cases in E as [(_ & -> & ->)|(c1 & _ & E1 & ->)]; [apply Sc_refl|]. apply build_impl_Sc in E1.
  destruct r; [|exact E1].
  eapply Sc_nil_trans; [exact E1|apply Sc_same; reflexivity].
Qed.

Lemma fired_emit c pk : fired (emit c pk) = [].
Proof. apply fired_none. intros id b. apply emit_no_cb. Qed.

Lemma fired_tail (strict : bool) c pk o3 :
  let o2 := match pk with Some p => emit c p | None => [] end in
  fired (if strict then o3 ++ o2 else o2 ++ o3) = fired o3.
Proof.
  intros o2. assert (Hf : fired o2 = []) by (destruct pk; [apply fired_emit|reflexivity]).
  destruct strict; rewrite fired_app, Hf, ?app_nil_r; reflexivity.
Qed.

Lemma fired_filter_ret o : fired (filter not_ret o) = fired o.
Proof.
  induction o as [|x o IH]; [reflexivity|]. change (x :: o) with ([x] ++ o). rewrite fired_app, <- IH.
  destruct x; reflexivity.
Qed.

Lemma client_update_Sc c now c' o : client_update c now = (c', o) -> Sc [] c c' o.
Proof.
  intros E. apply (wr_Sc W_update); [split; reflexivity|eapply client_update_wr, E|].
  destruct (client_update_out _ _ _ _ E) as [->| ->]; reflexivity.
Qed.

Lemma tick_tail_Sc strict e c now c' o2 o3 : tick_tail strict e c now = (c', o2, o3) ->
  Sc [] c c' (if strict then o3 ++ o2 else o2 ++ o3).
Proof.
  intros E. apply tick_tail_cases in E as (c1 & pk & E1 & E2 & ->).
  apply St_out with (o := [] ++ o3); [apply fired_tail|].
  exact (Sc_seq _ _ _ _ _ (build_packet_Sc _ _ _ _ _ E1) (timeout_loop_Sc _ _ _ _ _ _ E2)).
Qed.

Lemma recv_handshake_fired c ty oo c' os : recv_handshake c ty oo = (c', os) -> fired os = [].
Proof.
  intros E. destruct (recv_handshake_inv _ _ _ _ _ E) as [os' _ _ [->|(er & ->)]|_ _ _ _|_ _ _ _|_ _ _|_ _ _]; try reflexivity.
  destruct (c_conn_cb c); reflexivity.
Qed.

(* the atoms of a step; an event that hands over a callback is its one atom (send_Sc, disconnect_Sc) *)
Lemma atom_Sc e x c c' o : ev_ok e x -> ev_ids x = [] -> atom e x c c' o -> Sc [] c c' o.
Proof.
  intros Hok Hids [H|H|H];
    [destruct H as [p r k c1 o1 Ex E|k Ex|w v Ex|now hello Ex|Ex|b Ex|now r c1 o1 Ex E|now er Ex]
    |destruct H as [o1 Ho|s bf Eb|h c1 o1 Hl E|o1 Ho]
    |destruct H as [s bf Eb|s p|s p c1 o1 E| |ty oo c1 os Hty Hk E]]; try (apply Sc_same; reflexivity).
  - subst x. cbn in Hids. rewrite <- Hids. exact (send_Sc _ _ _ _ _ _ _ Hok E).
  - subst x. cbn in Hids. rewrite <- Hids. apply disconnect_Sc.
  - subst x. apply (wr_Sc W_cfg); [split; reflexivity|apply setcfg_wr|reflexivity].
  - apply client_hello_Sc.
  - eapply client_update_Sc, E.
  - apply Sc_same; try reflexivity. destruct Ho as [->| ->]; reflexivity.
  - unfold handle_ack_bits in E. eapply ack_loop_Sc, E.
  - apply St_silent. destruct Ho as [->| ->]; reflexivity.
  - apply (wr_Sc W_frag); [split; reflexivity|eapply recv_fragment_wr, E|].
    destruct (recv_fragment_out E) as [->| ->]; reflexivity.
  - eapply St_out; [|eapply recv_handshake_Sc, E]. eapply recv_handshake_fired, E.
Qed.

Lemma step_Sc0 e c x c' o : ev_ok e x -> ev_ids x = [] -> step e c x = (c', o) -> Sc [] c c' o.
Proof.
  intros Hok Hids E. apply step_acts in E as (c1 & o1 & ot & H & Ht & ->). apply (Sc_seq c c1).
  - revert H. apply (star_rel (atom e x) (Sc [])); [exact Sc_refl|exact Sc_seq|intros a b oo; apply atom_Sc; assumption].
  - destruct Ht as [_|strict c2 o2 o3 _ T]; [apply Sc_refl|eapply tick_tail_Sc, T].
Qed.

Lemma client_tick_Sc e c now r c' o : client_tick e c now r = (c', o) -> Sc [] c c' o.
Proof. exact (step_Sc0 e c (EClientTick now r) c' o Logic.I eq_refl). Qed.

Lemma server_tick_Sc e c now c' o : server_tick e c now = (c', o) -> Sc [] c c' o.
Proof. exact (step_Sc0 e c (EServerTick now) c' o Logic.I eq_refl). Qed.

(* a receive does not look at the environment *)
Lemma recv_Sc c now d orcs c' o : recv c now d orcs = (c', o) -> Sc [] c c' o.
Proof. exact (step_Sc0 {| e_max_payload := 0; e_max_frag := 0; e_max_frags := 0 |} c (ERecv now d orcs) c' o Logic.I eq_refl). Qed.

Theorem step_Sc e c x c' o : ev_ok e x -> step e c x = (c', o) -> Sc (ev_ids x) c c' o.
Proof.
  intros Hok E. destruct x; cbn [ev_ids]; try exact (step_Sc0 _ _ _ _ _ Hok eq_refl E); cbn [step] in E.
  - exact (send_Sc _ _ _ _ _ _ _ Hok E).
  - injection E as <- <-. apply disconnect_Sc.
Qed.

Definition sent_ids (xs : list ev) : list Z := flat_map ev_ids xs.

(* everything C07 says about "at most once" is a component of this *)
Theorem run_Sc e xs : forall c c' oss, Forall (ev_ok e) xs -> run e c xs = (c', oss) ->
  Sc (sent_ids xs) c c' (concat oss).
Proof.
  induction xs as [|x xs IH]; intros c c' oss Hok E; cbn [run] in E.
  - injection E as <- <-. apply Sc_refl.
  - inversion Hok as [|? ? Hx Hxs]; subst.
    destruct (step e c x) as [c1 o] eqn:E1. destruct (run e c1 xs) as [c2 os] eqn:E2. injection E as <- <-.
    cbn [sent_ids flat_map concat]. eapply St_comp; [exact (step_Sc _ _ _ _ _ Hx E1)|exact (IH _ _ _ Hxs E2)].
Qed.

Definition CbInv (c : conn) : Prop := Inv (pend c) (vw c).
Definition CbKnown (c : conn) (id : Z) : Prop := Known (pend c) (vw c) id.

Lemma CbInv_conn0 b : CbInv (conn0 b).
Proof. constructor; cbn; [constructor|reflexivity|constructor|intros ? ? []|intros ? ? ? ? []]. Qed.
Lemma CbKnown_conn0 b id : ~ CbKnown (conn0 b) id.
Proof. intros [[]|(rid & [])]. Qed.

Theorem run_CbInv e xs c c' oss : CbInv c -> Forall (ev_ok e) xs -> NoDup (sent_ids xs) ->
  (forall id, In id (sent_ids xs) -> ~ CbKnown c id) -> run e c xs = (c', oss) -> CbInv c'.
Proof. intros HI Hok ND Fr E. exact (proj1 (run_Sc e xs c c' oss Hok E HI ND Fr)). Qed.

Theorem callback_at_most_once e xs c c' oss : CbInv c -> Forall (ev_ok e) xs -> NoDup (sent_ids xs) ->
  (forall id, In id (sent_ids xs) -> ~ CbKnown c id) -> run e c xs = (c', oss) ->
  NoDup (fired (concat oss)).
Proof. intros HI Hok ND Fr E. exact (proj1 (proj2 (run_Sc e xs c c' oss Hok E HI ND Fr))). Qed.

Theorem run_CbKnown e xs c c' oss id : CbInv c -> Forall (ev_ok e) xs -> NoDup (sent_ids xs) ->
  (forall id, In id (sent_ids xs) -> ~ CbKnown c id) -> run e c xs = (c', oss) ->
  CbKnown c' id -> CbKnown c id \/ In id (sent_ids xs).
Proof. intros HI Hok ND Fr E. exact (proj2 (proj2 (proj2 (proj2 (run_Sc e xs c c' oss Hok E HI ND Fr)))) id). Qed.

Theorem run_fired_known e xs c c' oss id : CbInv c -> Forall (ev_ok e) xs -> NoDup (sent_ids xs) ->
  (forall id, In id (sent_ids xs) -> ~ CbKnown c id) -> run e c xs = (c', oss) ->
  In id (fired (concat oss)) -> CbKnown c id \/ In id (sent_ids xs).
Proof.
  intros HI Hok ND Fr E H.
  destruct (proj1 (proj2 (proj2 (run_Sc e xs c c' oss Hok E HI ND Fr))) id H) as [H'|H']; [left; apply Live_Known; exact H'|right; exact H'].
Qed.

Theorem callback_at_most_once_fresh e b xs c' oss : Forall (ev_ok e) xs -> NoDup (sent_ids xs) ->
  run e (conn0 b) xs = (c', oss) -> NoDup (fired (concat oss)).
Proof.
  intros Hok ND E. apply (callback_at_most_once e xs (conn0 b) c' oss); auto using CbInv_conn0.
  intros id _. apply CbKnown_conn0.
Qed.

Lemma cbinv_fresh b : CbInv (conn0 b) /\ forall id, ~ CbKnown (conn0 b) id.
Proof. split; [apply CbInv_conn0|intros id; apply CbKnown_conn0]. Qed.

Theorem cbinv_preserved e xs c c' oss :
  CbInv c -> Forall (ev_ok e) xs -> NoDup (sent_ids xs) ->
  (forall id, In id (sent_ids xs) -> ~ CbKnown c id) ->
  run e c xs = (c', oss) ->
  CbInv c' /\ (forall id, CbKnown c' id -> CbKnown c id \/ In id (sent_ids xs)) /\
  (forall id, In id (fired (concat oss)) -> CbKnown c id \/ In id (sent_ids xs)).
Proof.
  intros HI Hok ND Fr E. split; [exact (run_CbInv e xs c c' oss HI Hok ND Fr E)|]. split.
  - intros id. exact (run_CbKnown e xs c c' oss id HI Hok ND Fr E).
  - intros id. exact (run_fired_known e xs c c' oss id HI Hok ND Fr E).
Qed.

Lemma cbinv_meaning c : CbInv c <->
  NoDup (pids (pend c) ++ pids (mcbs (c_outgoing c)) ++ fids (c_pfrags c)) /\
  pids (mcbs (map snd (c_pretry_msg c))) = [] /\
  Forall mok (c_outgoing c) /\
  (forall rid id, In (rid, id) (rps (pend c ++ mcbs (c_outgoing c) ++ mcbs (map snd (c_pretry_msg c)))) ->
     rid < c_next_rid c /\ ~ In id (pids (pend c) ++ pids (mcbs (c_outgoing c)) ++ fids (c_pfrags c))) /\
  (forall rid id rid' id',
     In (rid, id) (rps (pend c ++ mcbs (c_outgoing c) ++ mcbs (map snd (c_pretry_msg c)))) ->
     In (rid', id') (rps (pend c ++ mcbs (c_outgoing c) ++ mcbs (map snd (c_pretry_msg c)))) ->
     (rid = rid' <-> id = id')).
Proof. split; [intros [A B C D E]; auto|intros (A & B & C & D & E); constructor; assumption]. Qed.
