(* TimedNet.server_sweep is the server loop's sweep of Model/Server.v (the model tied to
   server.py) seen from one CONNECTED connection that is not removed. *)
From Model Require Import Base Conn Client Server TimedNet.
From Proofs Require Import ServerP.
Open Scope Z_scope.

Lemma sweep_conn_is_server_sweep h e s now cid cl c' o :
  pfind cid (s_conns s) = Some cl -> c_status (cl_conn cl) = CONNECTED ->
  server_sweep e (g_conn_timeout (s_cfg s)) (cl_conn cl) now = (c', o, false) ->
  exists s' so pp, sweep_conn h e s now cid = (s', so, pp)
                   /\ pfind cid (s_conns s') = Some (with_conn cl c').
Proof.
  intros P St E. unfold server_sweep in E. rewrite St in E. cbn [status_eqb status_code Z.eqb Pos.eqb] in E.
  unfold sweep_drops in E. rewrite St in E. cbn [status_eqb status_code Z.eqb Pos.eqb orb] in E.
  destruct (server_tick e (cl_conn cl) now) as [c1 o1] eqn:Et. injection E as <- <- Ed.
  unfold sweep_conn. rewrite P, St. cbn [status_eqb status_code Z.eqb Pos.eqb]. rewrite P, St.
  cbn [status_eqb status_code Z.eqb Pos.eqb orb]. rewrite Ed.
  unfold tick_client. rewrite Et. do 3 eexists. split; [reflexivity|].
  rewrite (proj2 (pfind_in _ _ _ P)). unfold supd. cbn. rewrite pfind_pmap_id, P. reflexivity.
Qed.
