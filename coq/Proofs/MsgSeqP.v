(* C07 message level, short sessions: while A has created at most HALF messages the
   hypotheses on B's message labels ((label), (near), (truthful) of Net3.mwf) hold by themselves
   with every message labelled by its own wire number.  The sender's half of that: A gives its j-th
   message the sequence number wire j (ghost table T: the j-th message A created), every message it
   keeps anywhere, every RetrySender and every message of every datagram it puts on the wire carries
   the (type, payload) the table has under its sequence number — a retransmitted copy carries the
   SAME number and the SAME payload. *)
From Coq Require Import Lia.
From Model Require Import Base SeqNum Wire Conn RecvHist Net Net2 Net3.
From Proofs Require Import SeqNumP ConnSpecP NonceP AckP StoredP CustodyP AckNetP MsgRecvP MsgSendP MsgNetP.
Open Scope Z_scope.

(* the message table: entry j is the (type, payload) of the j-th message A created *)
Definition tbl := list (ptype * list byte).

Definition tab (T : tbl) (s : Z) (c : ptype * list byte) : Prop :=
  exists j, 1 <= j <= len T /\ s = wire j /\ nth_error T (Z.to_nat (j - 1)) = Some c.

Lemma tab_mono T ext s c : tab T s c -> tab (T ++ ext) s c.
Proof.
  intros (j & Hj & Hs & Hn). exists j. unfold len in *. split; [rewrite app_length; lia|]. split; [exact Hs|].
  rewrite nth_error_app1; [exact Hn|lia].
Qed.

Lemma tab_new T c : tab (T ++ [c]) (wire (len T + 1)) c.
Proof.
  exists (len T + 1). unfold len. split; [rewrite app_length; cbn; lia|]. split; [reflexivity|].
  replace (Z.to_nat (Z.of_nat (length T) + 1 - 1)) with (length T) by lia.
  rewrite nth_error_app2, Nat.sub_diag by lia. reflexivity.
Qed.

Lemma tab_range T s c : len T <= HALF -> tab T s c -> 1 <= s <= len T.
Proof. intros Hb (j & Hj & Hs & _). rewrite wire_small in Hs by (unfold RING, HALF in *; lia). lia. Qed.

Lemma tab_fun T s c c' : len T <= HALF -> tab T s c -> tab T s c' -> c = c'.
Proof.
  intros Hb (j & Hj & Hs & Hn) (j' & Hj' & Hs' & Hn').
  rewrite wire_small in Hs, Hs' by (unfold RING, HALF in *; lia). assert (j = j') by lia. subst j'. congruence.
Qed.

Definition QmT (T : tbl) (m : pmsg) : Prop := tab T (m_seq m) (m_type m, m_payload m).
Definition QkT (T : tbl) (k : cb) : Prop :=
  match k with Retry _ mseq ty p _ => tab T mseq (ty, p) | Plain _ => True end.
Definition Qm2 S T (m : pmsg) : Prop := QmS S m /\ QmT T m.
Definition Qk2 S T (k : cb) : Prop := QkS S k /\ QkT T k.

Lemma Q2_stamp S T now m : Qm2 S T m -> Qm2 S T (stamp now m).
Proof. intros H. exact H. Qed.

Lemma Q2_cb S T m k : Qm2 S T m -> m_cb m = Some k -> Qk2 S T k.
Proof.
  intros [A B] E. split; [eapply QS_cb; eassumption|].
  destruct k as [i|rid mseq ty p i]; cbn; [exact I|].
  destruct A as [_ A]. rewrite E in A. destruct A as (A1 & A2 & A3 & _). unfold QmT in B. rewrite A1, A2, A3 in B. exact B.
Qed.

Lemma Q2_requeue S T rid mseq ty p i : Qk2 S T (Retry rid mseq ty p i) ->
  Qm2 S T {| m_seq := mseq; m_type := ty; m_payload := p; m_cb := Some (Retry rid mseq ty p i);
             m_retry := RTimeout; m_atime := 0 |}.
Proof. intros [A B]. split; [apply QS_requeue; exact A|exact B]. Qed.

Lemma Qm2_mono S S' T ext m : (forall y, In y S -> In y S') -> Qm2 S T m -> Qm2 S' (T ++ ext) m.
Proof. intros H [A B]. split; [eapply QmS_mono; eassumption|apply tab_mono; exact B]. Qed.

Lemma Qk2_mono S S' T ext k : (forall y, In y S -> In y S') -> Qk2 S T k -> Qk2 S' (T ++ ext) k.
Proof.
  intros H [A B]. split; [eapply QkS_mono; eassumption|]. destruct k; cbn in *; [exact I|apply tab_mono; exact B].
Qed.

Lemma MI2_mono S S' T ext c : (forall y, In y S -> In y S') ->
  MI (Qm2 S T) (Qk2 S T) c -> MI (Qm2 S' (T ++ ext)) (Qk2 S' (T ++ ext)) c.
Proof. intros H. apply MI_impl; intros x; [apply Qm2_mono|apply Qk2_mono]; exact H. Qed.

(* the sender's invariant for the table T (S: what the application passed to send(), as in QmS): everything stored
   agrees with T, and T has one entry per message created, so the next message gets wire (len T + 1) *)
Record TI (S : list (list byte * Z)) (T : tbl) (c : conn) : Prop := {
  ti_mi : MI (Qm2 S T) (Qk2 S T) c;
  ti_seq : c_seq_msg c = seq_of_index (len T);
  ti_sent : c_sent c = len T }.

Lemma TI_mi S T c c' : MI (Qm2 S T) (Qk2 S T) c' -> sm c' = sm c -> TI S T c -> TI S T c'.
Proof. intros HM Hs [A B D]. unfold sm in Hs. injection Hs as H1 H2. constructor; [exact HM|congruence|congruence]. Qed.

Lemma TI_mono S S' T c : (forall y, In y S -> In y S') -> TI S T c -> TI S' T c.
Proof.
  intros H [A B D]. constructor; [|exact B|exact D].
  pose proof (MI2_mono S S' T [] c H A) as HM. rewrite app_nil_r in HM. exact HM.
Qed.

Lemma len_snoc {A} (l : list A) x : len (l ++ [x]) = len l + 1.
Proof. unfold len. rewrite app_length. cbn. lia. Qed.

Lemma send_type_TI S T c ty p r k :
  QmS S (new_msg c ty p r k) -> TI S T c -> TI S (T ++ [(ty, p)]) (send_type c ty p r k).
Proof.
  intros Hq [A B D].
  assert (Hn : 0 <= len T) by (unfold len; lia).
  assert (Hs : seq_succ (c_seq_msg c) = wire (len T + 1)) by (rewrite B; apply seq_succ_index_wire, Hn).
  constructor.
  - apply MI_Stored, send_type_Stored; [|apply MI_Stored].
    + split; [exact Hq|]. unfold QmT, new_msg. cbn [m_seq m_type m_payload]. rewrite Hs. apply tab_new.
    + apply (MI2_mono S S T [(ty, p)] c (fun y H => H) A).
  - unfold send_type. cbn. rewrite len_snoc, B, seq_succ_index by exact Hn. reflexivity.
  - unfold send_type. cbn. rewrite len_snoc, D. reflexivity.
Qed.

(* the table grows at the end, where _send_type creates a message: the ghost of StoredP's family *)
Definition tle (T T' : tbl) : Prop := exists ext, T' = T ++ ext.

Lemma TI_family S : family tbl tle (Qm2 S) (Qk2 S) (TI S).
Proof.
  constructor.
  - intros T. exists []. symmetry. apply app_nil_r.
  - intros a b c (e1 & ->) (e2 & ->). exists (e1 ++ e2). symmetry. apply app_assoc.
  - intros T T' m (ext & ->). apply Qm2_mono. auto.
  - intros T c H. apply MI_Stored, H.
  - intros T c c' H M Hs. eapply TI_mi; [apply MI_Stored, M|exact Hs|exact H].
Qed.

Lemma TI_new S c ty p r k : QmS S (new_msg c ty p r k) -> New tbl tle (TI S) c ty p r k.
Proof. intros Hq T H. exists (T ++ [(ty, p)]). split; [eexists; reflexivity|apply send_type_TI; assumption]. Qed.

Theorem step_TI e S T c x c' o :
  ev_open x -> user_x x -> TI S T c -> step e c x = (c', o) ->
  exists ext, TI (sent_of x ++ S) (T ++ ext) c' /\
              WireQ (Qm2 (sent_of x ++ S) (T ++ ext)) (flat_map dg_of o).
Proof.
  intros Hop Hu H0 E. set (S' := sent_of x ++ S).
  assert (Hmono : forall y, In y S -> In y S') by (intros; apply in_or_app; right; assumption).
  destruct (step_Grow _ _ _ _ _ (TI_family S') (fun c ty p k Ht Hk => TI_new S' c ty p RNone k (QS_sys S' c ty p k Ht Hk))
              (Q2_requeue S') (Q2_stamp S') (Q2_cb S') e c x c' o) with (g := T) as (T' & (ext & ->) & H' & W');
    [|exact E|exact (TI_mono S S' T c Hmono H0)|].
  - destruct x; cbn [ev_new ev_open user_x] in *; try exact I; [|destruct Hop].
    destruct (_ >? _); [intros; apply TI_new, QS_frag|]. apply TI_new, QS_send; [exact Hu|]. intros id ->. left. reflexivity.
  - exists ext. split; [exact H'|apply wire_ok_WireQ, W'].
Qed.

Definition tabw (T : tbl) (w : wmsg) : Prop := tab T (w_seq w) (content w).

(* some table is A's (TI), and every message on the wire and every record of B's message ghost agrees with it *)
Definition TInv (M : mnet) : Prop :=
  exists T, TI (m_sent M) T (nA (g_net (m_g M))) /\
    (forall i d, In (i, d) (g_AB (m_g M)) -> forall w, In w (dg_msgs d) -> tabw T w) /\
    (forall j c, In (j, c) (snd (m_st M)) -> tab T j c).

Lemma TInv_mnet0 : TInv mnet0.
Proof.
  exists []. split; [|split].
  - constructor; cbn; [constructor; constructor|reflexivity|reflexivity].
  - intros i d [].
  - intros j c [].
Qed.

(* B's labels are the wire numbers themselves *)
Definition lab_ok (M : mnet) (vj : lev3) : Prop :=
  match fst (fst vj) with
  | NB x => forall d, accepts (nB (g_net (m_g M))) x = Some d -> snd vj = map w_seq (dg_msgs d)
  | NA _ => True
  end.

Lemma mrec_tab T st w : tabw T w -> (forall j c, In (j, c) (snd st) -> tab T j c) ->
  forall j c, In (j, c) (snd (mrec st (w, w_seq w))) -> tab T j c.
Proof.
  intros Hw Hst j c. unfold mrec. cbn [fst snd]. destruct (w_dup 256 (fst st) (w_seq w)); [apply Hst|].
  intros [H|H]; [|exact (Hst j c H)]. injection H as <- <-. exact Hw.
Qed.

Lemma fold_mrec_tab T ws : forall st, (forall w, In w ws -> tabw T w) -> (forall j c, In (j, c) (snd st) -> tab T j c) ->
  forall j c, In (j, c) (snd (fold_left mrec (combine ws (map w_seq ws)) st)) -> tab T j c.
Proof.
  induction ws as [|w r IH]; intros st Hw Hst; cbn [map combine fold_left]; [exact Hst|].
  apply IH; [intros w' H'; apply Hw; right; exact H'|]. apply mrec_tab; [apply Hw; left; reflexivity|exact Hst].
Qed.

Theorem TInv_step e M vj : TInv M -> wf3_ev e M vj -> lab_ok M vj -> TInv (mstep e M vj).
Proof.
  intros (T & HT & HWire & HD) Hwf0 Hlab. pose proof Hwf0 as [Hwf2 Hwf].
  destruct vj as [[v l] js]. unfold msg_ev, lab_ok in *. cbn [fst snd] in *. destruct v as [x|x].
  - destruct Hwf2 as [Hop _]. apply ev_open2_eq in Hop.
    unfold mstep, TInv. cbn [fst snd gstep m_g m_sent m_st].
    destruct (step e (nA (g_net (m_g M))) x) as [a' o] eqn:E.
    destruct (step_TI _ _ _ _ _ _ _ Hop Hwf HT E) as (ext & HT' & HW').
    exists (T ++ ext). cbn [m_g m_sent m_st g_net g_AB nstep]. rewrite ?E. cbn [nA].
    split; [exact HT'|]. split.
    + intros i d Hin w Hw. apply in_app_or in Hin as [Hin|Hin].
      * apply tab_mono. exact (HWire i d Hin w Hw).
      * apply in_map_iff in Hin as (d0 & Hd0 & Hin). injection Hd0 as _ <-.
        destruct (HW' d0 Hin w Hw) as (m & [_ Hm] & <-). exact Hm.
    + intros j c Hin. apply tab_mono. exact (HD j c Hin).
  - unfold mstep, TInv. cbn [fst snd gstep m_g m_sent m_st].
    destruct (step e (nB (g_net (m_g M))) x) as [b' o] eqn:E.
    exists T. cbn [m_g m_sent m_st g_net g_AB nstep]. rewrite ?E. cbn [nA].
    split; [exact HT|]. split; [exact HWire|].
    destruct (accepts (nB (g_net (m_g M))) x) as [d|] eqn:Ea; [|exact HD].
    rewrite (Hlab d eq_refl). apply fold_mrec_tab; [|exact HD].
    destruct (accepts_opens _ _ _ Ea) as [Hd Ho]. destruct (Hwf2 d Hd Ho) as [Hin _].
    exact (HWire l d Hin).
Qed.

Definition newest_in (st : wstate) : Prop := match st with Some (m, acc) => In m acc | None => True end.

Lemma newest_in_next st n : newest_in st -> newest_in (w_next 256 st n).
Proof.
  destruct st as [[m acc]|]; cbn [newest_in w_next]; [|intros _; left; reflexivity].
  intros H. destruct (spec_dup 256 m acc n) eqn:Hd.
  - assert (n <= m) by (unfold spec_dup in Hd; lia). replace (Z.max m n) with m by lia. exact H.
  - destruct (Z.max_spec m n) as [[_ ->]|[_ ->]]; [left; reflexivity|right; exact H].
Qed.

Lemma mwf_short T ws : len T <= HALF -> forall st,
  (forall w, In w ws -> tabw T w) -> (forall j c, In (j, c) (snd st) -> tab T j c) -> recorded st -> newest_in (fst st) ->
  mwf st (combine ws (map w_seq ws)).
Proof.
  intros Hb. induction ws as [|w r IH]; intros st Hw Hst Hrec Hnew; cbn [map combine mwf]; [exact I|].
  cbn [fst snd]. pose proof (Hw w (or_introl eq_refl)) as Hww. unfold tabw in Hww.
  pose proof (tab_range _ _ _ Hb Hww) as Hr.
  split; [rewrite wire_small by (unfold RING, HALF in *; lia); reflexivity|].
  split; [|split].
  - split; [lia|]. destruct (fst st) as [[m acc]|] eqn:Es; [|exact I].
    cbn in Hnew. assert (Hm : In m (wacc (fst st))) by (rewrite Es; exact Hnew).
    destruct (Hrec m Hm) as (c0 & Hc0). pose proof (tab_range _ _ _ Hb (Hst _ _ Hc0)). unfold HALF in *. lia.
  - intros c0 Hc0. exact (tab_fun _ _ _ _ Hb (Hst _ _ Hc0) Hww).
  - apply IH.
    + intros w' H'. apply Hw. right. exact H'.
    + apply mrec_tab; assumption.
    + apply recorded_mrec. exact Hrec.
    + apply newest_in_next. exact Hnew.
Qed.

(* short sessions: (auth) only at datagram level, at most HALF + 1 datagrams and HALF messages of A,
   user callbacks (payloads of any size), B's labels are the wire numbers, no exception while processing a
   datagram that carries a handshake message *)
Definition short3_ev (e : env) (M : mnet) (vj : lev3) : Prop :=
  auth_ev (m_g M) (fst vj) /\ g_nA (m_g M) <= HALF + 1 /\ c_sent (nA (g_net (m_g M))) <= HALF /\
  match fst (fst vj) with
  | NA x => user_x x
  | NB x => forall d, accepts (nB (g_net (m_g M))) x = Some d ->
              snd vj = map w_seq (dg_msgs d) /\
              (has_hs (dg_msgs d) = true -> raised (snd (step e (nB (g_net (m_g M))) x)) = false)
  end.

Fixpoint short3_run (e : env) (M : mnet) (vs : list lev3) : Prop :=
  match vs with
  | [] => True
  | v :: r => short3_ev e M v /\ short3_run e (mstep e M v) r
  end.

Lemma short3_wf3_ev e S K M vj : J3 S K M -> TInv M -> short3_ev e M vj -> wf3_ev e M vj /\ lab_ok M vj.
Proof.
  intros [HJ _ _ [HW Hrec _ _]] (T & HT & HWire & HD) (Ha & Hn & Hs & Hm).
  pose proof (auth_wf2_ev _ _ _ _ HJ Hn Ha) as Hwf2.
  destruct vj as [[v l] js]. unfold wf3_ev, wf3x_ev, msg_ev, lab_ok. cbn [fst snd] in *.
  destruct v as [x|x]; [split; [split; [exact Hwf2|exact Hm]|exact I]|].
  split; [split; [exact Hwf2|]|intros d Hd; exact (proj1 (Hm d Hd))].
  intros d Hd. destruct (Hm d Hd) as [-> Hnr]. split; [rewrite map_length; reflexivity|]. split; [|intros _ Hh; exact (Hnr Hh)].
  destruct (accepts_opens _ _ _ Hd) as [Hdi Ho]. destruct (Hwf2 d Hdi Ho) as [Hin _].
  assert (Hb : len T <= HALF) by (destruct HT as [_ _ D]; lia).
  apply (mwf_short T); auto.
  - exact (HWire l d Hin).
  - destruct (fst (m_st M)) as [[m acc]|] eqn:Es; [|exact I]. cbn [W] in HW. destruct HW as [HR _].
    cbn. apply InB_In. apply (R_in _ _ _ HR).
Qed.

Lemma short3_run_all e S K vs : forall M, 0 <= e_max_payload e -> J3 S K M -> TInv M -> short3_run e M vs ->
  wf3_run e M vs /\ J3 S K (mrun e M vs) /\ TInv (mrun e M vs).
Proof.
  induction vs as [|v r IH]; intros M He HJ HT Hs; cbn [short3_run mrun fold_left] in *; [split; [exact I|auto]|].
  destruct Hs as [H1 H2]. destruct (short3_wf3_ev _ _ _ _ _ HJ HT H1) as [W1 L1].
  destruct (IH (mstep e M v) He) as (A & B); [apply J3_step; assumption| |exact H2|split; [split|]; assumption].
  eapply TInv_step; eassumption.
Qed.

Theorem short_success_means_delivered e S K M vs x l js a' o id :
  0 <= e_max_payload e -> J3 S K M -> PFInv e M -> TInv M -> short3_run e M (vs ++ [((NA x, l), js)]) ->
  let M' := mrun e M vs in
  step e (nA (g_net (m_g M'))) x = (a', o) -> In (OCallback id true) o ->
  big_id e (m_sent M') id \/ delivered_as M' id.
Proof.
  intros He HJ HPF HT Hs. apply (success_means_delivered e S K M vs x l js a' o id He HJ HPF).
  eapply short3_run_all; eassumption.
Qed.

(* every message of every datagram A has put on the wire
   carries the (type, payload) of the message A created with that sequence number; while A has
   created at most HALF messages equal numbers mean equal messages *)
Theorem retransmission_same M i d w i' d' w' :
  TInv M -> c_sent (nA (g_net (m_g M))) <= HALF ->
  In (i, d) (g_AB (m_g M)) -> In w (dg_msgs d) -> In (i', d') (g_AB (m_g M)) -> In w' (dg_msgs d') ->
  w_seq w = w_seq w' -> w_type w = w_type w' /\ w_payload w = w_payload w'.
Proof.
  intros (T & [_ _ D] & HWire & _) Hs H1 H2 H3 H4 Heq.
  pose proof (HWire _ _ H1 _ H2) as A. pose proof (HWire _ _ H3 _ H4) as B. unfold tabw in *. rewrite Heq in A.
  assert (Hb : len T <= HALF) by lia. pose proof (tab_fun _ _ _ _ Hb A B) as Hc. unfold content in Hc.
  injection Hc as H5 H6. auto.
Qed.
