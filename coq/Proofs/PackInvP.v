(* An invariant of every reachable connection state under which packet
   construction cannot raise: queued messages carry 16-bit sequence numbers and real packet
   types, and so do the messages a RetrySender would re-queue.  Preserved by every event.

   It is the stored-message invariant (StoredP) for pmsg_ok / cb_ok together with the range of the
   message counter, which only _send_type moves: an instance of StoredP's family with nothing for a
   ghost. *)
From Coq Require Import Lia.
From Model Require Import Base SeqNum Wire Conn PackEnv.
From Proofs Require Import SeqNumP WireP PackP C09P ConnFrameP AssemblyP StoredP.
Open Scope Z_scope.

Definition seq16 (z : Z) : Prop := 0 <= z <= RING.
Definition cb_ok (k : cb) : Prop :=
  match k with Plain _ => True | Retry _ mseq ty _ _ => seq16 mseq /\ ty <> UNKNOWN end.
Definition ocb_ok (o : option cb) : Prop := match o with Some k => cb_ok k | None => True end.
Definition pmsg_ok (m : pmsg) : Prop := seq16 (m_seq m) /\ m_type m <> UNKNOWN /\ ocb_ok (m_cb m).

Definition qv (c : conn) := (c_outgoing c, c_pretry_msg c, c_pcbs c, c_seq_msg c).
Definition qv_ok (q : list pmsg * list (Z * pmsg) * list (Z * list cb) * Z) : Prop :=
  let '(o, r, p, s) := q in
  Forall pmsg_ok o /\ Forall (fun x => pmsg_ok (snd x)) r /\ Forall (fun x => Forall cb_ok (snd x)) p /\ seq16 s.
Definition conn_ok (c : conn) : Prop := qv_ok (qv c).

Lemma conn0_ok b : conn_ok (conn0 b).
Proof. unfold conn_ok, qv, qv_ok, seq16, RING. cbn. repeat split; try constructor; lia. Qed.

Lemma conn_ok_no_unknown c : conn_ok c -> no_unknown c.
Proof.
  intros (Ho & Hr & _ & _) m [H|H].
  - rewrite Forall_forall in Ho. apply (Ho m H).
  - apply in_map_iff in H as (x & <- & Hx). rewrite Forall_forall in Hr. apply (Hr x Hx).
Qed.

Lemma conn_ok_Stored c : conn_ok c <-> Stored pmsg_ok cb_ok c /\ seq16 (c_seq_msg c).
Proof.
  split.
  - intros (A & B & D & S). split; [constructor; [exact A|exact B|exact D]|exact S].
  - intros [[A B D] S]. exact (conj A (conj B (conj D S))).
Qed.

Lemma mk_cb_ok r k rid mseq ty p : seq16 mseq -> ty <> UNKNOWN -> ocb_ok (mk_cb r k rid mseq ty p).
Proof. intros. unfold mk_cb. destruct r; [destruct k; exact I|destruct k; exact I|split; assumption]. Qed.

Lemma new_msg_ok c ty p r k : seq16 (c_seq_msg c) -> ty <> UNKNOWN ->
  pmsg_ok (new_msg c ty p r k) /\ seq16 (c_seq_msg (send_type c ty p r k)).
Proof.
  intros Hs Hty.
  assert (Hq : seq16 (seq_succ (c_seq_msg c))) by (pose proof (seq_succ_range (c_seq_msg c) Hs); unfold seq16; lia).
  split; [|exact Hq]. split; [exact Hq|]. split; [exact Hty|]. apply mk_cb_ok; assumption.
Qed.

Lemma ok_family : family unit fixed (fun _ => pmsg_ok) (fun _ => cb_ok) (fun _ => conn_ok).
Proof.
  constructor; unfold fixed; auto.
  - intros _ c H. apply conn_ok_Stored, H.
  - intros _ c c' H M Hs. apply conn_ok_Stored. split; [exact M|]. unfold sm in Hs. injection Hs as -> _.
    exact (proj2 (proj1 (conn_ok_Stored c) H)).
Qed.

Lemma ok_new c ty p r k : ty <> UNKNOWN -> New unit fixed (fun _ => conn_ok) c ty p r k.
Proof.
  intros Hty g H. exists tt. split; [exact I|]. apply conn_ok_Stored in H as [M S]. apply conn_ok_Stored.
  destruct (new_msg_ok c ty p r k S Hty) as [Hm Hs]. split; [apply send_type_Stored; assumption|exact Hs].
Qed.

(* a RetrySender whose datagram timed out puts its message back into the queue *)
Lemma ok_requeue rid mseq ty p i : cb_ok (Retry rid mseq ty p i) ->
  pmsg_ok {| m_seq := mseq; m_type := ty; m_payload := p; m_cb := Some (Retry rid mseq ty p i);
             m_retry := RTimeout; m_atime := 0 |}.
Proof. intros [H1 H2]. split; [exact H1|]. split; [exact H2|]. split; assumption. Qed.

Lemma ok_stamp now m : pmsg_ok m -> pmsg_ok (stamp now m).
Proof. exact id. Qed.

Lemma ok_cb m k : pmsg_ok m -> m_cb m = Some k -> cb_ok k.
Proof. intros (_ & _ & H) Hk. rewrite Hk in H. exact H. Qed.

Theorem step_ok e c x c' o : step e c x = (c', o) -> conn_ok c -> conn_ok c'.
Proof.
  intros E H.
  destruct (step_Grow _ _ _ _ _ ok_family (fun c ty p k Ht _ => ok_new c ty p RNone k (hs_known ty Ht))
              (fun _ => ok_requeue) (fun _ => ok_stamp) (fun _ => ok_cb) e c x c' o) with (g := tt) as (_ & _ & H' & _);
    [|exact E|exact H|exact H'].
  destruct x; try exact I; cbn [ev_new]; [destruct (_ >? _)|]; intros; apply ok_new; discriminate.
Qed.

Theorem run_ok e xs c : conn_ok c -> conn_ok (fst (run e c xs)).
Proof.
  intros H. destruct (run e c xs) as [c' os] eqn:E.
  refine (proj1 (run_inv conn_ok (fun _ => True) e _ xs c c' os H E)).
  intros c0 x c1 o H0 E0. split; [exact (step_ok _ _ _ _ _ E0 H0)|exact I].
Qed.

Theorem pack_never_raises_proof e c now ka delay c' pk cx :
  conn_ok c -> e_max_payload e + 2 < 2 ^ 16 ->
  build_impl e c now ka delay = (c', Some pk) ->
  exists p, emit cx pk = [OEmit (emit_header (fst pk) p) (rx_key (c_key cx) (h_type (fst pk))) p]
            /\ encode_msgs (map wmsg_of (snd pk)) = Ok p /\ len p = payload_size (snd pk) /\ len p < 2 ^ 16
            /\ h_count (fst pk) = len (snd pk) /\ len (snd pk) <= 255.
Proof.
  intros H He E. destruct pk as [h0 ms]. cbn [fst snd].
  assert (Hms : Forall pmsg_ok ms).
  { destruct (build_impl_built _ _ _ _ _ _ _ E) as (msgs & B). destruct (bs_res _ _ _ _ _ B) as (-> & _).
    destruct (built_Stored _ _ ok_stamp ok_cb _ _ _ _ _ B (proj1 (proj1 (conn_ok_Stored c) H))) as [_ F].
    apply Forall_forall. intros m Hm. apply in_map_iff in Hm as (m0 & <- & Hm0). rewrite Forall_forall in F. exact (F m0 Hm0). }
  destruct (build_impl_size _ _ _ _ _ _ _ _ E) as (Hn & Hc & Hs).
  assert (Hps : wsize (map wmsg_of ms) < 2 ^ 16).
  { rewrite wsize_payload_size. destruct ms as [|m0 ms']; [cbn; lia|]. specialize (Hs ltac:(discriminate)). lia. }
  assert (Hw : Forall wmsg_ok (map wmsg_of ms)).
  { apply wmsg_ok_of_size; [|exact Hps]. apply Forall_forall. intros w Hw. apply in_map_iff in Hw as (m & <- & Hm).
    rewrite Forall_forall in Hms. destruct (Hms m Hm) as (Hs1 & _). unfold seq16, RING in Hs1. cbn [wmsg_of w_seq]. lia. }
  destruct (encode_msgs_total _ Hw) as (p & Ep & Lp). rewrite <- Lp in Hps. rewrite wsize_payload_size in Lp.
  exists p. split; [apply emit_ok, Ep|repeat split; assumption].
Qed.

Section EndToEnd.
  Variable crc : list byte -> Z.
  Variable seal : Z -> list byte -> list byte -> list byte -> list byte.
  Variable open : Z -> list byte -> list byte -> list byte -> option (list byte).
  Hypothesis crc_range : forall l, 0 <= crc l < 2 ^ 32.
  Hypothesis open_seal : forall k iv aad p, open k iv aad (seal k iv aad p) = Some p.
  Hypothesis seal_length : forall k iv aad p, length (seal k iv aad p) = (length p + 16)%nat.

  (* end to end: on a reachable state, for every supported MTU, the packet that packet assembly
     builds is encoded without error into at most mtu-28 bytes, and the peer's decoder gets back
     exactly the queued messages that were put into it *)
  Theorem built_packet_bytes mtu e c now ka delay c' h0 ms key extra :
    64 <= mtu <= 65535 -> env_of_mtu mtu = Ok e -> conn_ok c ->
    build_impl e c now ka delay = (c', Some (h0, ms)) ->
    hdr_fields_ok h0 ->
    exists d payload,
      to_bytes crc seal key h0 (map wmsg_of ms) = Ok d
      /\ len d <= max_dgram mtu
      /\ decode_header (h_to_server h0) (d ++ extra) = Ok (built_header h0 (map wmsg_of ms) payload)
      /\ from_bytes crc open (rx_key key (h_type h0)) (built_header h0 (map wmsg_of ms) payload) (d ++ extra)
         = Ok (map wmsg_of ms).
  Proof.
    intros Hm He H E Hf.
    assert (He2 : e_max_payload e + 2 < 2 ^ 16).
    { rewrite env_of_mtu_spec in He. injection He as <-. cbn [env_spec e_max_payload]. lia. }
    destruct (pack_never_raises_proof e c now ka delay c' (h0, ms) c H He2 E) as (p & _ & Ep & Lp & Lp2 & Hc & Hn).
    cbn [fst snd] in *.
    destruct (encode_msgs_inv _ _ Ep) as [Hs Lw].
    assert (Hok : enc_ok h0 (map wmsg_of ms)).
    { split; [exact Hf|]. split; [rewrite len_map; exact Hn|]. split; [exact Hs|]. rewrite <- Lw. exact Lp2. }
    assert (Ht : forall m, map wmsg_of ms = [m] -> w_type m = h_type h0).
    { intros m Hm1. pose proof (build_impl_type _ _ _ _ _ _ _ _ E) as Hty.
      destruct ms as [|m0 [|m1 r]]; try discriminate. injection Hm1 as <-. rewrite Hty. reflexivity. }
    destruct (pkt_roundtrip_proof crc seal open crc_range open_seal seal_length key h0 _ extra Hok Ht)
      as (d & payload & Ed & Ep' & _ & Ld & Dh & Fb).
    rewrite Ep in Ep'. injection Ep' as <-.
    exists d, p. split; [exact Ed|]. split; [|split; [exact Dh|exact Fb]].
    rewrite Ld, Lp, max_dgram_eq. pose proof (built_payload_bound _ _ _ _ _ _ _ _ _ (proj1 Hm) He E).
    destruct (rx_key key (h_type h0)); lia.
  Qed.
End EndToEnd.
