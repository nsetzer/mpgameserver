(* Two endpoints: for unfragmented traffic, under ANY schedule of loss,
   duplication, reordering, delay, replay and injection, every payload handed to B's application is
   byte-identical to a payload A's application passed to send().  (C06's "nothing is fabricated",
   composing the sender-side queue invariant, the codec round trip and the receiver.) *)
From Coq Require Import Lia.
From Model Require Import Base SeqNum Wire Conn Net Net2 Net3.
From Proofs Require Import ConnFrameP AssemblyP StoredP QueueP CustodyP MsgRecvP.
Open Scope Z_scope.

(* QueueP's P for a set S of payloads: an APP message carries a payload of S; there are no fragments *)
Definition PS (S : list (list byte)) (ty : ptype) (p : list byte) : Prop :=
  match ty with APP => In p S | APP_FRAGMENT => False | _ => True end.

Lemma PS_other S ty p : ty <> APP -> ty <> APP_FRAGMENT -> PS S ty p.
Proof. intros H1 H2. destruct ty; cbn; auto; contradiction. Qed.

Lemma PS_mono S S' ty p : (forall x, In x S -> In x S') -> PS S ty p -> PS S' ty p.
Proof. intros H. destruct ty; cbn; auto. Qed.

Lemma cbP_mono S S' k : (forall x, In x S -> In x S') -> cbP (PS S) k -> cbP (PS S') k.
Proof. intros H. apply cbP_impl. intros ty p. apply PS_mono, H. Qed.

Lemma msgP_mono S S' m : (forall x, In x S -> In x S') -> msgP (PS S) m -> msgP (PS S') m.
Proof. intros H. apply msgP_impl. intros ty p. apply PS_mono, H. Qed.

Lemma QI_mono S S' c : (forall x, In x S -> In x S') -> QI (PS S) c -> QI (PS S') c.
Proof. intros H. apply QI_impl. intros ty p. apply PS_mono, H. Qed.

Lemma PS_closed S : closed (msgP (PS S)) (cbP (PS S)).
Proof. apply msgP_closed. intros ty p H. apply PS_other; intros ->; discriminate. Qed.

Lemma disconnect_NQ S c k : NU c -> QI (PS S) c -> NU (disconnect c k) /\ QI (PS S) (disconnect c k).
Proof.
  rewrite !NU_Stored, !QI_Stored. intros HU HQ.
  split; apply disconnect_Stored; try assumption; intros c0; [apply msg_ok_new; discriminate|apply msgP_new; exact I].
Qed.

Lemma recv_NU c now d orcs c' o : NU c -> recv c now d orcs = (c', o) -> NU c'.
Proof. rewrite !NU_Stored. intros H E. exact (recv_Stored _ _ msg_ok_closed _ _ _ _ _ _ E H). Qed.

Definition DW (S : list (list byte)) (d : dgram) : Prop :=
  exists ms pl, ((exists k, d_body d = Sealed k (d_hdr d) pl) \/ d_body d = Clear pl) /\
    encode_msgs (map wmsg_of ms) = Ok pl /\ h_count (d_hdr d) = len ms /\
    (forall m, ms = [m] -> m_type m = h_type (d_hdr d)) /\ Forall (msgP (PS S)) ms.

Lemma DW_carries S d : DW S d <-> exists ms, carries d ms /\ Forall (msgP (PS S)) ms.
Proof.
  split.
  - intros (ms & pl & A & B & C & D & F). exists ms. split; [exists pl; auto|exact F].
  - intros (ms & (pl & A & B & C & D) & F). exists ms, pl. auto.
Qed.

Lemma DW_mono S S' d : (forall x, In x S -> In x S') -> DW S d -> DW S' d.
Proof.
  intros H. rewrite !DW_carries. intros (ms & C & F). exists ms. split; [exact C|].
  eapply Forall_impl; [|exact F]. intros m. apply msgP_mono, H.
Qed.

Lemma build_impl_head e c now ka delay c' h ms :
  build_impl e c now ka delay = (c', Some (h, ms)) ->
  h_count h = len ms /\ (forall m, ms = [m] -> m_type m = h_type h).
Proof. intros E. apply build_impl_built in E as (msgs & B). destruct (bs_res _ _ _ _ _ B) as (_ & Hc & Ht & _). auto. Qed.

Lemma emit_DW S c h ms : h_count h = len ms -> (forall m, ms = [m] -> m_type m = h_type h) -> Forall (msgP (PS S)) ms ->
  Forall (DW S) (flat_map dg_of (emit c (h, ms))).
Proof.
  intros Hc Ht HF. eapply Forall_impl; [|apply emit_carries; assumption].
  intros d Hd. apply DW_carries. exists ms. auto.
Qed.

Lemma no_emit_dg o : no_emit o -> flat_map dg_of o = [].
Proof. apply dg_no_emit. Qed.

Lemma flat_dg_app a b : flat_map dg_of (a ++ b) = flat_map dg_of a ++ flat_map dg_of b.
Proof. apply flat_map_app. Qed.

Definition ev_small (e : env) (x : ev) : Prop := match x with ESend p _ _ => len p <= e_max_payload e | _ => True end.
Definition ev_sent (S : list (list byte)) (x : ev) : Prop := match x with ESend p _ _ => In p S | _ => True end.

Lemma tick_tail_NQ strict S e c now c1 pk c2 o2 :
  NU c -> QI (PS S) c -> build_packet e c now = (c1, pk) -> check_timeout strict c1 now = (c2, o2) ->
  NU c2 /\ QI (PS S) c2 /\ forall cx, Forall (DW S) (flat_map dg_of (match pk with Some p => emit cx p | None => [] end)).
Proof.
  rewrite !NU_Stored, !QI_Stored. intros HU HQ E1 E2.
  destruct msg_ok_closed as [Ur _ Us Uc]. destruct (PS_closed S) as [Qr _ Qs Qc].
  destruct (build_packet_Stored _ _ Us Uc _ _ _ _ _ E1 HU) as [U1 _].
  destruct (build_packet_Stored _ _ Qs Qc _ _ _ _ _ E1 HQ) as [Q1 W].
  split; [exact (timeout_loop_Stored _ _ Ur _ _ _ _ _ _ E2 U1)|]. split; [exact (timeout_loop_Stored _ _ Qr _ _ _ _ _ _ E2 Q1)|].
  intros cx. eapply Forall_impl; [|apply W]. intros d. apply DW_carries.
Qed.

Theorem step_NQ S e c x c' o :
  NU c -> QI (PS S) c -> ev_small e x -> ev_sent S x -> step e c x = (c', o) ->
  NU c' /\ QI (PS S) c' /\ Forall (DW S) (flat_map dg_of o).
Proof.
  intros HU HQ Hsm Hse E. split; [eapply step_NU; eassumption|]. apply QI_Stored in HQ.
  destruct (step_Stored _ _ (PS_closed S) e c x c' o) as [Q' W']; [|exact E|exact HQ|].
  - destruct x; cbn [ev_creates ev_small ev_sent] in *; try exact I.
    + assert (len p >? e_max_payload e = false) as -> by lia. apply msgP_new, Hse.
    + intros c0. apply msgP_new. exact I.
  - split; [apply QI_Stored, Q'|]. eapply Forall_impl; [|exact W']. intros d. apply DW_carries.
Qed.

Definition inS (S : list (list byte)) (x : Z * list byte) : Prop := In (snd x) S.
Definition wP (S : list (list byte)) (w : wmsg) : Prop := PS S (w_type w) (w_payload w).

Lemma open_DW S key d ws : DW S d -> open_dgram key d = Ok ws -> Forall (wP S) ws.
Proof.
  intros HD Ho. apply DW_carries in HD as (ms & C & F). apply open_dg_msgs in Ho.
  rewrite <- Ho, (carries_dg_msgs _ _ C). apply Forall_forall. intros w Hw.
  apply in_map_iff in Hw as (m & <- & Hm). rewrite Forall_forall in F. exact (proj1 (F m Hm)).
Qed.

Lemma recv_msgs_incoming S ws : forall c now orcs c' o,
  Forall (wP S) ws -> Forall (inS S) (c_incoming c) -> recv_msgs c now ws orcs = (c', o) -> Forall (inS S) (c_incoming c').
Proof.
  intros c now orcs c' o HW HI E. destruct (recv_msgs_appended _ _ _ _ _ _ E) as (extra & -> & Hex).
  apply Forall_app. split; [exact HI|]. eapply Forall_impl; [|exact Hex]. intros y (w & Hw & Hy).
  rewrite Forall_forall in HW. specialize (HW w Hw). unfold wP in HW.
  destruct Hy as [[Ht ->]|Ht]; rewrite Ht in HW; [exact HW|destruct HW].
Qed.

(* what an endpoint opens: under its key what the hypothesis says; without a key one hello *)
Lemma opened_wP S c d : opens c d = true ->
  (c_key c <> None -> forall ws, open_dgram (c_key c) d = Ok ws -> Forall (wP S) ws) -> Forall (wP S) (dg_msgs d).
Proof.
  intros Ho Hopen. destruct (c_key c) as [k|] eqn:Ek.
  - unfold opens in Ho. apply andb_prop in Ho as [_ Ho]. rewrite Ek in Ho.
    destruct (open_dgram (Some k) d) as [ws|] eqn:Eo; [|discriminate]. rewrite (open_dg_msgs _ _ _ Eo). apply Hopen; [discriminate|reflexivity].
  - eapply Forall_impl; [|exact (keyless_opens_hello _ _ Ek Ho)]. intros w Hw. cbv beta in Hw.
    apply PS_other; intros Et; rewrite Et in Hw; discriminate.
Qed.

Lemma recv_incoming S c now d orcs c' o :
  (c_key c <> None -> forall ws, open_dgram (c_key c) d = Ok ws -> Forall (wP S) ws) ->
  Forall (inS S) (c_incoming c) -> recv c now d orcs = (c', o) -> Forall (inS S) (c_incoming c').
Proof.
  intros Hopen HI E. apply recv_inbox in E. destruct (opens c d && _) eqn:Eg.
  - destruct E as (c1 & o2 & K & Em & _). injection K as _ I1. apply andb_prop in Eg as [Ho _].
    eapply recv_msgs_incoming; [exact (opened_wP S c d Ho Hopen)|rewrite I1; exact HI|exact Em].
  - injection E as _ I. rewrite I. exact HI.
Qed.

Lemma build_packet_incoming e c now c' r : build_packet e c now = (c', r) -> c_incoming c' = c_incoming c.
Proof. intros E. exact (wr_keeps W_build c_incoming (fun _ _ => eq_refl) (build_packet_wr E)). Qed.

Lemma step_incoming S e c x c' o :
  (forall d ws, dgram_in x = Some d -> c_key c <> None -> open_dgram (c_key c) d = Ok ws -> Forall (wP S) ws) ->
  Forall (inS S) (c_incoming c) -> step e c x = (c', o) -> Forall (inS S) (c_incoming c').
Proof.
  intros Hd HI E. apply step_inbox in E. destruct (accepts c x) as [d|] eqn:Ea.
  - destruct E as (c1 & now & orcs & c2 & o2 & K1 & Em & _ & K2). injection K1 as _ I1. injection K2 as _ I2. rewrite I2.
    destruct (accepts_opens _ _ _ Ea) as [Hdi Ho].
    eapply recv_msgs_incoming; [apply (opened_wP S c d Ho); intros Hk ws; exact (Hd d ws Hdi Hk)|rewrite I1; exact HI|exact Em].
  - destruct E as [_ [->| ->]]; [exact HI|constructor].
Qed.

(* the joint invariant: A holds no UNKNOWN message and only payloads its application sent (PS over sentA), everything on
   the wire encodes such messages, and what B holds or has handed to its application are such payloads *)
Record NI (n : net) : Prop := {
  ni_nu : NU (nA n);
  ni_qi : QI (PS (sentA n)) (nA n);
  ni_wire : Forall (DW (sentA n)) (wAB n);
  ni_inc : Forall (inS (sentA n)) (c_incoming (nB n));
  ni_dlv : Forall (fun p => In p (sentA n)) (dlvB n) }.

Lemma NI_net0 : NI net0.
Proof. constructor; cbn; constructor; constructor. Qed.

Lemma skipn_incl {A} n (l : list A) x : In x (skipn n l) -> In x l.
Proof. intros H. rewrite <- (firstn_skipn n l). apply in_or_app. right. exact H. Qed.

Theorem NI_step e n v : NI n -> wf_ev n v -> small_ev e v -> NI (nstep e n v).
Proof.
  intros [HU HQ HW HI HD] Hwf Hsm. destruct v as [x|x]; cbn [nstep].
  - (* A moves *)
    destruct (step e (nA n) x) as [a' o] eqn:E.
    set (S' := match x with ESend p _ _ => p :: sentA n | _ => sentA n end).
    assert (Hmono : forall y, In y (sentA n) -> In y S') by (intros y Hy; subst S'; destruct x; try exact Hy; right; exact Hy).
    assert (Hsent : ev_sent S' x) by (subst S'; destruct x; cbn; auto).
    assert (Hsmall : ev_small e x) by (destruct x; exact Hsm || exact I).
    destruct (step_NQ S' e (nA n) x a' o HU (QI_mono _ _ _ Hmono HQ) Hsmall Hsent E) as (U' & Q' & F').
    constructor; cbn.
    + exact U'.
    + exact Q'.
    + apply Forall_app. split; [eapply Forall_impl; [|exact HW]; intros d; apply DW_mono; exact Hmono|exact F'].
    + eapply Forall_impl; [|exact HI]. intros y Hy. apply Hmono. exact Hy.
    + eapply Forall_impl; [|exact HD]. intros y Hy. apply Hmono. exact Hy.
  - (* B moves *)
    destruct (step e (nB n) x) as [b' o] eqn:E.
    assert (HI' : Forall (inS (sentA n)) (c_incoming b')).
    { eapply step_incoming; [|exact HI|exact E].
      intros d ws Hd Hk Ho.
      (* a datagram B can open under its key was emitted by A (schedule hypothesis) and so satisfies DW *)
      cbn [wf_ev] in Hwf. pose proof (Hwf d ws Hd Hk Ho) as Hin.
      rewrite Forall_forall in HW. eapply open_DW; [apply HW; exact Hin|exact Ho]. }
    constructor; cbn; auto.
    apply Forall_app. split; [exact HD|].
    assert (HN : Forall (fun p => In p (sentA n)) (new_incoming (c_incoming (nB n)) (c_incoming b'))).
    { apply Forall_forall; intros p Hp; unfold new_incoming in Hp; apply in_map_iff in Hp as (y & <- & Hy);
      apply skipn_incl in Hy; rewrite Forall_forall in HI'; exact (HI' y Hy). }
    destruct x; first [exact HN | constructor].
Qed.

Theorem NI_run e vs : forall n, NI n -> wf_run e n vs -> NI (nrun e n vs).
Proof.
  induction vs as [|v r IH]; intros n H Hwf; cbn [nrun fold_left]; [exact H|].
  destruct Hwf as (W1 & W2 & W3). apply IH; [apply NI_step; assumption|exact W3].
Qed.

Theorem NI_delivered e vs n :
  NI n -> wf_run e n vs -> forall p, In p (dlvB (nrun e n vs)) -> In p (sentA (nrun e n vs)).
Proof.
  intros H Hwf p Hp. pose proof (NI_run e vs n H Hwf) as [_ _ _ _ HD].
  rewrite Forall_forall in HD. exact (HD p Hp).
Qed.

Theorem delivered_was_sent e vs :
  wf_run e net0 vs -> forall p, In p (dlvB (nrun e net0 vs)) -> In p (sentA (nrun e net0 vs)).
Proof. apply NI_delivered, NI_net0. Qed.
