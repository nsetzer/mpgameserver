(* Bytes as numbers and the big-endian integer codec (one function under four names in the model).
   Beside them, what the serializer and codec files share: arithmetic of [len], and [lall] / [kvall], the two
   shapes in which Ser's recursive predicates quantify over the elements of a container. *)
From Coq Require Import Lia.
From Model Require Import Base Ser.
From Model Require Wire WsFrame StructPack.
From Proofs Require Export ListP.
Open Scope Z_scope.

(* for hypotheses with large sides, which [injection] applied to them directly would normalise first *)
Lemma SOk_inj {A} (a b : A) : SOk a = SOk b -> a = b.
Proof. intro H. injection H. auto. Qed.

Lemma Z_of_byte_range : forall b, 0 <= Z_of_byte b < 256.
Proof.
  intro b. unfold Z_of_byte. pose proof (Byte.to_N_bounded b). lia.
Qed.

Lemma Z_of_byte_of_Z : forall z, Z_of_byte (byte_of_Z z) = z mod 256.
Proof.
  intro z. unfold Z_of_byte, byte_of_Z.
  assert (H : 0 <= z mod 256 < 256) by (apply Z.mod_pos_bound; lia).
  destruct (Byte.of_N (Z.to_N (z mod 256))) eqn:E.
  - apply Byte.to_of_N in E. rewrite E. lia.
  - apply Byte.of_N_None_iff in E. lia.
Qed.

Lemma byte_of_Z_of_byte : forall b, byte_of_Z (Z_of_byte b) = b.
Proof.
  intro b. unfold byte_of_Z, Z_of_byte.
  pose proof (Byte.to_N_bounded b).
  rewrite Z.mod_small by lia. rewrite N2Z.id. rewrite Byte.of_to_N. reflexivity.
Qed.

Lemma Z_of_byte_inj : forall a b, Z_of_byte a = Z_of_byte b -> a = b.
Proof.
  intros a b H. rewrite <- (byte_of_Z_of_byte a), <- (byte_of_Z_of_byte b). now rewrite H.
Qed.

Lemma len_app {A} (a b : list A) : len (a ++ b) = len a + len b.
Proof. unfold len. rewrite app_length. lia. Qed.
Lemma len_nonneg {A} (a : list A) : 0 <= len a.
Proof. unfold len. lia. Qed.
Lemma len_cons {A} (x : A) l : len (x :: l) = 1 + len l.
Proof. unfold len. simpl length. lia. Qed.
Lemma len_split {A} k (l : list A) : len (firstn k l) + len (skipn k l) = len l.
Proof. rewrite <- len_app, firstn_skipn. reflexivity. Qed.
Lemma len_firstn_le {A} k (l : list A) : len (firstn k l) <= Z.of_nat k.
Proof. unfold len. pose proof (firstn_le_length k l). lia. Qed.

Lemma len_map {A B} (f : A -> B) l : len (map f l) = len l.
Proof. unfold len. rewrite map_length. reflexivity. Qed.
Lemma len_repeat {A} (a : A) n : 0 <= n -> len (repeat a (Z.to_nat n)) = n.
Proof. intro H. unfold len. rewrite repeat_length. lia. Qed.
Lemma len_0_nil {A} (l : list A) : len l = 0 -> l = [].
Proof. destruct l; [reflexivity | discriminate]. Qed.

Definition lall {A} (Q : A -> Prop) (l : list A) : Prop := fold_right (fun x P => Q x /\ P) True l.
Definition kvall {A B} (PK : A -> Prop) (PV : B -> Prop) (d : list (A * B)) : Prop :=
  fold_right (fun p P => PK (fst p) /\ PV (snd p) /\ P) True d.

Lemma lall_Forall {A} (Q : A -> Prop) l : lall Q l <-> Forall Q l.
Proof. induction l; cbn; rewrite ?Forall_cons_iff; [split; auto | tauto]. Qed.
Lemma kvall_Forall {A B} (PK : A -> Prop) (PV : B -> Prop) d :
  kvall PK PV d <-> Forall (fun p => PK (fst p) /\ PV (snd p)) d.
Proof. induction d; cbn; rewrite ?Forall_cons_iff; [split; auto | tauto]. Qed.

Lemma lall_impl {A} (P Q : A -> Prop) l : Forall (fun x => P x -> Q x) l -> lall P l -> lall Q l.
Proof. induction 1; cbn; tauto. Qed.
Lemma kvall_impl {A B} (PK QK : A -> Prop) (PV QV : B -> Prop) d :
  Forall (fun p => (PK (fst p) -> QK (fst p)) /\ (PV (snd p) -> QV (snd p))) d ->
  kvall PK PV d -> kvall QK QV d.
Proof. induction 1; cbn; tauto. Qed.

Lemma fold_max_ge {A} (g : A -> nat) c l :
  (c <= fold_right (fun x a => Nat.max (g x) a) c l)%nat /\
  forall x, In x l -> (g x <= fold_right (fun x a => Nat.max (g x) a) c l)%nat.
Proof.
  induction l as [|y r [IH1 IH2]]; cbn [fold_right In]; (split; [lia|]); [intros x []|].
  intros x [->|Hx]; [lia | specialize (IH2 x Hx); lia].
Qed.

(* The model writes struct.pack(">…")/unpack of an unsigned integer out four times, once for each part of
   the source that packs one: they are one function, and the lemmas below are stated of Ser's copy. *)
Lemma wire_be : Wire.be = be_enc. Proof. reflexivity. Qed.
Lemma ws_be_enc : WsFrame.be_enc = be_enc. Proof. reflexivity. Qed.
Lemma sp_be_enc : StructPack.sp_be = be_enc. Proof. reflexivity. Qed.
Lemma wire_unbe : Wire.unbe = be_dec. Proof. reflexivity. Qed.
Lemma ws_be_dec : WsFrame.be_dec = be_dec. Proof. reflexivity. Qed.
Lemma sp_dec_be_dec : StructPack.sp_dec = be_dec. Proof. reflexivity. Qed.

Lemma be_enc_length : forall n z, length (be_enc n z) = n.
Proof.
  induction n; intro z; simpl; [reflexivity|].
  rewrite app_length, IHn. simpl. lia.
Qed.

Lemma be_enc_len : forall n z, len (be_enc n z) = Z.of_nat n.
Proof. intros. unfold len. now rewrite be_enc_length. Qed.

Lemma be_dec_app1 : forall l b, be_dec (l ++ [b]) = be_dec l * 256 + Z_of_byte b.
Proof.
  intros. unfold be_dec. rewrite fold_left_app. reflexivity.
Qed.

Lemma be_dec_enc : forall n z, be_dec (be_enc n z) = z mod 256 ^ Z.of_nat n.
Proof.
  induction n; intro z.
  - simpl. rewrite Z.mod_1_r. reflexivity.
  - cbn [be_enc]. rewrite be_dec_app1, IHn, Z_of_byte_of_Z.
    rewrite Nat2Z.inj_succ, Z.pow_succ_r by lia.
    assert (0 < 256 ^ Z.of_nat n) by (apply Z.pow_pos_nonneg; lia).
    rewrite Z.rem_mul_r by lia. lia.
Qed.

Lemma be_dec_range : forall l, 0 <= be_dec l < 256 ^ len l.
Proof.
  intro l. induction l using rev_ind.
  - cbn. lia.
  - rewrite be_dec_app1, len_app. change (len [x]) with 1.
    rewrite Z.pow_add_r by (try apply len_nonneg; lia).
    pose proof (Z_of_byte_range x). nia.
Qed.

Lemma be_dec_signed_enc : forall n z,
  - (256 ^ Z.of_nat n) <= 2 * z < 256 ^ Z.of_nat n ->
  be_dec_signed (be_enc n z) = z.
Proof.
  intros n z Hz. unfold be_dec_signed.
  rewrite be_dec_enc. unfold len. rewrite be_enc_length.
  set (w := 256 ^ Z.of_nat n) in *.
  assert (0 < w) by (apply Z.pow_pos_nonneg; lia).
  destruct (Z_lt_le_dec z 0).
  - assert (z mod w = z + w).
    { symmetry. apply Z.mod_unique with (q := -1); lia. }
    destruct (2 * (z mod w) <? w) eqn:E; lia.
  - rewrite Z.mod_small by lia.
    destruct (2 * z <? w) eqn:E; lia.
Qed.
