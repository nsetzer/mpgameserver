(* Utf8P.v — the strict UTF-8 decoder inverts the encoder; encoder output are bytes. *)
From Coq Require Import Lia ZifyBool.
From Model Require Import Base Utf8.
From Proofs Require Import BytesP.
Open Scope Z_scope.

Definition bytes_ok (l : list Z) : Prop := Forall (fun b => 0 <= b < 256) l.

(* The decoder on one well-formed sequence of each length.  The tail is hidden while the head is
   unfolded, so that the branches about to be discarded are not unfolded as well. *)
Ltac dec_head r0 := remember r0 as tl eqn:Etl; cbn [utf8_dec]; subst tl.

Lemma utf8_dec_1 b0 r : b0 < 0x80 -> utf8_dec (b0 :: r) = option_map (cons b0) (utf8_dec r).
Proof. intros H. cbn [utf8_dec]. replace (b0 <? 0x80) with true by lia. reflexivity. Qed.

Lemma utf8_dec_2 b0 b1 r : 0xC2 <= b0 < 0xE0 -> is_cont b1 = true ->
  utf8_dec (b0 :: b1 :: r) = option_map (cons ((b0 - 0xC0) * 64 + (b1 - 0x80))) (utf8_dec r).
Proof.
  intros H0 H1. dec_head (b1 :: r).
  replace (b0 <? 0x80) with false by lia. replace (b0 <? 0xC2) with false by lia.
  replace (b0 <? 0xE0) with true by lia. rewrite H1. reflexivity.
Qed.

Lemma utf8_dec_3 b0 b1 b2 r : 0xE0 <= b0 < 0xF0 -> is_cont b1 = true -> is_cont b2 = true ->
  (b0 = 0xE0 -> 0xA0 <= b1) -> (b0 = 0xED -> b1 <= 0x9F) ->
  utf8_dec (b0 :: b1 :: b2 :: r)
  = option_map (cons ((b0 - 0xE0) * 4096 + (b1 - 0x80) * 64 + (b2 - 0x80))) (utf8_dec r).
Proof.
  intros H0 H1 H2 Hlo Hhi. dec_head (b1 :: b2 :: r).
  replace (b0 <? 0x80) with false by lia. replace (b0 <? 0xC2) with false by lia.
  replace (b0 <? 0xE0) with false by lia. replace (b0 <? 0xF0) with true by lia.
  rewrite H2, andb_true_r. unfold is_cont, inr in *.
  destruct (Z.eqb_spec b0 0xE0); [|destruct (Z.eqb_spec b0 0xED)];
    (replace (_ && _) with true by lia); reflexivity.
Qed.

Lemma utf8_dec_4 b0 b1 b2 b3 r :
  0xF0 <= b0 < 0xF5 -> is_cont b1 = true -> is_cont b2 = true -> is_cont b3 = true ->
  (b0 = 0xF0 -> 0x90 <= b1) -> (b0 = 0xF4 -> b1 <= 0x8F) ->
  utf8_dec (b0 :: b1 :: b2 :: b3 :: r)
  = option_map (cons ((b0 - 0xF0) * 262144 + (b1 - 0x80) * 4096 + (b2 - 0x80) * 64 + (b3 - 0x80)))
               (utf8_dec r).
Proof.
  intros H0 H1 H2 H3 Hlo Hhi. dec_head (b1 :: b2 :: b3 :: r).
  replace (b0 <? 0x80) with false by lia. replace (b0 <? 0xC2) with false by lia.
  replace (b0 <? 0xE0) with false by lia. replace (b0 <? 0xF0) with false by lia.
  replace (b0 <? 0xF5) with true by lia.
  rewrite H2, H3, !andb_true_r. unfold is_cont, inr in *.
  destruct (Z.eqb_spec b0 0xF0); [|destruct (Z.eqb_spec b0 0xF4)];
    (replace (_ && _) with true by lia); reflexivity.
Qed.

(* The encoder writes the code point in radix 64, one digit to a continuation byte.  No Zify hook for
   div and mod is set, so [lia] takes x / 64 and x mod 64 for atoms: [digit64] is what relates them. *)
Lemma digit64 x : x = 64 * (x / 64) + x mod 64 /\ 0 <= x mod 64 < 64.
Proof. split; [apply Z.div_mod | apply Z.mod_pos_bound]; lia. Qed.

Lemma is_cont_digit x : is_cont (0x80 + x mod 64) = true.
Proof. pose proof (digit64 x). unfold is_cont. lia. Qed.

Lemma Some_inj : forall A (a b : A), Some a = Some b -> a = b.
Proof. intros A a b H. injection H. auto. Qed.

Lemma utf8_dec_enc1 : forall c l, utf8_enc1 c = Some l ->
  bytes_ok l /\ forall r, utf8_dec (l ++ r) = option_map (cons c) (utf8_dec r).
Proof.
  intros c l H. unfold utf8_enc1 in H.
  pose proof (digit64 c) as D0. pose proof (digit64 (c / 64)) as D1.
  pose proof (digit64 (c / 64 / 64)) as D2.
  destruct (c <? 0) eqn:E0; [discriminate|].
  destruct (c <? 0x80) eqn:E1.
  { apply Some_inj in H; subst l. split; [repeat (constructor; [cbv beta; lia|]); constructor|].
    intro r. apply utf8_dec_1. lia. }
  destruct (c <? 0x800) eqn:E2.
  { apply Some_inj in H; subst l. split; [repeat (constructor; [cbv beta; lia|]); constructor|].
    intro r. cbn [app]. rewrite utf8_dec_2 by (apply is_cont_digit || lia).
    do 2 f_equal. lia. }
  change 4096 with (64 * 64) in H. change 262144 with (64 * 64 * 64) in H.
  rewrite <- !Z.div_div in H by lia.
  destruct (c <? 0x10000) eqn:E3.
  { destruct (is_surrogate c) eqn:E4; [discriminate|]. unfold is_surrogate in E4.
    apply Some_inj in H; subst l. split; [repeat (constructor; [cbv beta; lia|]); constructor|].
    intro r. cbn [app]. rewrite utf8_dec_3 by (apply is_cont_digit || lia).
    do 2 f_equal. lia. }
  destruct (c <? 0x110000) eqn:E5; [|discriminate].
  apply Some_inj in H; subst l. split; [repeat (constructor; [cbv beta; lia|]); constructor|].
  intro r. cbn [app]. rewrite utf8_dec_4 by (apply is_cont_digit || lia).
  do 2 f_equal. lia.
Qed.

Lemma utf8_dec_enc : forall s l, utf8_enc s = Some l -> bytes_ok l /\ utf8_dec l = Some s.
Proof.
  induction s as [|c s IH]; intros l H; cbn in H.
  - injection H as <-. split; [constructor | reflexivity].
  - destruct (utf8_enc1 c) as [a|] eqn:Ea; [|discriminate].
    destruct (utf8_enc s) as [b|] eqn:Eb; [|discriminate].
    injection H as <-.
    destruct (utf8_dec_enc1 _ _ Ea) as [Ha Hd]. destruct (IH _ eq_refl) as [Hb Hs].
    split; [apply Forall_app; split; assumption|].
    rewrite Hd, Hs. reflexivity.
Qed.

Lemma map_Z_of_byte_of_Z : forall l, bytes_ok l -> map Z_of_byte (map byte_of_Z l) = l.
Proof.
  induction 1; cbn; [reflexivity|].
  rewrite Z_of_byte_of_Z, IHForall. f_equal. apply Z.mod_small. assumption.
Qed.

Theorem utf8_roundtrip : forall s bs, utf8_encode s = Some bs -> utf8_decode bs = Some s.
Proof.
  intros s bs H. unfold utf8_encode in H. destruct (utf8_enc s) as [l|] eqn:E; [|discriminate].
  injection H as <-. unfold utf8_decode.
  destruct (utf8_dec_enc _ _ E) as [Hb Hd]. rewrite map_Z_of_byte_of_Z by assumption. exact Hd.
Qed.

Lemma utf8_enc1_some : forall c, cp_ok c = true -> is_surrogate c = false -> exists l, utf8_enc1 c = Some l.
Proof.
  intros c H1 H2. unfold utf8_enc1, cp_ok in *. rewrite H2.
  replace (c <? 0) with false by lia. replace (c <? 0x110000) with true by lia.
  destruct (c <? 0x80), (c <? 0x800), (c <? 0x10000); eauto.
Qed.

Theorem utf8_encode_total : forall s,
  Forall (fun c => cp_ok c = true /\ is_surrogate c = false) s -> exists bs, utf8_encode s = Some bs.
Proof.
  intros s H. unfold utf8_encode.
  assert (exists l, utf8_enc s = Some l) as [l ->]; [|eauto].
  induction H as [|c s [H1 H2] _ [l IH]]; cbn; [eauto|].
  destruct (utf8_enc1_some c H1 H2) as [a ->]. rewrite IH. eauto.
Qed.

Theorem utf8_encode_surrogate : forall s c, In c s -> is_surrogate c = true -> utf8_encode s = None.
Proof.
  intros s c Hin Hs. unfold utf8_encode.
  assert (utf8_enc s = None) as ->; [|reflexivity].
  induction s as [|d s IH]; [destruct Hin|].
  cbn. destruct Hin as [->|Hin].
  - assert (utf8_enc1 c = None) as ->; [|reflexivity].
    unfold utf8_enc1. rewrite Hs. unfold is_surrogate in Hs.
    replace (c <? 0) with false by lia. replace (c <? 0x80) with false by lia.
    replace (c <? 0x800) with false by lia. replace (c <? 0x10000) with true by lia. reflexivity.
  - rewrite (IH Hin). destruct (utf8_enc1 d); reflexivity.
Qed.
