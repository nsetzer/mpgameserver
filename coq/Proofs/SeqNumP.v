(* Sequence numbers as representatives of unbounded indices (wire), and the receive
   window as a set of such indices (R). *)
From Coq Require Import Lia ZifyBool.
From Model Require Import Base SeqNum.
Open Scope Z_scope.

(* all that is needed of `mod` : wire n is the representative of n in 1..RING *)
Lemma wire_spec n : exists q, wire n = n - RING * q /\ 1 <= wire n <= RING.
Proof.
  exists ((n - 1) / RING). unfold wire, RING.
  pose proof (Z.div_mod (n - 1) 65535 ltac:(lia)). pose proof (Z.mod_pos_bound (n - 1) 65535 ltac:(lia)). lia.
Qed.

Lemma wire_range n : 1 <= wire n <= RING.
Proof. destruct (wire_spec n) as (? & ? & ?). assumption. Qed.

Lemma wire_nonzero n : (wire n =? 0) = false.
Proof. pose proof (wire_range n). lia. Qed.

Lemma wire_small n : 1 <= n <= RING -> wire n = n.
Proof. destruct (wire_spec n) as (? & ? & ?). unfold RING in *. lia. Qed.

Lemma wire_wire_add n k : wire (wire n + k) = wire (n + k).
Proof.
  destruct (wire_spec n) as (? & ? & ?). destruct (wire_spec (wire n + k)) as (? & ? & ?).
  destruct (wire_spec (n + k)) as (? & ? & ?). unfold RING in *. lia.
Qed.

Lemma seq_wrap_range r : 1 - RING <= r <= 2 * RING -> 1 <= seq_wrap r <= RING.
Proof. unfold seq_wrap, RING. intros. destruct (r <? 1) eqn:?; destruct (_ >? _) eqn:?; lia. Qed.

Lemma seq_wrap_wire r : 1 - RING <= r <= 2 * RING -> seq_wrap r = wire r.
Proof.
  intros. destruct (wire_spec r) as (? & ? & ?). unfold seq_wrap, RING in *.
  destruct (r <? 1) eqn:?; destruct (_ >? _) eqn:?; lia.
Qed.

Lemma seq_succ_range a : 0 <= a <= RING -> 1 <= seq_succ a <= RING.
Proof. intros. apply seq_wrap_range. unfold RING in *. lia. Qed.

Lemma seq_succ_plain a : 0 <= a < RING -> seq_succ a = a + 1.
Proof. intros. unfold seq_succ. rewrite seq_wrap_wire, wire_small; unfold RING in *; lia. Qed.

Lemma seq_succ_wrap : seq_succ RING = 1.
Proof. reflexivity. Qed.

Lemma seq_succ_wire n : seq_succ (wire n) = wire (n + 1).
Proof.
  pose proof (wire_range n). unfold seq_succ.
  rewrite seq_wrap_wire by (unfold RING in *; lia). apply wire_wire_add.
Qed.

Lemma seq_succ_first : seq_succ 0 = wire 1.
Proof. reflexivity. Qed.

Lemma seq_new_ok v : 0 <= v <= RING -> seq_new v = Ok v.
Proof. intros. unfold seq_new. destruct (_ >? _) eqn:?; [lia|]. destruct (_ <? _) eqn:?; [lia|reflexivity]. Qed.

Lemma seq_add_ok a k : 0 <= a <= RING -> - RING < k <= RING ->
  exists r, seq_add a k = Ok r /\ 1 <= r <= RING.
Proof.
  intros Ha Hk. exists (seq_wrap (a + k)).
  assert (1 <= seq_wrap (a + k) <= RING) by (apply seq_wrap_range; lia).
  split; [apply seq_new_ok; lia|assumption].
Qed.

Lemma seq_add_wire n k : - RING < k <= RING -> seq_add (wire n) k = Ok (wire (n + k)).
Proof.
  intros Hk. pose proof (wire_range n). pose proof (wire_range (n + k)). unfold seq_add.
  rewrite seq_wrap_wire, wire_wire_add by lia. apply seq_new_ok. lia.
Qed.

Lemma seq_sub_wire n k : 0 <= k < RING -> seq_sub (wire n) k = Ok (wire (n - k)).
Proof. intros. apply (seq_add_wire n (- k)). lia. Qed.

Lemma seq_diff_wire m n : Z.abs (m - n) <= HALF -> seq_diff (wire m) (wire n) = m - n.
Proof.
  intros. destruct (wire_spec m) as (? & ? & ?). destruct (wire_spec n) as (? & ? & ?).
  unfold seq_diff, RING, HALF in *. cbv zeta.
  destruct (_ >? _) eqn:?; [lia|]. destruct (_ <? _) eqn:?; lia.
Qed.

Lemma seq_diff_exact a k : 1 <= a <= RING -> 1 <= k <= HALF ->
  exists b, seq_add a k = Ok b /\ seq_diff b a = k /\ seq_diff a b = - k
            /\ seq_newer b a = true /\ seq_newer a b = false
            /\ seq_lt a b = true /\ seq_gt b a = true /\ seq_lt b a = false /\ seq_gt a b = false.
Proof.
  intros Ha Hk. rewrite <- (wire_small a Ha).
  rewrite seq_add_wire by (unfold RING, HALF in *; lia).
  exists (wire (a + k)). split; [reflexivity|].
  unfold seq_newer, seq_lt, seq_gt. rewrite !seq_diff_wire by lia. lia.
Qed.

Lemma mask_testbit nb d k : 1 <= nb -> 1 <= d -> 0 <= k ->
  Z.testbit (bf_mask nb d) k = (k =? nb - d).
Proof.
  intros Hnb Hd Hk. unfold bf_mask.
  rewrite Z.shiftr_spec by lia. rewrite Z.shiftl_1_l.
  rewrite Z.pow2_bits_eqb by lia. lia.
Qed.

Lemma mask_zero nb d : 1 <= nb -> nb < d -> bf_mask nb d = 0.
Proof.
  intros Hnb Hd. apply Z.bits_inj'. intros k Hk.
  rewrite mask_testbit by lia. rewrite Z.bits_0. lia.
Qed.

Lemma land_mask_zero nb d bits : 1 <= nb -> 1 <= d <= nb ->
  (Z.land (bf_mask nb d) bits =? 0) = negb (Z.testbit bits (nb - d)).
Proof.
  intros Hnb Hd.
  destruct (Z.testbit bits (nb - d)) eqn:Hb; cbn [negb].
  - apply Z.eqb_neq. intro H0.
    assert (Ht : Z.testbit (Z.land (bf_mask nb d) bits) (nb - d) = true).
    { rewrite Z.land_spec, mask_testbit, Hb by lia. rewrite Z.eqb_refl. reflexivity. }
    rewrite H0, Z.bits_0 in Ht. discriminate.
  - apply Z.eqb_eq. apply Z.bits_inj'. intros k Hk.
    rewrite Z.land_spec, mask_testbit, Z.bits_0 by lia.
    destruct (k =? nb - d) eqn:E; [|reflexivity].
    apply Z.eqb_eq in E. subst k. rewrite Hb. reflexivity.
Qed.

Definition InB (n : Z) (acc : list Z) : bool := existsb (Z.eqb n) acc.

Lemma InB_In n acc : InB n acc = true <-> In n acc.
Proof.
  unfold InB. rewrite existsb_exists. split.
  - intros [x [Hx E]]. apply Z.eqb_eq in E. subst. exact Hx.
  - intros H. exists n. split; [exact H|apply Z.eqb_refl].
Qed.

Lemma InB_cons n x acc : InB n (x :: acc) = (n =? x) || InB n acc.
Proof. reflexivity. Qed.

Lemma InB_above m acc x : (forall y, In y acc -> y <= m) -> m < x -> InB x acc = false.
Proof.
  intros Hle Hx. destruct (InB x acc) eqn:E; [|reflexivity].
  apply InB_In in E. apply Hle in E. lia.
Qed.

Lemma spec_dup_true nb m acc n : spec_dup nb m acc n = true <-> In n acc /\ n <= m /\ m - n <= nb.
Proof. unfold spec_dup. fold (InB n acc). rewrite <- InB_In. lia. Qed.

(* Window f holds exactly the indices acc, of which m is the newest: bit k stands for the index
   nbits - k behind m. *)
Record R (f : bitfield) (m : Z) (acc : list Z) : Prop := {
  R_nb : 1 <= bf_nbits f;
  R_cur : bf_cur f = wire m;
  R_m : 1 <= m;
  R_in : InB m acc = true;
  R_le : forall x, In x acc -> x <= m;
  R_bits : forall k, 0 <= k < bf_nbits f ->
      Z.testbit (bf_bits f) k = InB (m - (bf_nbits f - k)) acc;
  R_hi : forall k, bf_nbits f <= k -> Z.testbit (bf_bits f) k = false
}.

Lemma R_first nb n : 1 <= nb -> 1 <= n ->
  bf_insert (bf_new nb) (wire n) = Ok {| bf_nbits := nb; bf_bits := 0; bf_cur := wire n |}
  /\ R {| bf_nbits := nb; bf_bits := 0; bf_cur := wire n |} n [n].
Proof.
  intros Hnb Hn. split; [reflexivity|].
  constructor; cbn [bf_nbits bf_bits bf_cur]; try lia; try reflexivity.
  - rewrite InB_cons, Z.eqb_refl. reflexivity.
  - intros x [Hx|[]]. lia.
  - intros k Hk. rewrite Z.bits_0, InB_cons. cbn. lia.
  - intros k Hk. apply Z.bits_0.
Qed.

Lemma R_contains f m acc n : R f m acc -> Z.abs (n - m) <= HALF ->
  bf_contains f (wire n) = spec_dup (bf_nbits f) m acc n.
Proof.
  intros HR Hhr. destruct HR as [Hnb Hcur Hm Hin Hle Hbits Hhi].
  set (nb := bf_nbits f) in *.
  unfold bf_contains, spec_dup. fold (InB n acc). fold nb.
  rewrite Hcur, seq_diff_wire by lia. cbv zeta.
  destruct (m - n =? 0) eqn:Hz.
  - assert (n = m) by lia. subst n. rewrite Hin. lia.
  - destruct (m - n >? 0) eqn:Hp.
    + replace (n <=? m) with true by lia. rewrite andb_true_r.
      destruct (m - n <=? nb) eqn:Hw.
      * rewrite land_mask_zero by lia. rewrite negb_involutive, Hbits by lia.
        rewrite andb_true_r. f_equal. lia.
      * rewrite mask_zero by lia. rewrite Z.land_0_l. rewrite andb_false_r. reflexivity.
    + replace (n <=? m) with false by lia. rewrite andb_false_r. reflexivity.
Qed.

(* When n lies behind the window no bit is set: the mask is 0 there, and the clause R_bits has no place for
   that index. *)
Lemma R_mark f m acc n : R f m acc -> n < m ->
  R {| bf_nbits := bf_nbits f; bf_bits := Z.lor (bf_bits f) (bf_mask (bf_nbits f) (m - n));
       bf_cur := bf_cur f |} m (n :: acc).
Proof.
  intros [Hnb Hcur Hm Hin Hle Hbits Hhi] Hlt.
  constructor; cbn [bf_nbits bf_bits bf_cur]; try assumption.
  - rewrite InB_cons, Hin. apply orb_true_r.
  - intros x [<-|Hx]; [lia|apply Hle, Hx].
  - intros k Hk. rewrite Z.lor_spec, mask_testbit, Hbits, InB_cons by lia.
    rewrite orb_comm. f_equal. lia.
  - intros k Hk. rewrite Z.lor_spec, mask_testbit, Hhi by lia. lia.
Qed.

Lemma R_slide f m acc n : R f m acc -> m < n ->
  R {| bf_nbits := bf_nbits f;
       bf_bits := if n - m <=? bf_nbits f
                  then Z.lor (Z.shiftr (bf_bits f) (n - m)) (bf_mask (bf_nbits f) (n - m)) else 0;
       bf_cur := wire n |} n (n :: acc).
Proof.
  intros [Hnb Hcur Hm Hin Hle Hbits Hhi] Hlt. set (nb := bf_nbits f) in *.
  pose proof (InB_above m acc) as Habove.
  constructor; cbn [bf_nbits bf_bits bf_cur]; fold nb; try lia; try reflexivity.
  - rewrite InB_cons, Z.eqb_refl. reflexivity.
  - intros x [<-|Hx]; [lia|]. apply Hle in Hx. lia.
  - (* bit k of the shifted window is bit k + (n - m) of the old one: still inside the old window (the old clause),
       exactly one place above it (the previous newest, m, which the mask sets), or further up (nothing was there) *)
    intros k Hk. rewrite InB_cons. replace (n - (nb - k) =? n) with false by lia. cbn [orb].
    destruct (n - m <=? nb) eqn:Hw; [|rewrite Z.bits_0, Habove by (assumption || lia); reflexivity].
    rewrite Z.lor_spec, Z.shiftr_spec, mask_testbit by lia.
    destruct (Z_lt_ge_dec (k + (n - m)) nb).
    + rewrite Hbits by lia. replace (k =? nb - (n - m)) with false by lia.
      rewrite orb_false_r. f_equal. lia.
    + rewrite Hhi by lia. cbn [orb]. destruct (k =? nb - (n - m)) eqn:E.
      * replace (n - (nb - k)) with m by lia. symmetry. exact Hin.
      * rewrite Habove by (assumption || lia). reflexivity.
  - intros k Hk. destruct (n - m <=? nb); [|apply Z.bits_0].
    rewrite Z.lor_spec, Z.shiftr_spec, mask_testbit, Hhi by lia. lia.
Qed.

Lemma R_step f m acc n : R f m acc -> Z.abs (n - m) <= HALF ->
  if spec_dup (bf_nbits f) m acc n
  then bf_insert f (wire n) = Err EDup
  else exists f', bf_insert f (wire n) = Ok f' /\ bf_nbits f' = bf_nbits f
                  /\ R f' (Z.max m n) (n :: acc).
Proof.
  intros HR Hhr. rewrite <- (R_contains f m acc n HR Hhr).
  assert (Hc : (bf_cur f =? 0) = false) by (rewrite (R_cur _ _ _ HR); apply wire_nonzero).
  assert (Hd : seq_diff (bf_cur f) (wire n) = m - n) by (rewrite (R_cur _ _ _ HR); apply seq_diff_wire; lia).
  unfold bf_insert, bf_contains. rewrite Hc, Hd. cbv zeta.
  destruct (m - n <? 0) eqn:Hneg.
  - replace (m - n =? 0) with false by lia. replace (m - n >? 0) with false by lia.
    eexists. split; [reflexivity|]. split; [reflexivity|].
    replace (Z.max m n) with n by lia. replace (- (m - n)) with (n - m) by lia.
    apply R_slide; [exact HR|lia].
  - destruct (m - n =? 0) eqn:Hz; [reflexivity|]. replace (m - n >? 0) with true by lia.
    destruct (negb _); [reflexivity|].
    eexists. split; [reflexivity|]. split; [reflexivity|].
    replace (Z.max m n) with m by lia. apply R_mark; [exact HR|lia].
Qed.

Lemma R_dup f m acc n : R f m acc -> Z.abs (n - m) <= HALF ->
  In n acc -> m - n <= bf_nbits f -> bf_insert f (wire n) = Err EDup.
Proof.
  intros HR Hhr Hin Hw. pose proof (R_step f m acc n HR Hhr) as Hs.
  rewrite (proj2 (spec_dup_true _ m acc n)) in Hs; [exact Hs|].
  split; [exact Hin|]. split; [exact (R_le _ _ _ HR n Hin)|exact Hw].
Qed.

Lemma R_run h : forall f m acc, R f m acc -> half_range m h ->
  impl_hist f h = spec_hist (bf_nbits f) m acc h
  /\ bf_nbits (impl_state f h) = bf_nbits f
  /\ R (impl_state f h) (fst (spec_state (bf_nbits f) m acc h)) (snd (spec_state (bf_nbits f) m acc h)).
Proof.
  induction h as [|n h IH]; intros f m acc HR Hh; [auto|].
  cbn [impl_hist impl_state spec_hist spec_state half_range] in *. destruct Hh as (Hn & Hab & Hh).
  pose proof (R_step f m acc n HR Hab) as Hs.
  destruct (spec_dup (bf_nbits f) m acc n) eqn:Hd.
  - rewrite Hs. apply spec_dup_true in Hd. replace (Z.max m n) with m in * by lia.
    destruct (IH f m acc HR Hh) as (-> & ? & ?). auto.
  - destruct Hs as (f' & -> & Hnb & HR'). rewrite <- Hnb.
    destruct (IH f' _ _ HR' Hh) as (-> & E & ?). rewrite E. auto.
Qed.

Lemma spec_state_mem nb h : forall m acc x,
  InB x (snd (spec_state nb m acc h)) = InB x acc || InB x h.
Proof.
  induction h as [|n h IH]; intros m acc x; cbn [spec_state snd].
  - unfold InB at 3. cbn. rewrite orb_false_r. reflexivity.
  - rewrite IH. rewrite (InB_cons x n h).
    destruct (spec_dup nb m acc n) eqn:Hd.
    + apply spec_dup_true in Hd as [Hd _]. apply InB_In in Hd.
      destruct (x =? n) eqn:E; [|reflexivity].
      assert (x = n) by lia. subst x. rewrite Hd. reflexivity.
    + rewrite InB_cons. destruct (x =? n); destruct (InB x acc); reflexivity.
Qed.

Lemma spec_state_max nb h : forall m acc,
  fst (spec_state nb m acc h) = fold_left Z.max h m.
Proof.
  induction h as [|n h IH]; intros m acc; cbn [spec_state fst fold_left]; [reflexivity|].
  apply IH.
Qed.

Theorem bf_new_run nb n0 h : 1 <= nb -> 1 <= n0 -> half_range n0 h ->
  impl_hist (bf_new nb) (n0 :: h) = false :: spec_hist nb n0 [n0] h
  /\ let f := impl_state (bf_new nb) (n0 :: h) in
     bf_nbits f = nb /\ R f (fold_left Z.max h n0) (snd (spec_state nb n0 [n0] h)).
Proof.
  intros Hnb Hn0 Hh. cbn [impl_hist impl_state].
  destruct (R_first nb n0 Hnb Hn0) as [-> HR].
  destruct (R_run h _ n0 [n0] HR Hh) as (-> & E & HR'). cbn [bf_nbits] in *.
  rewrite spec_state_max in HR'. auto.
Qed.

Theorem bf_new_contains nb n0 h n : 1 <= nb -> 1 <= n0 -> half_range n0 h ->
  let m := fold_left Z.max h n0 in
  Z.abs (n - m) <= HALF ->
  bf_contains (impl_state (bf_new nb) (n0 :: h)) (wire n)
  = InB n (n0 :: h) && (n <=? m) && (m - n <=? nb).
Proof.
  intros Hnb Hn0 Hh m Hab. destruct (bf_new_run nb n0 h Hnb Hn0 Hh) as (_ & Hnbf & HR).
  rewrite (R_contains _ _ _ n HR Hab), Hnbf. unfold spec_dup. fold (InB n (snd (spec_state nb n0 [n0] h))).
  rewrite spec_state_mem, (InB_cons n n0 h), (InB_cons n n0 []). cbn [InB existsb]. rewrite orb_false_r. reflexivity.
Qed.

Lemma hdr_acks_contains ack bits s :
  hdr_acks ack bits s = bf_contains {| bf_nbits := 32; bf_bits := bits; bf_cur := ack |} s.
Proof.
  unfold hdr_acks, bf_contains. cbn [bf_nbits bf_bits bf_cur]. cbv zeta.
  set (d := seq_diff ack s).
  destruct (d =? 0) eqn:Hz; [reflexivity|]. cbn [orb].
  destruct (d >? 0) eqn:Hp.
  - replace (1 <=? d) with true by lia. cbn [andb].
    destruct (d <=? 32) eqn:Hw; cbn [andb].
    + unfold bf_mask. change (Z.shiftl 1 (32 - 1)) with 2147483648.
      rewrite Z.land_comm. reflexivity.
    + rewrite mask_zero by lia. reflexivity.
  - replace (1 <=? d) with false by lia. reflexivity.
Qed.
